(* Decidable checks used by the termination theorems (Proofs/TermViable.v, Proofs/TermAll.v).
   Boolean definitions only; their Prop readings are proved in Proofs/TermViable.v.
   - productiveb g            : every nonterminal reachable from the root derives a string of terms;
   - lookahead_generatedb     : every dot-0 item [B -> . x, b] of a state (other than the root item of state 0) comes
                                after an item [A -> alpha . B beta, a] of the same state with b in FIRST(beta a)
                                (the order and the lookaheads closure produces; strengthens closure_generatedb of
                                Proofs/ReportViable.v, which ignores b);
   - reduce_lookaheadb        : a reduce cell in the column of term t is justified by a completed item of that rule
                                whose lookahead is t ([cell_justified] of Valid/LRValid.v accepts any lookahead). *)
Require Import Ctpg.Base.Prelude Ctpg.Model.Grammar Ctpg.Model.LRGen Ctpg.Spec.Cfg Ctpg.Valid.LRValid.

(* ---------- productivity ---------- *)

(* every nonterminal of the right side is in the set *)
Fixpoint all_marked (p : bset) (r : list symbol) : bool :=
  match r with
  | [] => true
  | T _ :: t => all_marked p t
  | NT n :: t => bset_test p n && all_marked p t
  end.

Fixpoint iter_n {A} (n : nat) (f : A -> A) (x : A) : A :=
  match n with 0 => x | S k => iter_n k f (f x) end.

(* one rule: the left side derives a string of terms if all nonterminals of the right side do *)
Definition prod_step (g : grammar) (p : bset) (ri : rule_info) : bset :=
  match nth_error (right_sides g) (ri_r ri) with
  | Some rhs => if all_marked p rhs then bset_set p (ri_l ri) else p
  | None => p
  end.
Definition prod_pass (g : grammar) (p : bset) : bset := fold_left (prod_step g) (rule_infos g) p.
(* a pass that changes the set marks at least one more nonterminal: nterm_count passes reach the fixed point *)
Definition prod_set (g : grammar) : bset :=
  iter_n (nterm_count g) (prod_pass g) (bset_empty (nterm_count g)).

(* the nonterminals reachable from x *)
Fixpoint mark_nts (p : bset) (r : list symbol) : bset :=
  match r with
  | [] => p
  | T _ :: t => mark_nts p t
  | NT n :: t => mark_nts (bset_set p n) t
  end.
Definition reach_step (g : grammar) (p : bset) (ri : rule_info) : bset :=
  if bset_test p (ri_l ri)
  then match nth_error (right_sides g) (ri_r ri) with Some rhs => mark_nts p rhs | None => p end
  else p.
Definition reach_pass (g : grammar) (p : bset) : bset := fold_left (reach_step g) (rule_infos g) p.
Definition reach_set (g : grammar) (x : nat) : bset :=
  iter_n (nterm_count g) (reach_pass g) (bset_set (bset_empty (nterm_count g)) x).
(* the set is closed under the rules (checked, so that nothing has to be proved about the iteration) *)
Definition reach_closed (g : grammar) (p : bset) : bool :=
  forallb (fun ri => negb (bset_test p (ri_l ri)) ||
                     match nth_error (right_sides g) (ri_r ri) with Some rhs => all_marked p rhs | None => true end)
          (rule_infos g).

Definition productiveb (g : grammar) : bool :=
  match root_symbol g with
  | Some (NT x) =>
      let rs := reach_set g x in
      let ps := prod_set g in
      bset_test rs x && reach_closed g rs &&
      forallb (fun l => negb (bset_test rs l) || bset_test ps l) (seq 0 (length rs))
  | _ => true          (* no nonterminal is reachable *)
  end.

(* ---------- lookaheads of closure items ---------- *)
Definition lookahead_generatedb (g : grammar) (sts : list items) : bool :=
  let ne := nterm_empty g in
  let nf := nterm_first g ne in
  forallb (fun s =>
    let its := state_items sts s in
    forallb (fun j =>
      match nth_error its j with
      | Some i =>
          negb (Nat.eqb (it_d i) 0) || (Nat.eqb s 0 && item_eqb i (root_item g)) ||
          existsb (fun k => match nth_error its k with
                            | Some ik =>
                                match next_sym g ik with
                                | Some (NT b) =>
                                    Nat.eqb b (ri_l (get_ri g (it_r i))) &&
                                    bset_test (first_tail g ne nf (skipn (S (it_d ik)) (rhs_of g ik)) (it_t ik)) (it_t i)
                                | _ => false
                                end
                            | None => false
                            end) (seq 0 j)
      | None => true
      end) (seq 0 (length its))) (seq 0 (length sts)).

(* ---------- lookaheads of reduce cells ---------- *)
Definition reduce_lookaheadb (g : grammar) (sts : list items) (tbl : table) : bool :=
  forallb (fun s =>
    forallb (fun t =>
      let e := cell_at tbl s (nterm_count g + t) in
      match e_kind e with
      | KReduce =>
          match e_arg e with
          | Some r => existsb (fun i => Nat.eqb (it_r i) r && is_complete g i && Nat.eqb (it_t i) t) (state_items sts s)
          | None => false
          end
      | _ => true
      end) (seq 0 (term_count g))) (seq 0 (length sts)).

(* every state has an item (the same check as states_nonemptyb of Proofs/ReportViable.v) *)
Definition states_nonempty_b (sts : list items) : bool :=
  forallb (fun its => negb (Nat.eqb (length its) 0)) sts.

(* all checks the termination theorems need, on top of [validate] *)
Definition term_checks (g : grammar) (sts : list items) (tbl : table) : bool :=
  validate g sts tbl && lookahead_generatedb g sts && states_nonempty_b sts && reduce_lookaheadb g sts tbl &&
  productiveb g.
