(* Completeness of the LR(1) table validator: with a fully validated table the driver accepts every
   derivation tree of the input (Proofs/PatternCompleteLR.v with no reduction excepted); corollaries: the accepted
   language and unambiguity. *)
Require Import Ctpg.Base.Prelude Ctpg.Model.Grammar Ctpg.Model.LRGen Ctpg.Spec.Cfg Ctpg.Spec.LRSpec
               Ctpg.Valid.LRValid Ctpg.Proofs.LRMachine Ctpg.Proofs.LRValidFacts Ctpg.Proofs.LRSound
               Ctpg.Proofs.PatternCompleteLR.

Record complete_facts (g : grammar) (sts : list items) (tbl : table) (ne : bset) (nf : list bset) : Prop := {
  cf_sound : sound_facts g sts tbl;
  cf_len_nf : length nf = nterm_count g;
  cf_nf_len : forall f, In f nf -> length f = term_count g;
  cf_null_closed : forall ri, In ri (rule_infos g) ->
      all_nullable ne (get_rhs g (ri_r ri)) = true -> bset_test ne (ri_l ri) = true;
  cf_first_closed : forall ri t, In ri (rule_infos g) -> t < term_count g ->
      bset_test (first_of_syms g ne nf (bset_empty (term_count g)) (get_rhs g (ri_r ri))) t = true ->
      bset_test (nth (ri_l ri) nf []) t = true;
  cf_closure : forall s i b, s < length sts -> In i (state_items sts s) ->
      next_sym g i = Some (NT b) -> is_complete g i = false ->
      forall k t', k < snd (nth b (slices g) (0, 0)) -> t' < term_count g ->
        bset_test (first_tail g ne nf (skipn (S (it_d i)) (rhs_of g i)) (it_t i)) t' = true ->
        In (mkItem (fst (nth b (slices g) (0, 0)) + k) 0 t') (state_items sts s);
  cf_goto : forall s i, s < length sts -> In i (state_items sts s) -> is_complete g i = false ->
      exists x s', next_sym g i = Some x /\ goto_target g tbl s x = Some s' /\ s' < length sts /\
                   In (mkItem (it_r i) (S (it_d i)) (it_t i)) (state_items sts s');
  cf_reduce : forall s i, s < length sts -> In i (state_items sts s) -> is_complete g i = true ->
      (it_r i = root_rule_idx g -> e_kind (cell_at tbl s (nterm_count g + it_t i)) = KSuccess) /\
      (it_r i <> root_rule_idx g ->
       e_kind (cell_at tbl s (nterm_count g + it_t i)) = KReduce /\
       e_arg (cell_at tbl s (nterm_count g + it_t i)) = Some (it_r i))
}.

(* the full validator's facts are those of Proofs/PatternCompleteLR.v with no reduction excepted *)
Lemma complete_facts_x g sts tbl ne nf :
  complete_facts g sts tbl ne nf <-> completex_facts (fun _ _ => false) g sts tbl ne nf.
Proof.
  split; intros [? ? ? ? ? ? ? Hr]; constructor; try assumption;
    intros s i Hs Hi Hc; destruct (Hr s i Hs Hi Hc); auto.
Qed.

(* [reduce_okx] with nothing excepted computes to [reduce_ok], so the two checks are the same term *)
Lemma complete_facts_of g sts tbl ne nf : table_ok g sts tbl ne nf = true -> complete_facts g sts tbl ne nf.
Proof. intros H. apply complete_facts_x. apply completex_facts_of. exact H. Qed.

Theorem complete_mrun g sts tbl ne nf (CF : complete_facts g sts tbl ne nf) w t :
  tokens_ok g w -> derives_tree g t w -> exists n, mrun g tbl n ([0], [], w) = Some t.
Proof.
  intros Hw Hd. exists (tsize t + 1).
  exact (completex_mrun _ _ _ _ _ _ (proj1 (complete_facts_x _ _ _ _ _) CF) w t Hw Hd (tok_all _ g (fun _ _ => eq_refl) t [])).
Qed.

Theorem lr_complete : forall g sts tbl w t,
  validate g sts tbl = true ->
  tokens_ok g w ->
  derives_tree g t w ->
  accepts g tbl w t.
Proof.
  intros g sts tbl w t Hv Hw Hd. unfold validate in Hv.
  pose proof (complete_facts_of _ _ _ _ _ Hv) as CF.
  destruct (complete_mrun g sts tbl _ _ CF w t Hw Hd) as (n & Hn).
  eapply mrun_accepts. eassumption.
Qed.

Lemma validate_validate_sound g sts tbl : validate g sts tbl = true -> validate_sound g sts tbl = true.
Proof.
  unfold validate, validate_sound, table_ok. intros H.
  apply andb_true_iff in H. destruct H as [H _]. apply andb_true_iff in H. destruct H as [H _]. assumption.
Qed.

Lemma validate_facts g sts tbl : validate g sts tbl = true -> sound_facts g sts tbl.
Proof. intros H. exact (sound_facts_of g sts tbl (validate_validate_sound _ _ _ H)). Qed.

Theorem lr_language : forall g sts tbl w,
  validate g sts tbl = true ->
  no_error_symbol g tbl = true ->
  tokens_ok g w ->
  ((exists t, accepts g tbl w t) <-> derives g w).
Proof.
  intros g sts tbl w Hv Hne Hw. split.
  - intros (t & Ha). exists t. apply (lr_sound g sts tbl w t); [apply validate_validate_sound| | |]; assumption.
  - intros (t & Hd). exists t. eapply lr_complete; eassumption.
Qed.

Theorem lr_unique : forall g sts tbl w t1 t2,
  validate g sts tbl = true ->
  no_error_symbol g tbl = true ->
  tokens_ok g w ->
  derives_tree g t1 w -> derives_tree g t2 w -> t1 = t2.
Proof.
  intros g sts tbl w t1 t2 Hv _ Hw H1 H2.
  eapply (accepts_det g tbl w); eapply lr_complete; eassumption.
Qed.

Print Assumptions lr_complete.
Print Assumptions lr_language.
Print Assumptions lr_unique.
