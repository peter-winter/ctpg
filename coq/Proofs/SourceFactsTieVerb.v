(* Part of the tie between the hand-written model and the facts tools/source_facts.py read out of ctpg.hpp on this run. *)
Require Import Ctpg.Base.Prelude Ctpg.Model.SourceFacts.

(* every stream write of the driver is guarded by options.verbose except the two error messages, and the flag is read
   nowhere else (C16's frame condition on the source); the byte lists spell syntax_error and unexpected_char *)
Lemma tie_unguarded_writes :
  sf_unguarded_writes = [[115; 121; 110; 116; 97; 120; 95; 101; 114; 114; 111; 114];
                         [117; 110; 101; 120; 112; 101; 99; 116; 101; 100; 95; 99; 104; 97; 114]].
Proof. reflexivity. Qed.
Lemma tie_verbose_reads : sf_verbose_reads_outside_guards = 0. Proof. reflexivity. Qed.
