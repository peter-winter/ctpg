(* The three input buffer kinds of ctpg.hpp (Model/Buffers.v) present the same text: same begin/end distance, same byte under every
   in-range iterator, same lexeme for every 0 <= start <= end <= size (C07 at byte level); which dereferences and views fall outside. *)
From Ctpg Require Import Base.Prelude Proofs.ListFacts Model.Containers Model.Buffers.
From Coq Require Import Lia List Bool.
Import ListNotations.

(* convertible with Driver.slice_of, which is not imported here; UtilsDriverLink identifies the two *)
Definition slice (t : list nat) (s e : nat) : list nat := firstn (e - s) (skipn s t).

(* a view of len bytes at off, in any memory that holds it: a string_view made inside it is a slice of its text *)
Lemma sv_make_in (mem : list nat) (off len s e : nat) : off + len <= length mem -> s <= e -> e <= len ->
  sv_make mem (off + s) (e - s) = Ok (slice (firstn len (skipn off mem)) s e).
Proof.
  intros Hm Hse He. unfold sv_make, slice. rewrite (proj2 (Nat.leb_le _ _)) by lia. f_equal.
  rewrite skipn_firstn_comm, firstn_firstn, Nat.min_l, skipn_add by lia. reflexivity.
Qed.

Lemma sv_make_prefix (text post : list nat) (s e : nat) : s <= e -> e <= length text ->
  sv_make (text ++ post) s (e - s) = Ok (slice text s e).
Proof.
  intros Hse He. rewrite <- (firstn_app_exact text post) at 2.
  apply (sv_make_in (text ++ post) 0 (length text) s e); [rewrite app_length; lia | assumption | assumption].
Qed.

(* a literal's array is the storage of the string that holds the same text: the two kinds answer alike, in range or not *)
Lemma cs_view_is_sb_view (text : list nat) (s e : nat) :
  cs_get_view (cs_of_literal text) s e = sb_get_view {| sb_str := text |} s e.
Proof. unfold cs_get_view, sb_get_view, sb_begin. rewrite Nat.sub_0_r. reflexivity. Qed.

Theorem sb_view_spec : forall text s e, s <= e -> e <= length text ->
  sb_get_view {| sb_str := text |} s e = Ok (slice text s e).
Proof.
  intros text s e Hse He. unfold sb_get_view, sb_begin. rewrite (proj2 (Nat.ltb_ge e s) Hse), Nat.sub_0_r.
  apply sv_make_prefix; assumption.
Qed.

Theorem cs_view_spec : forall text s e, s <= e -> e <= length text ->
  cs_get_view (cs_of_literal text) s e = Ok (slice text s e).
Proof. intros text s e. rewrite cs_view_is_sb_view. apply sb_view_spec. Qed.

Theorem svb_view_spec : forall b s e, svb_wf b -> s <= e -> e <= sv_len b ->
  svb_get_view b (svb_begin b + s) (svb_begin b + e) = Ok (slice (svb_text b) s e).
Proof.
  intros b s e Hwf Hse He. unfold svb_get_view, svb_begin.
  rewrite (proj2 (Nat.ltb_ge _ _)), (proj2 (Nat.leb_le (sv_off b) _)), (proj2 (Nat.leb_le _ (sv_off b + sv_len b))) by lia.
  replace (sv_off b + s - sv_off b) with s by lia. replace (sv_off b + e - (sv_off b + s)) with (e - s) by lia.
  apply sv_make_in; assumption.
Qed.

Theorem svb_text_view : forall pre text post,
  svb_text {| sv_mem := pre ++ text ++ post; sv_off := length pre; sv_len := length text |} = text.
Proof. intros pre text post. unfold svb_text. cbn [sv_mem sv_off sv_len]. rewrite skipn_app_exact. apply firstn_app_exact. Qed.

Lemma svb_view_mid (pre text post : list nat) (s e : nat) : s <= e -> e <= length text ->
  svb_get_view {| sv_mem := pre ++ text ++ post; sv_off := length pre; sv_len := length text |} (length pre + s) (length pre + e)
  = Ok (slice text s e).
Proof.
  intros Hse He. rewrite <- (svb_text_view pre text post) at 3. apply svb_view_spec; [|assumption|assumption].
  unfold svb_wf. cbn [sv_mem sv_off sv_len]. rewrite !app_length. lia.
Qed.

Theorem buffers_agree : forall pre text post s e, s <= e -> e <= length text ->
  cs_get_view (cs_of_literal text) (cs_begin (cs_of_literal text) + s) (cs_begin (cs_of_literal text) + e)
    = sb_get_view {| sb_str := text |} s e
  /\ sb_get_view {| sb_str := text |} s e
    = svb_get_view {| sv_mem := pre ++ text ++ post; sv_off := length pre; sv_len := length text |} (length pre + s) (length pre + e).
Proof.
  intros pre text post s e Hse He. split; [apply cs_view_is_sb_view |].
  rewrite sb_view_spec, svb_view_mid by assumption. reflexivity.
Qed.

Theorem buffers_same_distance : forall pre text post,
  cs_end (cs_of_literal text) - cs_begin (cs_of_literal text) = length text
  /\ length text = sb_end {| sb_str := text |} - sb_begin {| sb_str := text |}
  /\ sb_end {| sb_str := text |} - sb_begin {| sb_str := text |}
     = svb_end {| sv_mem := pre ++ text ++ post; sv_off := length pre; sv_len := length text |}
       - svb_begin {| sv_mem := pre ++ text ++ post; sv_off := length pre; sv_len := length text |}.
Proof.
  intros pre text post. unfold cs_end, cs_begin, cs_of_literal, sb_end, sb_begin, svb_end, svb_begin. simpl.
  rewrite app_length. simpl. lia.
Qed.

Lemma deref_mid (pre text post : list nat) (i : nat) : i < length text ->
  deref (pre ++ text ++ post) (length pre + i) = Ok (nth i text 0).
Proof.
  intros Hi. unfold deref. rewrite nth_error_app2, Nat.add_comm, Nat.add_sub, nth_error_app1 by lia.
  rewrite (nth_error_nth' text 0 Hi). reflexivity.
Qed.

Theorem deref_agree : forall pre text post i, i < length text ->
  cs_deref (cs_of_literal text) i = Ok (nth i text 0)
  /\ sb_deref {| sb_str := text |} i = Ok (nth i text 0)
  /\ svb_deref {| sv_mem := pre ++ text ++ post; sv_off := length pre; sv_len := length text |} (length pre + i) = Ok (nth i text 0).
Proof.
  intros pre text post i Hi. split; [|split].
  - exact (deref_mid [] text [0] i Hi).
  - exact (deref_mid [] text [0] i Hi).
  - unfold svb_deref. cbn [sv_mem sv_off sv_len].
    rewrite (proj2 (Nat.leb_le _ _)), (proj2 (Nat.ltb_lt _ _)) by lia. apply deref_mid. exact Hi.
Qed.

Lemma deref_terminator (text : list nat) : deref (text ++ [0]) (length text) = Ok 0.
Proof.
  unfold deref. rewrite nth_error_app2 by lia. rewrite Nat.sub_diag. reflexivity.
Qed.

Theorem cs_deref_end : forall text, cs_deref (cs_of_literal text) (cs_end (cs_of_literal text)) = Ok 0.
Proof.
  intros text. unfold cs_deref, cs_end, cs_of_literal. cbn [cs_data]. rewrite app_length, Nat.add_sub. apply deref_terminator.
Qed.

Theorem sb_deref_end : forall text, sb_deref {| sb_str := text |} (sb_end {| sb_str := text |}) = Ok 0.
Proof. intros text. apply deref_terminator. Qed.

Theorem svb_deref_end_outside : forall b, svb_deref b (svb_end b) = Undef.
Proof.
  intros b. unfold svb_deref, svb_end. rewrite Nat.ltb_irrefl. rewrite andb_false_r. reflexivity.
Qed.

Theorem sb_view_reversed : forall text s e, e < s -> sb_get_view {| sb_str := text |} s e = Undef.
Proof. intros text s e Hlt. unfold sb_get_view. rewrite (proj2 (Nat.ltb_lt e s) Hlt). reflexivity. Qed.

Theorem cs_view_reversed : forall text s e, e < s -> cs_get_view (cs_of_literal text) s e = Undef.
Proof. intros text s e. rewrite cs_view_is_sb_view. apply sb_view_reversed. Qed.

Theorem svb_view_reversed : forall b s e, e < s -> svb_get_view b s e = Undef.
Proof. intros b s e Hlt. unfold svb_get_view. rewrite (proj2 (Nat.ltb_lt e s) Hlt). reflexivity. Qed.

Lemma sv_make_outside (mem : list nat) (off len : nat) : length mem < off + len -> sv_make mem off len = Undef.
Proof. intros H. unfold sv_make. rewrite (proj2 (Nat.leb_gt _ _) H). reflexivity. Qed.

(* + 1: a view that ends on the terminator (e = length text + 1) still lies inside the stored string or array *)
Theorem sb_view_overlong : forall text s e, s <= e -> length text + 1 < e -> sb_get_view {| sb_str := text |} s e = Undef.
Proof.
  intros text s e Hse Hlong. unfold sb_get_view, sb_begin. rewrite (proj2 (Nat.ltb_ge e s) Hse).
  apply sv_make_outside. cbn [sb_str]. rewrite app_length. cbn [length]. lia.
Qed.

Theorem cs_view_overlong : forall text s e, s <= e -> length text + 1 < e -> cs_get_view (cs_of_literal text) s e = Undef.
Proof. intros text s e. rewrite cs_view_is_sb_view. apply sb_view_overlong. Qed.

(* a view buffer is stricter: everything that leaves [begin, end] is outside, whatever memory lies behind it *)
Theorem svb_view_overlong : forall b s e, sv_off b + sv_len b < e -> svb_get_view b s e = Undef.
Proof.
  intros b s e Hlong. unfold svb_get_view. rewrite (proj2 (Nat.leb_gt e _) Hlong), andb_false_r.
  destruct (Nat.ltb e s); reflexivity.
Qed.

Theorem svb_view_before_begin : forall b s e, s < sv_off b -> svb_get_view b s e = Undef.
Proof.
  intros b s e Hs. unfold svb_get_view. rewrite (proj2 (Nat.leb_gt _ s) Hs). destruct (Nat.ltb e s); reflexivity.
Qed.

Theorem slice_concat : forall text a b c, a <= b -> b <= c -> c <= length text ->
  slice text a b ++ slice text b c = slice text a c.
Proof.
  intros text a b c Hab Hbc _. unfold slice.
  replace (c - a) with (b - a + (c - b)) by lia. rewrite firstn_add, skipn_add.
  replace (a + (b - a)) with b by lia. reflexivity.
Qed.

Theorem slice_full : forall text, slice text 0 (length text) = text.
Proof.
  intros text. unfold slice. rewrite Nat.sub_0_r. apply firstn_all.
Qed.


Lemma all_views_ext (g1 g2 : nat -> nat -> res (list nat)) (b1 b2 n : nat) :
  (forall s e, s <= e -> e <= n -> g1 (b1 + s) (b1 + e) = g2 (b2 + s) (b2 + e)) ->
  all_views g1 b1 n = all_views g2 b2 n.
Proof.
  intros Hg. unfold all_views. apply flat_map_ext_in. intros s Hs. apply in_seq in Hs.
  apply map_ext_in. intros e He. apply in_seq in He. apply Hg; lia.
Qed.

Theorem all_views_agree : forall pre text post,
  all_views (cs_get_view (cs_of_literal text)) 0 (length text) = all_views (sb_get_view {| sb_str := text |}) 0 (length text)
  /\ all_views (sb_get_view {| sb_str := text |}) 0 (length text)
     = all_views (svb_get_view {| sv_mem := pre ++ text ++ post; sv_off := length pre; sv_len := length text |}) (length pre) (length text).
Proof.
  intros pre text post.
  split; apply all_views_ext; intros s e Hse He; apply (buffers_agree pre text post s e Hse He).
Qed.

Print Assumptions buffers_agree.
Print Assumptions svb_deref_end_outside.
Print Assumptions all_views_agree.
Print Assumptions slice_concat.
