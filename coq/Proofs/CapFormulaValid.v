(* For validated tables the hypotheses of Proofs/CapFormula.v about the table follow from the validator.
   A table that passes [validate_sound] may have more rows than states, and nothing is known of the extra rows;
   the counting theorem is therefore instantiated with the state set  Q s := s < length sts , which is closed under
   the targets the driver reads (every shift / goto target of a justified cell is a state).
   With [no_error_symbol] a justified table has no shift-on-error cell, and its error column is empty.
   That <eof> is never shifted is true of the generator's tables ([lookahead_generated], [states_nonempty], checked
   by [term_checks]) but not implied by [validate_sound] alone (a state without items may be a shift target). *)
Require Import Ctpg.Base.Prelude Ctpg.Model.Grammar Ctpg.Model.LRGen Ctpg.Model.Driver
               Ctpg.Spec.Cfg Ctpg.Spec.LRSpec Ctpg.Spec.Eval Ctpg.Valid.LRValid Ctpg.Valid.LRProductive
               Ctpg.Proofs.DriverBasics Ctpg.Proofs.LRValidFacts Ctpg.Proofs.LRComplete Ctpg.Proofs.SafeDriver Ctpg.Proofs.SafeCap
               Ctpg.Proofs.ReportViable Ctpg.Proofs.TermViable Ctpg.Proofs.TermAll Ctpg.Proofs.CapFormula.

Section Valid.
  Variable g : grammar.
  Variable sts : list items.
  Variable tbl : table.
  Hypothesis SF : sound_facts g sts tbl.
  Hypothesis Hne : no_error_symbol g tbl = true.

  Lemma cell_col_lt st col e : st < length sts -> cell tbl st col = inl e -> col < symbol_count g.
  Proof.
    intros Hs (row & Hr & He)%cell_inl. rewrite <- (sf_dims3 _ _ _ SF st Hs), (nth_error_nth _ _ [] Hr).
    apply nth_error_Some. congruence.
  Qed.

  (* the targets the driver reads are states: the dimensional reading of the validator says so for every goto
     column and for the shift cells of the term columns *)
  Lemma shift_target_is_state st col e nst : st < length sts -> cell tbl st col = inl e -> e_kind e = KShift ->
    e_arg e = Some nst -> nst < length sts.
  Proof.
    intros Hs Hc Hk Ha. pose proof (cell_col_lt _ _ _ Hs Hc) as Hcol. apply cell_cell_at in Hc. subst e.
    pose proof (table_wf_of_facts _ _ _ SF) as TW.
    destruct (Nat.lt_ge_cases col (nterm_count g)) as [Hn|Hn].
    - exact (tw_goto _ _ _ TW st col nst Hs Hn Ha).
    - exact (tw_shift _ _ _ TW st col nst Hs Hn Hcol (or_introl Hk) Ha).
  Qed.

  Lemma goto_target_is_state st r ri e nst : st < length sts -> nth_error (rule_infos g) r = Some ri ->
    cell tbl st (ri_l ri) = inl e -> e_arg e = Some nst -> nst < length sts.
  Proof.
    intros Hs Hri Hc Ha. apply cell_cell_at in Hc. subst e. pose proof (table_wf_of_facts _ _ _ SF) as TW.
    exact (tw_goto _ _ _ TW st _ nst Hs (tw_ri_l _ _ _ TW ri (nth_error_In _ _ Hri)) Ha).
  Qed.

  Lemma errcol_not_shift_valid st e : cell tbl st (nterm_count g + err_idx g) = inl e -> e_kind e <> KShift.
  Proof. intros Hc Hk. rewrite (no_error_symbol_cell g tbl Hne _ _ Hc) in Hk. discriminate. Qed.

  Lemma termcol_not_shifterr_valid st t e :
    st < length sts -> cell tbl st (nterm_count g + t) = inl e -> e_kind e <> KShiftErr.
  Proof.
    intros Hs Hc Hk. pose proof (cell_col_lt _ _ _ Hs Hc) as Hcol.
    pose proof (cell_cell_at _ _ _ _ Hc) as Ee.
    pose proof (sf_cell _ _ _ SF st _ Hs Hcol) as Hcj.
    rewrite Ee in Hk. destruct (cj_shift _ _ _ _ _ Hcj (or_intror Hk)) as (s' & _ & _ & Hcl).
    specialize (Hcl Hk). unfold col_of_term in Hcl. assert (t = err_idx g) by lia. subst t.
    rewrite <- Ee in Hk. rewrite (no_error_symbol_cell g tbl Hne _ _ Hc) in Hk. discriminate.
  Qed.
End Valid.

(* For a soundly validated table without error symbol that never shifts <eof> from a state:
   any semantic algebra, any options, any lexer whose lexemes are non-empty and inside the input ([lexer_in_range]) *)
Theorem cstring_capacity_suffices_validated :
  forall (V C : Type) g sts tbl opts buf lexer
         (term_f : nat -> nat -> nat -> spoint -> V) (err_f : spoint -> V) (rule_f : nat -> C -> list V -> C * V),
  validate_sound g sts tbl = true ->
  no_error_symbol g tbl = true ->
  (forall s, s < length sts -> e_kind (cell_at tbl s (nterm_count g + eof_idx g)) <> KShift) ->
  empty_rules g = 0 ->
  lexer_in_range lexer ->
  forall fuel c,
    run V C g tbl opts buf (Some (cstring_cap g (length buf))) lexer term_f err_f rule_f fuel c =
    run V C g tbl opts buf None lexer term_f err_f rule_f fuel c /\
    fst (fst (run V C g tbl opts buf (Some (cstring_cap g (length buf))) lexer term_f err_f rule_f fuel c)) <> Throw /\
    never_above V C g tbl opts buf lexer term_f err_f rule_f (length buf + 1) fuel c.
Proof.
  intros V C g sts tbl opts buf lexer term_f err_f rule_f Hv Hne Heof Hempty Hlex fuel c.
  pose proof (sound_facts_of g sts tbl Hv) as SF.
  assert (Hna : never_above V C g tbl opts buf lexer term_f err_f rule_f (length buf + 1) fuel c).
  { apply (height_le_bytes V C g tbl opts buf lexer term_f err_f rule_f (fun s => s < length sts)); try assumption.
    - exact (sf_dims2 _ _ _ SF).
    - exact (shift_target_is_state g sts tbl SF).
    - exact (goto_target_is_state g sts tbl SF).
    - intros st e Hs Hc Hk. apply (Heof st Hs). rewrite <- (cell_cell_at _ _ _ _ Hc). exact Hk.
    - intros st e _. apply (errcol_not_shift_valid g tbl Hne).
    - apply (termcol_not_shifterr_valid g sts tbl SF Hne). }
  destruct (cstring_cap_suffices_of_height V C g tbl opts buf lexer term_f err_f rule_f fuel c Hna) as [E Ht]. auto.
Qed.

(* ... in particular for tables whose item sets are generated ([lookahead_generated], [states_nonempty]: true of the
   mirror generator's output, Proofs/GenTermChecks.v): there <eof> is never shifted (Proofs/TermViable.v) *)
Theorem cstring_capacity_suffices_generated :
  forall (V C : Type) g sts tbl opts buf lexer
         (term_f : nat -> nat -> nat -> spoint -> V) (err_f : spoint -> V) (rule_f : nat -> C -> list V -> C * V),
  validate_sound g sts tbl = true ->
  no_error_symbol g tbl = true ->
  lookahead_generated g sts -> states_nonempty sts ->
  empty_rules g = 0 ->
  lexer_in_range lexer ->
  forall fuel c,
    run V C g tbl opts buf (Some (cstring_cap g (length buf))) lexer term_f err_f rule_f fuel c =
    run V C g tbl opts buf None lexer term_f err_f rule_f fuel c /\
    fst (fst (run V C g tbl opts buf (Some (cstring_cap g (length buf))) lexer term_f err_f rule_f fuel c)) <> Throw /\
    never_above V C g tbl opts buf lexer term_f err_f rule_f (length buf + 1) fuel c.
Proof.
  intros V C g sts tbl opts buf lexer term_f err_f rule_f Hv Hne Hgen Hnon Hempty Hlex fuel c.
  apply (cstring_capacity_suffices_validated V C g sts tbl); try assumption.
  intros s Hs Hk. exact (eof_not_shifted g sts tbl (sound_facts_of g sts tbl Hv) Hgen Hnon s Hs Hk).
Qed.

(* ... with the boolean checks of Valid/LRProductive.v *)
Corollary cstring_capacity_suffices_checked :
  forall (V C : Type) g sts tbl opts buf lexer
         (term_f : nat -> nat -> nat -> spoint -> V) (err_f : spoint -> V) (rule_f : nat -> C -> list V -> C * V),
  term_checks g sts tbl = true ->
  no_error_symbol g tbl = true ->
  empty_rules g = 0 ->
  lexer_in_range lexer ->
  forall fuel c,
    run V C g tbl opts buf (Some (cstring_cap g (length buf))) lexer term_f err_f rule_f fuel c =
    run V C g tbl opts buf None lexer term_f err_f rule_f fuel c /\
    fst (fst (run V C g tbl opts buf (Some (cstring_cap g (length buf))) lexer term_f err_f rule_f fuel c)) <> Throw.
Proof.
  intros V C g sts tbl opts buf lexer term_f err_f rule_f Hc Hne Hempty Hlex fuel c.
  destruct (term_checks_facts _ _ _ Hc) as (H1 & H2 & H3 & _ & _).
  destruct (cstring_capacity_suffices_generated V C g sts tbl opts buf lexer term_f err_f rule_f
              (validate_validate_sound _ _ _ H1) Hne H2 H3 Hempty Hlex fuel c) as (E & Ht & _).
  split; assumption.
Qed.

(* the tree driver of Spec/LRSpec.v on token lists (under the hypotheses of the _generated form, from which it follows) *)
Corollary cstring_capacity_suffices_tree_validated : forall g sts tbl w fuel,
  validate_sound g sts tbl = true ->
  no_error_symbol g tbl = true ->
  lookahead_generated g sts -> states_nonempty sts ->
  empty_rules g = 0 ->
  tree_run_cap g tbl (Some (cstring_cap g (length w))) w fuel = tree_run_cap g tbl None w fuel /\
  fst (fst (tree_run_cap g tbl (Some (cstring_cap g (length w))) w fuel)) <> Throw /\
  fst (fst (tree_run_cap g tbl (Some (cstring_cap g (length w))) w fuel)) = tree_run g tbl w fuel.
Proof.
  intros g sts tbl w fuel Hv Hne Hgen Hnon Hempty. unfold tree_run_cap.
  destruct (cstring_capacity_suffices_generated tree unit g sts tbl tree_opts w id_lexer
              (fun t _ _ _ => Leaf t) (fun _ => Leaf (err_idx g)) (fun r c args => (c, Node r args))
              Hv Hne Hgen Hnon Hempty id_lexer_in_range fuel tt) as (E & Ht & _).
  split; [exact E|]. split; [exact Ht|]. rewrite E. reflexivity.
Qed.

Print Assumptions cstring_capacity_suffices_validated.
Print Assumptions cstring_capacity_suffices_generated.
Print Assumptions cstring_capacity_suffices_checked.
Print Assumptions cstring_capacity_suffices_tree_validated.
