(* Facts about lists that owe nothing to the parser model: what List.v leaves unsaid about firstn, skipn, nth,
   nth_error, Forall, Forall2, filter and flat_map, and the Prelude's update, mem_nat and list_eqb; last, the
   two-sided Nat.leb test of the byte-range checks read as lo <= d <= hi (range_iff). *)
Require Import Ctpg.Base.Prelude.

Lemma firstn_app_exact {A} (l r : list A) : firstn (length l) (l ++ r) = l.
Proof. induction l; cbn; congruence. Qed.

Lemma skipn_app_exact {A} (l r : list A) : skipn (length l) (l ++ r) = r.
Proof. induction l; cbn; congruence. Qed.

Lemma firstn_long {A} (pre rest : list A) n : length pre <= n ->
  firstn n (pre ++ rest) = pre ++ firstn (n - length pre) rest.
Proof. intros H. rewrite firstn_app. f_equal. apply firstn_all2. exact H. Qed.

Lemma firstn_add {A} (l : list A) i d : firstn (i + d) l = firstn i l ++ firstn d (skipn i l).
Proof.
  revert l; induction i as [|i IH]; intros l; cbn; [reflexivity|].
  destruct l as [|x l]; cbn; [now rewrite firstn_nil|]. now rewrite IH.
Qed.

Lemma skipn_add {A} (l : list A) i d : skipn d (skipn i l) = skipn (i + d) l.
Proof.
  revert l; induction i as [|i IH]; intros l; cbn; [reflexivity|].
  destruct l as [|x l]; cbn; [now rewrite skipn_nil|]. apply IH.
Qed.

Lemma skipn_nil_ge {A} (l : list A) i : skipn i l = [] -> length l <= i.
Proof. intros H. pose proof (skipn_length i l) as E. rewrite H in E. cbn in E. lia. Qed.

Lemma nth_error_Some_lt {A} (l : list A) n x : nth_error l n = Some x -> n < length l.
Proof. intros H. apply nth_error_Some. congruence. Qed.

Lemma nth_error_skipn {A} (l : list A) n k : nth_error (skipn n l) k = nth_error l (n + k).
Proof. revert l; induction n as [|n IH]; intros [|a l]; cbn; auto. destruct k; reflexivity. Qed.

Lemma nth_skipn {A} (l : list A) n k d : nth k (skipn n l) d = nth (n + k) l d.
Proof. revert l; induction n as [|n IH]; intros [|a l]; cbn; auto. destruct k; reflexivity. Qed.

Lemma nth_error_firstn_lt {A} (l : list A) n k : k < n -> nth_error (firstn n l) k = nth_error l k.
Proof.
  revert n k; induction l as [|x l IH]; intros [|n] [|k] H; cbn; try lia; auto. apply IH. lia.
Qed.

Lemma skipn_nth_error_cons {A} (l : list A) n x : nth_error l n = Some x -> skipn n l = x :: skipn (S n) l.
Proof.
  revert n; induction l as [|y l IH]; intros [|n] H; cbn in *; try discriminate.
  - inversion H; reflexivity.
  - apply IH; assumption.
Qed.

Lemma skipn_cons_nth_error {A} (l : list A) n x r : skipn n l = x :: r -> nth_error l n = Some x /\ skipn (S n) l = r.
Proof.
  revert n; induction l as [|y l IH]; intros [|n] H; cbn in *; try discriminate.
  - inversion H; auto.
  - apply IH; assumption.
Qed.

Lemma skipn_cons_lt {A} (l : list A) n x r : skipn n l = x :: r -> n < length l /\ nth_error l n = Some x.
Proof. intros H. apply skipn_cons_nth_error in H as [H _]. split; [eapply nth_error_Some_lt; eassumption|assumption]. Qed.

Lemma firstn_S_nth_error {A} (l : list A) n x : nth_error l n = Some x -> firstn (S n) l = firstn n l ++ [x].
Proof.
  revert n; induction l as [|y l IH]; intros [|n] H; cbn in *; try discriminate.
  - inversion H; reflexivity.
  - f_equal. apply IH; assumption.
Qed.

Lemma forallb_seq0 (f : nat -> bool) n : forallb f (seq 0 n) = true <-> forall i, i < n -> f i = true.
Proof.
  rewrite forallb_forall. split.
  - intros H i Hi. apply H. apply in_seq. lia.
  - intros H i Hi. apply in_seq in Hi. apply H. lia.
Qed.

Lemma Forall_tl {A} (P : A -> Prop) l : Forall P l -> Forall P (tl l).
Proof. intros H; destruct H; cbn; auto. Qed.

Lemma Forall_firstn {A} (P : A -> Prop) n l : Forall P l -> Forall P (firstn n l).
Proof. intros H. rewrite <- (firstn_skipn n l) in H. apply Forall_app in H. tauto. Qed.

Lemma Forall_skipn {A} (P : A -> Prop) n l : Forall P l -> Forall P (skipn n l).
Proof. intros H. rewrite <- (firstn_skipn n l) in H. apply Forall_app in H. tauto. Qed.

Lemma Forall_nth_d : forall A (P : A -> Prop) (l : list A) k d, Forall P l -> P d -> P (nth k l d).
Proof.
  intros A P l k d Hl Hd. destruct (nth_in_or_default k l d) as [H | H].
  - rewrite Forall_forall in Hl. apply Hl. exact H.
  - rewrite H. exact Hd.
Qed.

Lemma Forall_repeat {A} (P : A -> Prop) x n : P x -> Forall P (repeat x n).
Proof. intros H. induction n; cbn; auto. Qed.

Lemma Forall2_cons_r_inv {A B} (R : A -> B -> Prop) l c chs :
  Forall2 R l (c :: chs) -> exists x rest, l = x :: rest /\ R x c /\ Forall2 R rest chs.
Proof. intros H. inversion H; subst. eauto. Qed.

Lemma Forall2_length {A B} (R : A -> B -> Prop) l1 l2 : Forall2 R l1 l2 -> length l1 = length l2.
Proof. induction 1; cbn; congruence. Qed.

Lemma Forall2_rev {A B} (R : A -> B -> Prop) l1 l2 : Forall2 R l1 l2 -> Forall2 R (rev l1) (rev l2).
Proof.
  induction 1; cbn; [constructor|]. apply Forall2_app; [assumption|]. constructor; [assumption|constructor].
Qed.

Lemma Forall2_firstn {A B} (R : A -> B -> Prop) n l1 l2 : Forall2 R l1 l2 -> Forall2 R (firstn n l1) (firstn n l2).
Proof.
  intros H; revert n; induction H; intros [|n]; cbn; constructor; auto.
Qed.

Lemma Forall2_skipn {A B} (R : A -> B -> Prop) n l1 l2 : Forall2 R l1 l2 -> Forall2 R (skipn n l1) (skipn n l2).
Proof.
  intros H; revert n; induction H; intros [|n]; cbn; try constructor; auto.
Qed.

Lemma filter_filter {A} (p q : A -> bool) (l : list A) : filter p (filter q l) = filter (fun x => q x && p x) l.
Proof.
  induction l as [|x l IH]; simpl; auto.
  destruct (q x) eqn:Q; simpl; [destruct (p x) eqn:P|]; rewrite ?IH; auto.
Qed.

Lemma filter_comm {A} (p q : A -> bool) (l : list A) : filter p (filter q l) = filter q (filter p l).
Proof. rewrite !filter_filter. apply filter_ext. intros x. apply andb_comm. Qed.

Lemma filter_true_id {A} (p : A -> bool) (l : list A) : (forall x, In x l -> p x = true) -> filter p l = l.
Proof.
  induction l as [|x l IH]; simpl; intros H; auto.
  rewrite (H x) by auto. rewrite IH by auto. reflexivity.
Qed.

Lemma flat_map_ext_in {A B} (f g : A -> list B) (l : list A) : (forall a, In a l -> f a = g a) -> flat_map f l = flat_map g l.
Proof.
  induction l as [|x l IH]; intros H; cbn; [reflexivity|].
  rewrite (H x) by (cbn; auto). f_equal. apply IH. intros a Ha. apply H. cbn; auto.
Qed.

Lemma update_length {A} (l : list A) n x : length (update l n x) = length l.
Proof. revert n; induction l as [|y l IH]; intros [|n]; cbn; auto. Qed.

Lemma nth_error_update {A} (l : list A) n x k :
  nth_error (update l n x) k = if Nat.eqb k n then (if Nat.ltb n (length l) then Some x else None) else nth_error l k.
Proof.
  revert n k; induction l as [|h t IH]; intros n k.
  - cbn. destruct n, k; cbn; auto. destruct (Nat.eqb k n); auto.
  - destruct n, k; cbn [update nth_error length]; auto.
    rewrite IH. cbn [Nat.eqb]. destruct (Nat.eqb k n); auto.
Qed.

Lemma nth_update {A} (l : list A) n x k d :
  nth k (update l n x) d = if Nat.eqb k n && Nat.ltb n (length l) then x else nth k l d.
Proof.
  revert n k; induction l as [|h t IH]; intros n k.
  - cbn. destruct n, k; cbn; auto. rewrite andb_false_r. auto.
  - destruct n, k; cbn [update nth length]; auto.
    rewrite IH. reflexivity.
Qed.

Lemma nth_error_update_eq {A} (l : list A) n x : n < length l -> nth_error (update l n x) n = Some x.
Proof. intros H. apply Nat.ltb_lt in H. rewrite nth_error_update, Nat.eqb_refl, H. reflexivity. Qed.

Lemma nth_error_update_neq {A} (l : list A) n m x : n <> m -> nth_error (update l n x) m = nth_error l m.
Proof. intros H. apply not_eq_sym, Nat.eqb_neq in H. rewrite nth_error_update, H. reflexivity. Qed.

Lemma nth_update_eq {A} (l : list A) n x d : n < length l -> nth n (update l n x) d = x.
Proof. intros H. apply Nat.ltb_lt in H. rewrite nth_update, Nat.eqb_refl, H. reflexivity. Qed.

Lemma nth_update_neq {A} (l : list A) n m x d : n <> m -> nth m (update l n x) d = nth m l d.
Proof. intros H. apply not_eq_sym, Nat.eqb_neq in H. rewrite nth_update, H. reflexivity. Qed.

Lemma map_update {A B} (f : A -> B) (l : list A) n x : map f (update l n x) = update (map f l) n (f x).
Proof. revert n; induction l as [|y l IH]; intros [|n]; cbn; auto. f_equal. apply IH. Qed.

Lemma Forall_update {A} (P : A -> Prop) (l : list A) n x : Forall P l -> P x -> Forall P (update l n x).
Proof. intros Hl Hx. revert n; induction Hl; intros [|n]; cbn; auto. Qed.

Lemma mem_nat_In x l : mem_nat x l = true <-> In x l.
Proof.
  induction l as [|y l IH]; cbn.
  - split; [discriminate | contradiction].
  - destruct (Nat.eqb_spec x y) as [->|Hne]; [tauto|]. rewrite IH. split; auto. intros [H|H]; auto. congruence.
Qed.

Lemma list_eqb_spec : forall A (eqb : A -> A -> bool), (forall x y, eqb x y = true <-> x = y) ->
  forall a b, list_eqb eqb a b = true <-> a = b.
Proof.
  intros A eqb Heq a. induction a as [|x a IH]; intros [|y b]; cbn [list_eqb].
  - split; reflexivity.
  - split; discriminate.
  - split; discriminate.
  - rewrite andb_true_iff, Heq, IH. split.
    + intros [-> ->]. reflexivity.
    + intros [= -> ->]. split; reflexivity.
Qed.

Lemma range_iff lo hi d : Nat.leb lo d && Nat.leb d hi = true <-> lo <= d <= hi.
Proof. rewrite andb_true_iff, !Nat.leb_le. reflexivity. Qed.
