(* C09, the "no earlier than necessary" half, under productivity.
   [validate] alone does not give it (Proofs/ReportCex.v, shifted_prefix_not_viable): the validator tolerates items
   that no closure put into a state, and shift cells into empty states. With two more (decidable) checks on the
   item sets --
     closure_generated : every dot-0 item of a state other than the root item of state 0 comes after an item of
                         the same state whose dot stands before its left side (the order closure produces);
     states_nonempty   : every state has an item --
   every configuration the machine reaches has a stack whose yield (the tokens shifted so far) is a prefix of a
   sentence, provided every reachable nonterminal derives a terminal string.
   The argument (Section Follow) is made once, for any relation F between the shifted string and a lookahead that
   holds of a sentence with <eof> and passes from an item to the dot-0 items it accounts for: here F ignores the
   lookahead; Proofs/TermViable.v takes the instance that reads it. *)
Require Import Ctpg.Base.Prelude Ctpg.Proofs.ListFacts Ctpg.Model.Grammar Ctpg.Model.LRGen Ctpg.Spec.Cfg
               Ctpg.Valid.LRValid Ctpg.Proofs.LRReflect Ctpg.Proofs.LRValidFacts Ctpg.Proofs.LRSound
               Ctpg.Proofs.LRComplete Ctpg.Proofs.ReportLang.
Require Ctpg.Proofs.LRValidCex Ctpg.Proofs.ReportCex.

Definition lhs_of (g : grammar) (i : item) : nat := ri_l (get_ri g (it_r i)).

Definition closure_generated (g : grammar) (sts : list items) : Prop :=
  forall s j i, nth_error (state_items sts s) j = Some i -> it_d i = 0 ->
    (s = 0 /\ i = root_item g) \/
    exists k ik, k < j /\ nth_error (state_items sts s) k = Some ik /\ next_sym g ik = Some (NT (lhs_of g i)).
Definition states_nonempty (sts : list items) : Prop :=
  forall s, s < length sts -> state_items sts s <> [].

Definition closure_generatedb (g : grammar) (sts : list items) : bool :=
  forallb (fun s =>
    let its := state_items sts s in
    forallb (fun j =>
      match nth_error its j with
      | Some i =>
          negb (Nat.eqb (it_d i) 0) || (Nat.eqb s 0 && item_eqb i (root_item g)) ||
          existsb (fun k => match nth_error its k with
                            | Some ik => match next_sym g ik with
                                         | Some (NT b) => Nat.eqb b (lhs_of g i)
                                         | _ => false
                                         end
                            | None => false
                            end) (seq 0 j)
      | None => true
      end) (seq 0 (length its))) (seq 0 (length sts)).
Definition states_nonemptyb (sts : list items) : bool :=
  forallb (fun its => negb (Nat.eqb (length its) 0)) sts.

(* the two iterations the boolean checks on item sets are written with *)
Lemma forallb_state_items (q : nat -> nat -> bool) sts :
  forallb (fun s => forallb (q s) (seq 0 (length (state_items sts s)))) (seq 0 (length sts)) = true ->
  forall s j i, nth_error (state_items sts s) j = Some i -> q s j = true.
Proof.
  intros H s j i Hj. rewrite forallb_seq0 in H.
  assert (Hs : s < length sts).
  { destruct (Nat.lt_ge_cases s (length sts)) as [|Hge]; [assumption|].
    unfold state_items in Hj. rewrite (nth_overflow sts [] Hge) in Hj. destruct j; discriminate. }
  specialize (H s Hs). rewrite forallb_seq0 in H. apply H. apply nth_error_Some. congruence.
Qed.

Lemma existsb_nth_before {A} (q : A -> bool) l j :
  existsb (fun k => match nth_error l k with Some x => q x | None => false end) (seq 0 j) = true ->
  exists k x, k < j /\ nth_error l k = Some x /\ q x = true.
Proof.
  intros H. apply existsb_exists in H. destruct H as (k & Hk & H). apply in_seq in Hk.
  destruct (nth_error l k) as [x|] eqn:Ek; [|discriminate]. exists k, x. split; [lia|auto].
Qed.

Lemma closure_generatedb_ok g sts : closure_generatedb g sts = true -> closure_generated g sts.
Proof.
  intros H s j i Hj Hd. pose proof (forallb_state_items _ _ H s j i Hj) as Ht. cbv beta in Ht.
  rewrite Hj, Hd in Ht. cbn [Nat.eqb negb orb] in Ht.
  apply orb_true_iff in Ht. destruct Ht as [Ht|Ht].
  - left. apply andb_true_iff in Ht. destruct Ht as [H1 H2]. apply Nat.eqb_eq in H1. apply item_eqb_eq in H2. auto.
  - right. apply existsb_nth_before in Ht. destruct Ht as (k & ik & Hk & Ek & Ht).
    exists k, ik. split; [exact Hk|]. split; [exact Ek|].
    destruct (next_sym g ik) as [[a|b]|]; try discriminate. apply Nat.eqb_eq in Ht. subst b. reflexivity.
Qed.

Lemma states_nonemptyb_ok sts : states_nonemptyb sts = true -> states_nonempty sts.
Proof.
  intros H s Hs E. unfold states_nonemptyb in H. rewrite forallb_forall in H.
  unfold state_items in E. specialize (H (nth s sts []) (nth_In _ _ Hs)). rewrite E in H. discriminate.
Qed.

Lemma sentence_prefix_app g u v : sentence_prefix g (u ++ v) -> sentence_prefix g u.
Proof. intros (v' & t & Hd). exists (v ++ v'), t. rewrite app_assoc. exact Hd. Qed.

Section Viable.
  Variable g : grammar.
  Variable sts : list items.
  Variable tbl : table.
  Hypothesis SF : sound_facts g sts tbl.
  Hypothesis Hprod : productive g.

  Notation items_of := (state_items sts).
  Notation yields := (flat_map yield).
  Notation lhs := (lhs_of g).

  Definition nts_reachable (l : list symbol) : Prop :=
    Forall (fun x => match x with NT m => reachable g m | T _ => True end) l.

  (* delta A is a viable left context: whatever delta and A derive can be completed to a sentence *)
  Definition lviable (delta : list symbol) (A : nat) : Prop :=
    forall ts tA, Forall2 (valid_tree g) delta ts -> valid_tree g (NT A) tA ->
                  sentence_prefix g (yields ts ++ yield tA).

  (* the item is valid for the stack contents gamma (bottom first). lviable and ivalid are lviable_for / ivalid_for of
     Section Follow at F u _ := sentence_prefix g u, written out; the proofs go through the _for forms. *)
  Definition ivalid (gamma : list symbol) (i : item) : Prop :=
    it_r i < rule_count g /\ nts_reachable (rhs_of g i) /\
    exists delta, gamma = delta ++ firstn (it_d i) (rhs_of g i) /\ it_d i <= length (rhs_of g i) /\
                  lviable delta (lhs i).

  Lemma prod_trees l : nts_reachable l -> exists ts, Forall2 (valid_tree g) l ts.
  Proof.
    induction 1 as [|x l Hx _ IH]; [exists []; constructor|].
    destruct IH as [ts Hts]. destruct x as [a|m].
    - exists (Leaf a :: ts). constructor; [constructor|assumption].
    - destruct (Hprod m Hx) as [t Ht]. exists (t :: ts). constructor; assumption.
  Qed.

  Lemma nts_reachable_skipn n l : nts_reachable l -> nts_reachable (skipn n l).
  Proof.
    unfold nts_reachable. rewrite !Forall_forall. intros H x Hx. apply H.
    rewrite <- (firstn_skipn n l). apply in_or_app. right. assumption.
  Qed.

  Lemma item_rule i : it_r i < rule_count g ->
    is_rule g (ri_r (get_ri g (it_r i))) (lhs i) (rhs_of g i).
  Proof. intros H. apply (is_rule_ri g sts tbl SF). assumption. Qed.

  Lemma root_rule_only r rhs : is_rule g r (fake_root_idx g) rhs ->
    exists x, rhs = [NT x] /\ root_symbol g = Some (NT x).
  Proof.
    intros (i & ri & Hi & Hr & Hl & Hrhs).
    destruct (get_ri_nth_error g sts tbl SF _ _ Hi) as [Eri Hlt]. subst ri.
    pose proof (sf_root_only _ _ _ SF i Hlt Hl) as Ei. subst i.
    rewrite (sf_root_r _ _ _ SF) in Hr. subst r.
    destruct (sf_root_rhs _ _ _ SF) as [x Hx]. exists x. split; [|apply (root_symbol_eq g sts tbl SF); assumption].
    unfold get_rhs in Hx. rewrite (nth_error_nth _ _ [] Hrhs) in Hx. assumption.
  Qed.

  Lemma root_reachable : nts_reachable (rhs_of g (root_item g)).
  Proof.
    destruct (sf_root_rhs _ _ _ SF) as [x Hx]. unfold rhs_of, root_item; cbn [it_r]. rewrite (sf_root_r _ _ _ SF), Hx.
    constructor; [|constructor]. apply reach_root. apply (root_symbol_eq g sts tbl SF). assumption.
  Qed.

  Lemma closure_reachable i j : nts_reachable (rhs_of g i) -> next_sym g i = Some (NT (lhs j)) ->
    it_r j < rule_count g -> nts_reachable (rhs_of g j).
  Proof.
    unfold nts_reachable, next_sym. rewrite !Forall_forall. intros Hi Hx Hrj [a|m] Hin; [exact I|].
    eapply reach_rule; [exact (Hi _ (nth_error_In _ _ Hx))|apply item_rule; assumption|exact Hin].
  Qed.

  (* F u t: the string u may be followed by the lookahead t.  [ivalid] is the instance that ignores t,
     [ivalid_la] of Proofs/TermViable.v the one with [follow_ok]. gen i j: the item i, with the dot before the
     left side of the dot-0 item j, accounts for j being in its state. *)
  Section Follow.
    Variable F : list nat -> nat -> Prop.
    Variable gen : item -> item -> Prop.
    Hypothesis F_root : forall u, derives g u -> F u (eof_idx g).
    Hypothesis F_cut : forall i j u, gen i j -> nts_reachable (skipn (S (it_d i)) (rhs_of g i)) ->
      (forall ts, Forall2 (valid_tree g) (skipn (S (it_d i)) (rhs_of g i)) ts -> F (u ++ yields ts) (it_t i)) ->
      F u (it_t j).
    Hypothesis Hgen : forall s j i, nth_error (items_of s) j = Some i -> it_d i = 0 ->
      (s = 0 /\ i = root_item g) \/
      exists k ik, k < j /\ nth_error (items_of s) k = Some ik /\ next_sym g ik = Some (NT (lhs i)) /\ gen ik i.

    Definition lviable_for (delta : list symbol) (A t : nat) : Prop :=
      forall ts tA, Forall2 (valid_tree g) delta ts -> valid_tree g (NT A) tA -> F (yields ts ++ yield tA) t.

    Definition ivalid_for (gamma : list symbol) (i : item) : Prop :=
      it_r i < rule_count g /\ nts_reachable (rhs_of g i) /\
      exists delta, gamma = delta ++ firstn (it_d i) (rhs_of g i) /\ it_d i <= length (rhs_of g i) /\
                    lviable_for delta (lhs i) (it_t i).

    (* trees for the stack contents and for the rest of the right side make a tree for the left side *)
    Lemma ivalid_for_complete gamma i ts ts' : ivalid_for gamma i ->
      Forall2 (valid_tree g) gamma ts -> Forall2 (valid_tree g) (skipn (it_d i) (rhs_of g i)) ts' ->
      F (yields ts ++ yields ts') (it_t i).
    Proof.
      intros (Hr & _ & delta & -> & _ & Hlv) Hts Hts'.
      apply Forall2_app_inv_l in Hts. destruct Hts as (ts1 & ts2 & H1 & H2 & ->).
      assert (Hnode : valid_tree g (NT (lhs i)) (Node (ri_r (get_ri g (it_r i))) (ts2 ++ ts'))).
      { econstructor; [apply item_rule; assumption|].
        rewrite <- (firstn_skipn (it_d i) (rhs_of g i)). apply Forall2_app; assumption. }
      pose proof (Hlv ts1 _ H1 Hnode) as Hf. cbn [yield] in Hf.
      rewrite flat_map_app in Hf. rewrite flat_map_app, <- app_assoc. exact Hf.
    Qed.

    Lemma ivalid_for_advance gamma j d X : ivalid_for gamma (mkItem (it_r j) d (it_t j)) -> it_d j = S d ->
      nth_error (rhs_of g j) d = Some X -> ivalid_for (gamma ++ [X]) j.
    Proof.
      intros (Hr & Hreach & delta & -> & Hd & Hlv) Hj Hx.
      split; [assumption|]. split; [assumption|]. exists delta. rewrite Hj. split; [|split].
      - rewrite (firstn_S_nth_error _ _ _ Hx), app_assoc. reflexivity.
      - apply Nat.le_succ_l. apply nth_error_Some. congruence.
      - exact Hlv.
    Qed.

    Lemma ivalid_for_closure gamma i j : ivalid_for gamma i -> next_sym g i = Some (NT (lhs j)) ->
      it_r j < rule_count g -> it_d j = 0 -> gen i j -> ivalid_for gamma j.
    Proof.
      intros Hi Hx Hrj Hdj Hij. pose proof Hi as (_ & Hreach & _).
      split; [assumption|]. split; [exact (closure_reachable i j Hreach Hx Hrj)|]. unfold next_sym in Hx.
      exists gamma. rewrite Hdj. cbn [firstn]. rewrite app_nil_r.
      split; [reflexivity|]. split; [lia|]. intros ts tB Hts HtB.
      apply (F_cut i j _ Hij (nts_reachable_skipn _ _ Hreach)). intros ts' Hts'.
      rewrite <- app_assoc. apply (ivalid_for_complete gamma i ts (tB :: ts') Hi Hts).
      rewrite (skipn_nth_error_cons _ _ _ Hx). constructor; assumption.
    Qed.

    Lemma ivalid_for_root : ivalid_for [] (root_item g).
    Proof.
      split; [exact (root_lt g sts tbl SF)|]. split; [exact root_reachable|].
      exists []. cbn. split; [reflexivity|]. split; [lia|].
      intros ts tA Hts HtA. inversion Hts; subst. cbn [flat_map app].
      unfold lhs_of, root_item in HtA; cbn [it_r] in HtA. rewrite (sf_root_l _ _ _ SF) in HtA.
      inversion HtA as [|r l rhs ch Hrule Hch]; subst.
      destruct (root_rule_only _ _ Hrule) as (y & -> & Hroot).
      inversion Hch as [|? c ? ch' Hc Hnil]; subst. inversion Hnil; subst.
      apply F_root. exists c, (NT y). cbn. rewrite app_nil_r. auto.
    Qed.

    (* What holds of the root item, passes from an item to the dot-0 items it accounts for, and from an item to its
       successor in the state pushed over it, holds of every item of the top state. *)
    Lemma stk_items_ind (Q : list nat -> list symbol -> item -> Prop) :
      Q [0] [] (root_item g) ->
      (forall s ss syms ik i, Q (s :: ss) syms ik -> s < length sts -> In ik (items_of s) -> In i (items_of s) ->
         it_d i = 0 -> next_sym g ik = Some (NT (lhs i)) -> gen ik i -> Q (s :: ss) syms i) ->
      (forall s' s ss syms X i d, Q (s :: ss) syms (mkItem (it_r i) d (it_t i)) -> s' < length sts ->
         In i (items_of s') -> it_d i = S d -> nth_error (rhs_of g i) d = Some X -> Q (s' :: s :: ss) (X :: syms) i) ->
      forall s ss syms, stk_ok g sts (s :: ss) syms -> forall i, In i (items_of s) -> Q (s :: ss) syms i.
    Proof.
      intros Qroot Qclo Qker.
      (* within one state the dot-0 items follow from the others, in the order [Hgen] gives: induction on the position *)
      assert (Hstate : forall s ss syms, s < length sts -> (s = 0 -> ss = [] /\ syms = []) ->
                (forall i, In i (items_of s) -> it_d i <> 0 -> Q (s :: ss) syms i) ->
                forall i, In i (items_of s) -> Q (s :: ss) syms i).
      { intros s ss syms Hs H0 Hker.
        assert (Hpos : forall j i, nth_error (items_of s) j = Some i -> Q (s :: ss) syms i).
        { intros j. induction j as [j IH] using lt_wf_ind. intros i Hj. pose proof (nth_error_In _ _ Hj) as Hi.
          destruct (Nat.eq_dec (it_d i) 0) as [Hd|Hd]; [|exact (Hker i Hi Hd)].
          destruct (Hgen s j i Hj Hd) as [[Es ->]|(k & ik & Hk & Hik & Hnx & Hki)].
          - destruct (H0 Es) as [-> ->]. rewrite Es. exact Qroot.
          - exact (Qclo s ss syms ik i (IH k Hk ik Hik) Hs (nth_error_In _ _ Hik) Hi Hd Hnx Hki). }
        intros i Hi. apply In_nth_error in Hi. destruct Hi as [j Hj]. eauto. }
      intros s ss syms Hst. remember (s :: ss) as ss0 eqn:E. revert s ss E.
      induction Hst as [|s ss syms s' X Hst IH Hlt Hnz Hj]; intros s0 ss0 [= <- <-].
      - apply Hstate; [apply (sf_dims2 _ _ _ SF)|auto|].
        intros i Hi Hd. destruct Hd. exact (sf_st0_dot _ _ _ SF i Hi).
      - apply Hstate; [exact Hlt|intros E; contradiction|].
        intros i Hi Hd. destruct (it_d i) as [|d] eqn:Ed; [contradiction|].
        destruct (Hj i d Hi Ed) as [Hin Hx]. exact (Qker s' s ss syms X i d (IH s ss eq_refl _ Hin) Hlt Hi Ed Hx).
    Qed.

    (* every item of the top state is valid for the symbols the stack spells *)
    Lemma stk_valid s ss syms i : stk_ok g sts (s :: ss) syms -> In i (items_of s) -> ivalid_for (rev syms) i.
    Proof.
      intros Hst. revert i.
      refine (stk_items_ind (fun _ syms i => ivalid_for (rev syms) i) ivalid_for_root _ _ s ss syms Hst).
      - intros s0 _ syms0 ik j Hik Hs _ Hj Hd Hnx Hg.
        exact (ivalid_for_closure _ ik j Hik Hnx (proj1 (sf_item _ _ _ SF s0 j Hs Hj)) Hd Hg).
      - intros _ _ _ syms0 X j d Hik _ _ Hd Hx. exact (ivalid_for_advance _ j d X Hik Hd Hx).
    Qed.

    (* what the trees on the stack yield, completed by trees for the rest of an item of the top state *)
    Lemma stk_item_follow cur ss syms trs i ts : stk_ok g sts (cur :: ss) syms -> Forall2 (valid_tree g) syms trs ->
      In i (items_of cur) -> Forall2 (valid_tree g) (skipn (it_d i) (rhs_of g i)) ts ->
      F (yields (rev trs) ++ yields ts) (it_t i).
    Proof.
      intros Hst Hv Hi Hts.
      apply (ivalid_for_complete (rev syms)); [exact (stk_valid _ _ _ _ Hst Hi)|apply Forall2_rev; exact Hv|exact Hts].
    Qed.
  End Follow.

  Lemma ivalid_for_weaken (F F' : list nat -> nat -> Prop) gamma i :
    (forall u t, F u t -> F' u t) -> ivalid_for F gamma i -> ivalid_for F' gamma i.
  Proof.
    intros HF (Hr & Hreach & delta & Hg & Hd & Hlv). split; [exact Hr|]. split; [exact Hreach|].
    exists delta. split; [exact Hg|]. split; [exact Hd|]. intros ts tA Hts HtA. apply HF, Hlv; assumption.
  Qed.

  (* the instance of [Follow] that ignores the lookahead: F u t := [sentence_prefix g u] *)
  Hypothesis Hgen : closure_generated g sts.
  Hypothesis Hnonempty : states_nonempty sts.

  Notation prefix_ok := (fun u (_ : nat) => sentence_prefix g u).
  Notation any_gen := (fun _ _ : item => True).

  Lemma prefix_root u : derives g u -> sentence_prefix g u.
  Proof. intros [t Hd]. exists [], t. rewrite app_nil_r. exact Hd. Qed.

  Lemma prefix_cut (i j : item) u : any_gen i j -> nts_reachable (skipn (S (it_d i)) (rhs_of g i)) ->
    (forall ts, Forall2 (valid_tree g) (skipn (S (it_d i)) (rhs_of g i)) ts -> sentence_prefix g (u ++ yields ts)) ->
    sentence_prefix g u.
  Proof. intros _ Hreach H. destruct (prod_trees _ Hreach) as [ts Hts]. exact (sentence_prefix_app _ _ _ (H ts Hts)). Qed.

  Lemma any_generated s j i : nth_error (items_of s) j = Some i -> it_d i = 0 ->
    (s = 0 /\ i = root_item g) \/
    exists k ik, k < j /\ nth_error (items_of s) k = Some ik /\ next_sym g ik = Some (NT (lhs i)) /\ any_gen ik i.
  Proof.
    intros Hj Hd. destruct (Hgen s j i Hj Hd) as [H|(k & ik & Hk & Hik & Hnx)]; [left; exact H|right; eauto 6].
  Qed.

  (* the top state has an item; it is valid, and its right side can be completed *)
  Lemma stk_viable ss syms trs : stk_ok g sts ss syms -> Forall2 (valid_tree g) syms trs ->
    sentence_prefix g (yields (rev trs)).
  Proof.
    intros Hst Hv. destruct ss as [|top ss]; [inversion Hst|].
    pose proof (stk_top_lt g sts tbl SF _ _ _ Hst) as Htop.
    destruct (items_of top) as [|i its] eqn:Ei; [exfalso; exact (Hnonempty top Htop Ei)|].
    assert (Hi : In i (items_of top)) by (rewrite Ei; left; reflexivity).
    destruct (stk_valid prefix_ok any_gen prefix_root prefix_cut any_generated _ _ _ _ Hst Hi) as (_ & Hreach & _).
    destruct (prod_trees _ (nts_reachable_skipn (it_d i) _ Hreach)) as [ts Hts].
    exact (sentence_prefix_app _ _ _
             (stk_item_follow prefix_ok any_gen prefix_root prefix_cut any_generated _ _ _ _ _ _ Hst Hv Hi Hts)).
  Qed.
End Viable.

(* partial: only with the two extra checks on the item sets, which validate does not make
   (ReportCex.shifted_prefix_not_viable) *)
Theorem shifted_prefix_viable_partial g sts tbl w ss trs rest :
  validate g sts tbl = true -> closure_generated g sts -> states_nonempty sts ->
  productive g -> tokens_ok g w ->
  reach g tbl w (ss, trs, rest) ->
  let u := flat_map yield (rev trs) in      (* the tokens shifted so far *)
  (exists k, u ++ rest = w ++ repeat (eof_idx g) k) /\ sentence_prefix g u.
Proof.
  intros Hval Hgen Hne Hprod Hw Hr.
  pose proof (validate_facts g sts tbl Hval) as SF.
  destruct (reach_SInv g sts tbl w SF Hw _ Hr) as (syms & Hst & Hv & Hk & _).
  split; [exact Hk|]. exact (stk_viable g sts tbl SF Hprod Hgen Hne ss syms trs Hst Hv).
Qed.

Print Assumptions shifted_prefix_viable_partial.

Definition gen_checks (g : grammar) : option (bool * bool * bool) :=
  match gen g with
  | inl (st, tb) => let sts := map st_all st in
                    Some (validate g sts tb, closure_generatedb g sts, states_nonemptyb sts)
  | inr _ => None
  end.

(* E -> E + T | T ; T -> T * F | F ; F -> ( E ) | id.  terms + * ( ) id <eof> <err>; nonterminals E T F ## *)
Definition g_expr :=
  mkG 7 4 7 3
      [[NT 0; T 0; NT 1]; [NT 1]; [NT 1; T 1; NT 2]; [NT 2]; [T 2; NT 0; T 3]; [T 4]; [NT 0]]
      [mkRI 0 0 3; mkRI 0 1 1; mkRI 1 2 3; mkRI 1 3 1; mkRI 2 4 3; mkRI 2 5 1; mkRI 3 6 1]
      [(0,2);(2,2);(4,2);(6,1)]
      [0%Z;0%Z;0%Z;0%Z;0%Z;0%Z;0%Z] [NoAssoc;NoAssoc;NoAssoc;NoAssoc;NoAssoc;NoAssoc;NoAssoc]
      [0%Z;0%Z;0%Z;0%Z;0%Z;0%Z;0%Z] [NoAssoc;NoAssoc;NoAssoc;NoAssoc;NoAssoc;NoAssoc;NoAssoc]
      [Some 0; None; Some 1; None; Some 3; Some 4; None].

(* the tables the mirror generator writes pass both checks; the item sets of the counterexamples do not *)
Example generated_pass :
  (gen_checks LRValidCex.g1, gen_checks LRValidCex.g2, gen_checks ReportCex.g2, gen_checks g_expr) =
  (Some (true, true, true), Some (true, true, true), Some (true, true, true), Some (true, true, true)).
Proof. vm_compute. reflexivity. Qed.

Example junk_fails :
  closure_generatedb ReportCex.g1 ReportCex.sts1 = false /\ closure_generatedb ReportCex.g2 ReportCex.sts2 = false.
Proof. vm_compute. auto. Qed.
