(* Termination without error recovery: the table-driven LR(1) driver stops on every input, and decides the language.
   These are the results of Proofs/TermRecMachine.v and Proofs/TermRecAll.v (termination through error recovery) read
   for the machine without recovery and for tables without error symbol.
   [halts_from_any]: from EVERY justified stack ([MInv]), reachable or not, the abstract machine of Proofs/LRMachine.v
   reaches after finitely many steps a configuration in which it accepts, fails or hits a bad cell -- for validated
   tables that pass the checks [lookahead_generated], [states_nonempty], [reduce_lookahead] and a productive grammar:
   by [finish] a non-error cell leads, after finitely many reductions, to the shift of the pending token or to the
   accept cell; induction on the tokens still to come. [machine_halts] is the case of the initial configuration. The
   table may contain the error symbol (the machine has no recovery; the result is about its plain table walk).
   [tree_run_halts], [tree_run_halts_stable], [decides_language]: the driver instance [tree_run] (tables without
   error symbol) ends with Accept or Reject for some fuel ([tree_run_halts_recovery]), keeps that result for all
   larger fuels, and decides the language of the grammar (the three outcomes of a run: Proofs/ReportHalt.v).
   [first_error_or_end]: tables WITH error symbol, up to the first syntax error. *)
Require Import Ctpg.Base.Prelude Ctpg.Model.Grammar Ctpg.Model.LRGen Ctpg.Model.Driver Ctpg.Spec.Cfg Ctpg.Spec.LRSpec
               Ctpg.Valid.LRValid Ctpg.Valid.LRProductive Ctpg.Proofs.LRMachine Ctpg.Proofs.LRValidFacts
               Ctpg.Proofs.LRSound Ctpg.Proofs.LRComplete Ctpg.Proofs.DriverBasics Ctpg.Proofs.SafeTerm
               Ctpg.Proofs.ReportLang Ctpg.Proofs.ReportViable Ctpg.Proofs.ReportHalt Ctpg.Proofs.TermViable
               Ctpg.Proofs.TermRecMachine Ctpg.Proofs.TermRecAll.
Require Ctpg.Proofs.ReportCex.

Section Halts.
  Variable g : grammar.
  Variable sts : list items.
  Variable tbl : table.
  Hypothesis Hval : validate g sts tbl = true.
  Hypothesis Hgen : lookahead_generated g sts.
  Hypothesis Hnonempty : states_nonempty sts.
  Hypothesis Hred : reduce_lookahead g sts tbl.
  Hypothesis Hprod : productive g.
  Let CF : complete_facts g sts tbl (nterm_empty g) (nterm_first g (nterm_empty g)) := complete_facts_of _ _ _ _ _ Hval.
  Let SF : sound_facts g sts tbl := cf_sound _ _ _ _ _ CF.

  Theorem halts_from_any rest : forall ss trs, MInv g sts ss trs -> tokens_ok g rest ->
    exists n c', msteps g tbl n (ss, trs, rest) c' /\ halted g tbl c'.
  Proof.
    induction rest as [rest IH] using (induction_ltof1 _ (@length nat)). unfold ltof in IH. intros ss trs HM Hw.
    pose proof (look_lt g sts tbl SF _ Hw) as Hla.
    destruct (finish_or_error g sts tbl Hval Hgen Hnonempty Hred Hprod ss trs rest HM Hla)
      as (cur & ss0 & -> & [(e & Hc & Ek)|(n & [[ss1 trs1] rest1] & Hr & Hend)]).
    { exists 0, (cur :: ss0, trs, rest). split; [reflexivity|]. unfold halted, mstep. rewrite Hc, Ek. exact I. }
    destruct (MInv_rsteps g sts tbl SF n _ _ _ _ _ _ HM Hla Hr) as [-> HM1].
    destruct Hend as [([[ss2 trs2] rest2] & Hsh & Hne)|Hsucc]; cbn [snd] in *.
    - (* the pending token is shifted: on with the rest *)
      pose proof (mshift_rest g tbl _ _ Hsh) as E. cbn [snd] in E. subst rest2.
      destruct (IH (tl rest)) with (ss := ss2) (trs := trs2) as (m & c' & Hm & Hh).
      + destruct rest; [contradiction|cbn; lia].
      + exact (MInv_mshift g sts tbl SF _ _ _ _ _ _ HM1 Hla Hsh).
      + destruct rest; [constructor|exact (Forall_inv_tail Hw)].
      + exists (n + (1 + m)), c'. split; [|exact Hh].
        eapply msteps_trans; [exact (rsteps_msteps g tbl n _ _ Hr)|]. exists (ss2, trs2, tl rest). split; [|exact Hm].
        exact (mshift_mstep g tbl _ _ Hsh (look_ne_err g sts tbl SF _ Hw)).
    - exists n, (ss1, trs1, rest). split; [exact (rsteps_msteps g tbl n _ _ Hr)|exact (msucc_halted g tbl _ Hsucc)].
  Qed.

  Variable w : list nat.
  Hypothesis Hw : tokens_ok g w.

  (* ... and how: it accepts a derivation tree of the input, or it stands on an error cell *)
  Theorem machine_outcome_core : exists n c, msteps g tbl n ([0], [], w) c /\
    ((exists t, mstep g tbl c = Acc t /\ derives_tree g t w) \/
     (mstep g tbl c = Fail /\ err_cell g tbl c /\ ~ derives g w)).
  Proof.
    destruct (halts_from_any w [0] [] (MInv_init g sts) Hw) as (n & c & Hs & Hh). exists n, c. split; [exact Hs|].
    assert (Hr : reach g tbl w c) by (exists n; exact Hs).
    pose proof (reach_SInv g sts tbl w SF Hw _ Hr) as HS.
    unfold halted in Hh. destruct (mstep g tbl c) as [c1|t| |] eqn:Em.
    - contradiction.
    - left. exists t. split; [reflexivity|]. eapply SInv_acc; eassumption.
    - right. split; [reflexivity|].
      assert (He : err_cell g tbl c).
      { eapply (progress g sts tbl _ _ CF (lookahead_closure_generated _ _ Hgen) w); eassumption. }
      split; [exact He|]. intros [t Hd]. eapply (fail_not_sentence g sts tbl Hval w c t); eassumption.
    - exfalso. exact (SInv_not_bad g sts tbl w SF _ HS Em).
  Qed.

  Hypothesis Hne : no_error_symbol g tbl = true.

  Theorem tree_run_outcome_core : exists fuel,
    (exists t, tree_run g tbl w fuel = Accept t /\ derives_tree g t w) \/
    (tree_run g tbl w fuel = Reject /\ ~ derives g w).
  Proof.
    destruct (tree_run_halts_recovery g sts tbl w Hval Hgen Hnonempty Hred Hprod Hw) as (fuel & Hf).
    exists fuel. destruct (Hf fuel (le_n _)) as [_ Hn].
    destruct (tree_run_outcomes g sts tbl w Hval (lookahead_closure_generated _ _ Hgen) Hne Hw fuel) as [H|[H|H]]; tauto.
  Qed.
End Halts.

(* the machine stops (Acc, Fail or Bad) after finitely many steps -- for every input, with or without error
   symbol in the table *)
Theorem machine_halts : forall g sts tbl w,
  validate g sts tbl = true -> lookahead_generated g sts -> states_nonempty sts -> reduce_lookahead g sts tbl ->
  productive g -> tokens_ok g w ->
  exists n c, msteps g tbl n ([0], [], w) c /\
              match mstep g tbl c with Next _ => False | _ => True end.
Proof. intros g sts tbl w Hval Hgen Hne Hred Hprod Hw. exact (halts_from_any g sts tbl Hval Hgen Hne Hred Hprod w [0] [] (MInv_init g sts) Hw). Qed.

Theorem machine_outcome : forall g sts tbl w,
  validate g sts tbl = true -> lookahead_generated g sts -> states_nonempty sts -> reduce_lookahead g sts tbl ->
  productive g -> tokens_ok g w ->
  exists n c, msteps g tbl n ([0], [], w) c /\
    ((exists t, mstep g tbl c = Acc t /\ derives_tree g t w) \/
     (mstep g tbl c = Fail /\ err_cell g tbl c /\ ~ derives g w)).
Proof. intros g sts tbl w Hval Hgen Hne Hred Hprod Hw. exact (machine_outcome_core g sts tbl Hval Hgen Hne Hred Hprod w Hw). Qed.

(* with the hypothesis [closure_generated] as well, which [lookahead_generated] implies *)
Corollary machine_halts_as_planned : forall g sts tbl w,
  validate g sts tbl = true -> closure_generated g sts -> states_nonempty sts ->
  lookahead_generated g sts -> reduce_lookahead g sts tbl ->
  productive g -> tokens_ok g w ->
  exists n c, msteps g tbl n ([0], [], w) c /\
              match mstep g tbl c with Next _ => False | _ => True end.
Proof. intros g sts tbl w Hval _ Hne Hgen Hred Hprod Hw. apply (machine_halts g sts tbl w); assumption. Qed.

Theorem tree_run_halts : forall g sts tbl w,
  validate g sts tbl = true -> lookahead_generated g sts -> states_nonempty sts -> reduce_lookahead g sts tbl ->
  productive g -> tokens_ok g w -> no_error_symbol g tbl = true ->
  exists fuel, tree_run g tbl w fuel <> OutOfFuel.
Proof.
  intros g sts tbl w Hval Hgen Hne Hred Hprod Hw _.
  destruct (tree_run_halts_recovery g sts tbl w Hval Hgen Hne Hred Hprod Hw) as (fuel & H). exists fuel. exact (proj2 (H fuel (le_n _))).
Qed.

Theorem tree_run_halts_stable : forall g sts tbl w,
  validate g sts tbl = true -> lookahead_generated g sts -> states_nonempty sts -> reduce_lookahead g sts tbl ->
  productive g -> tokens_ok g w -> no_error_symbol g tbl = true ->
  exists fuel, forall fuel', fuel <= fuel' ->
    tree_run g tbl w fuel' = tree_run g tbl w fuel /\ tree_run g tbl w fuel <> OutOfFuel.
Proof.
  intros g sts tbl w Hval Hgen Hne Hred Hprod Hw _. exact (tree_run_halts_recovery g sts tbl w Hval Hgen Hne Hred Hprod Hw).
Qed.

(* the driver decides the language: one fuel bound, after which the run accepts (a derivation tree of the input)
   exactly when the input is a sentence, and rejects exactly when it is not *)
Theorem decides_language : forall g sts tbl w,
  validate g sts tbl = true -> lookahead_generated g sts -> states_nonempty sts -> reduce_lookahead g sts tbl ->
  productive g -> tokens_ok g w -> no_error_symbol g tbl = true ->
  exists fuel, forall fuel', fuel <= fuel' ->
    (derives g w -> exists t, tree_run g tbl w fuel' = Accept t /\ derives_tree g t w) /\
    (~ derives g w -> tree_run g tbl w fuel' = Reject).
Proof.
  intros g sts tbl w Hval Hgen Hne Hred Hprod Hw Herr.
  destruct (tree_run_outcome_core g sts tbl Hval Hgen Hne Hred Hprod w Hw Herr) as (fuel & H).
  exists fuel. intros fuel' Hle.
  assert (Hm : tree_run g tbl w fuel' = tree_run g tbl w fuel).
  { apply tree_run_mono; [|exact Hle]. destruct H as [(t & E & _)|(E & _)]; rewrite E; discriminate. }
  rewrite Hm. destruct H as [(t & E & Hd)|(E & Hnd)].
  - split; [intros _; exists t; auto|]. intros Hn. exfalso. apply Hn. exists t. exact Hd.
  - split; [intros Hd; contradiction|]. intros _. exact E.
Qed.

(* [reject_iff_not_in_language_halting] of Proofs/ReportHalt.v without its halting hypothesis: rejected for some fuel
   iff not a sentence *)
Corollary reject_iff_not_in_language : forall g sts tbl w,
  validate g sts tbl = true -> lookahead_generated g sts -> states_nonempty sts -> reduce_lookahead g sts tbl ->
  productive g -> tokens_ok g w -> no_error_symbol g tbl = true ->
  ((exists fuel, tree_run g tbl w fuel = Reject) <-> ~ derives g w).
Proof.
  intros g sts tbl w Hval Hgen Hne Hred Hprod Hw Herr.
  apply (reject_iff_not_in_language_halting g sts tbl w Hval (lookahead_closure_generated _ _ Hgen) Herr Hw).
  exact (tree_run_halts g sts tbl w Hval Hgen Hne Hred Hprod Hw Herr).
Qed.

(* Tables with error symbol: after finitely many iterations the run has ended.  The right disjunct (the first syntax
   error reported, the run in recovery mode) is never taken: the recovery episodes end as well
   ([generic_tree_run_halts_recovery]). *)
Theorem first_error_or_end : forall g sts tbl w,
  validate g sts tbl = true -> lookahead_generated g sts -> states_nonempty sts -> reduce_lookahead g sts tbl ->
  productive g -> tokens_ok g w ->
  exists fuel r s out,
    Driver.run tree unit g tbl tree_opts w None id_lexer tf (ef g) rlf fuel tt = (r, s, out) /\
    (r <> OutOfFuel \/ (r = OutOfFuel /\ ps_rec s = true)).
Proof.
  intros g sts tbl w Hval Hgen Hne Hred Hprod Hw.
  destruct (generic_tree_run_halts_recovery g sts tbl tree_opts w id_lexer Hval Hgen Hne Hred Hprod
              (id_lexer_tokenises g w Hw)) as (fuel & Hf).
  destruct (run tree unit g tbl tree_opts w None id_lexer tf (ef g) rlf fuel tt) as [[r s] out] eqn:E.
  exists fuel, r, s, out. split; [exact E|left; exact Hf].
Qed.

(* the same with the boolean checks of Valid/LRProductive.v *)
Theorem machine_halts_checked : forall g sts tbl w,
  term_checks g sts tbl = true -> tokens_ok g w ->
  exists n c, msteps g tbl n ([0], [], w) c /\
              match mstep g tbl c with Next _ => False | _ => True end.
Proof.
  intros g sts tbl w Hc Hw. destruct (term_checks_facts _ _ _ Hc) as (H1 & H2 & H3 & H4 & H5).
  apply (machine_halts g sts tbl w); assumption.
Qed.

Theorem decides_language_checked : forall g sts tbl w,
  term_checks g sts tbl = true -> no_error_symbol g tbl = true -> tokens_ok g w ->
  exists fuel, forall fuel', fuel <= fuel' ->
    (derives g w -> exists t, tree_run g tbl w fuel' = Accept t /\ derives_tree g t w) /\
    (~ derives g w -> tree_run g tbl w fuel' = Reject).
Proof.
  intros g sts tbl w Hc Herr Hw. destruct (term_checks_facts _ _ _ Hc) as (H1 & H2 & H3 & H4 & H5).
  apply (decides_language g sts tbl w); assumption.
Qed.

(* The check [lookahead_generated] cannot be dropped:
   the looping table of Proofs/ReportCex.v passes [validate] and every other check *)
Theorem halting_refuted_without_lookahead_generated :
  validate ReportCex.g2 ReportCex.sts2 ReportCex.tbl2 = true /\ states_nonempty_b ReportCex.sts2 = true /\
  reduce_lookaheadb ReportCex.g2 ReportCex.sts2 ReportCex.tbl2 = true /\ productiveb ReportCex.g2 = true /\
  no_error_symbol ReportCex.g2 ReportCex.tbl2 = true /\ tokens_ok ReportCex.g2 [1] /\
  lookahead_generatedb ReportCex.g2 ReportCex.sts2 = false /\
  forall fuel, tree_run ReportCex.g2 ReportCex.tbl2 [1] fuel = OutOfFuel.
Proof.
  do 5 (split; [vm_compute; reflexivity|]). split; [repeat constructor|]. split; [vm_compute; reflexivity|].
  exact ReportCex.loop_forever.
Qed.

Print Assumptions halting_refuted_without_lookahead_generated.
Print Assumptions machine_halts.
Print Assumptions machine_outcome.
Print Assumptions tree_run_halts.
Print Assumptions tree_run_halts_stable.
Print Assumptions decides_language.
Print Assumptions reject_iff_not_in_language.
Print Assumptions first_error_or_end.
Print Assumptions machine_halts_checked.
Print Assumptions decides_language_checked.
