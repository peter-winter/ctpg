(* Sanity for Proofs/GenResolved.v: the example grammars of Proofs/GroupingExamples.v (each with shift/reduce
   conflicts in its generated table, so gen_validates of Proofs/GenCorrect.v does not apply) satisfy the hypotheses
   of gen_validates_resolved by computation; the facts that GroupingExamples.v checks by running the validator
   follow from the general theorem. *)
Require Import Ctpg.Base.Prelude Ctpg.Model.Grammar Ctpg.Model.LRGen Ctpg.Spec.Cfg Ctpg.Spec.LRSpec
               Ctpg.Spec.Grouping Ctpg.Valid.LRValid Ctpg.Valid.LRResolved Ctpg.Proofs.LRSound Ctpg.Proofs.GenWf
               Ctpg.Proofs.GenTrans Ctpg.Proofs.GenCorrect Ctpg.Proofs.GroupingExamples Ctpg.Proofs.GenResolved.

(* the hypotheses of gen_validates_resolved (for the default limits), and whether the table carries an S/R mark *)
Definition resolved_hyps (g : grammar) : bool :=
  grammar_wf g && grammar_wf_extra g &&
  match gen g with
  | inl (sts, tbl) => no_rr g (length sts) tbl && accept_clean g sts
  | inr _ => false
  end.
Definition has_sr_mark (g : grammar) : bool :=
  match gen g with inl (sts, tbl) => negb (conflict_free g (length sts) tbl) | inr _ => false end.

(* Both at once, read off the tables that Proofs/GroupingExamples.v has named, so that the generator is not run again *)
Definition hyps_and_mark (g : grammar) : bool :=
  grammar_wf g && grammar_wf_extra g &&
  (no_rr g (length (sts_of g)) (tbl_of g) && forallb (st_clean g) (sts_of g) &&
   negb (conflict_free g (length (sts_of g)) (tbl_of g))).

Lemma hyps_and_mark_split g : hyps_and_mark g = true -> resolved_hyps g = true /\ has_sr_mark g = true.
Proof.
  unfold hyps_and_mark, resolved_hyps, has_sr_mark, accept_clean, sts_of, tbl_of.
  destruct (gen g) as [[sts tbl]|]; [|rewrite !andb_false_r; discriminate]. rewrite map_length.
  replace (forallb (st_clean g) (map st_all sts)) with (forallb (fun st => st_clean g (st_all st)) sts)
    by (induction sts as [|st sts IH]; [reflexivity|]; cbn [map forallb]; rewrite IH; reflexivity).
  unfold st_clean. intros H. apply andb_true_iff in H. destruct H as [-> H'].
  apply andb_true_iff in H'. destruct H' as [-> ->]. auto.
Qed.

Lemma hyps_and_mark_computed g : In g [ga; gb; gc; gd; ge] -> hyps_and_mark g = true.
Proof.
  intros [<-|[<-|[<-|[<-|[<-|[]]]]]]; unfold hyps_and_mark;
    [with_tables ga_gen|with_tables gb_gen|with_tables gc_gen|with_tables gd_gen|with_tables ge_gen]; reflexivity.
Qed.

Example examples_hyps :
  map resolved_hyps [ga; gb; gc; gd; ge] = [true; true; true; true; true] /\
  map has_sr_mark [ga; gb; gc; gd; ge] = [true; true; true; true; true].
Proof.
  split; apply (map_ext_in _ (fun _ => true)); intros g Hg; apply (hyps_and_mark_split g (hyps_and_mark_computed g Hg)).
Qed.

Lemma resolved_hyps_computed g : In g [ga; gb; gc; gd; ge] -> resolved_hyps g = true.
Proof. intros Hg. exact (proj1 (hyps_and_mark_split g (hyps_and_mark_computed g Hg))). Qed.

Lemma resolved_hyps_ok g : resolved_hyps g = true ->
  validate_resolved g (sts_of g) (tbl_of g) = true /\
  forall w tr, tokens_ok g w -> no_error_symbol g (tbl_of g) = true -> accepts g (tbl_of g) w tr ->
               derives_tree g tr w /\ well_grouped g tr.
Proof.
  unfold resolved_hyps, sts_of, tbl_of. intros H.
  destruct (gen g) as [[sts tbl]|] eqn:E; [|rewrite andb_false_r in H; discriminate].
  apply andb_true_iff in H. destruct H as [H H3]. apply andb_true_iff in H. destruct H as [H1 H2].
  apply andb_true_iff in H3. destruct H3 as [H3 H4]. split.
  - apply gen_validates_resolved_default; assumption.
  - intros w tr Hw Hne Hacc. apply (gen_groups_derivation g (default_limits g) sts tbl); assumption.
Qed.

(* what GroupingExamples.v gets by running the validator, from the generator theorem *)
Theorem ga_resolved_by_theorem : validate_resolved ga (sts_of ga) (tbl_of ga) = true.
Proof. apply resolved_hyps_ok, resolved_hyps_computed. now left. Qed.
Theorem gb_resolved_by_theorem : validate_resolved gb (sts_of gb) (tbl_of gb) = true.
Proof. apply resolved_hyps_ok, resolved_hyps_computed. now right; left. Qed.
Theorem gc_resolved_by_theorem : validate_resolved gc (sts_of gc) (tbl_of gc) = true.
Proof. apply resolved_hyps_ok, resolved_hyps_computed. now do 2 right; left. Qed.
Theorem gd_resolved_by_theorem : validate_resolved gd (sts_of gd) (tbl_of gd) = true.
Proof. apply resolved_hyps_ok, resolved_hyps_computed. now do 3 right; left. Qed.
Theorem ge_resolved_by_theorem : validate_resolved ge (sts_of ge) (tbl_of ge) = true.
Proof. apply resolved_hyps_ok, resolved_hyps_computed. now do 4 right; left. Qed.

Theorem ge_groups_by_theorem : forall w tr, tokens_ok ge w -> accepts ge (tbl_of ge) w tr ->
  derives_tree ge tr w /\ well_grouped ge tr.
Proof.
  intros w tr Hw. apply resolved_hyps_ok; [apply resolved_hyps_computed; now do 4 right; left|exact Hw|exact ge_noerr].
Qed.

(* the hypothesis no_rr cannot be dropped: for S -> A | B, A -> a, B -> a the grammar is well-formed, the generator
   succeeds, the table is accept-clean, but it has a reduce/reduce cell and the resolved validator rejects it *)
Definition g_rr : grammar :=
  match analyze (mkRG [83] [mkRT [97] 0%Z NoAssoc] [[83]; [65]; [66]]
                      [mkRR [83] [RNterm [65]] None; mkRR [83] [RNterm [66]] None;
                       mkRR [65] [RTerm [97]] None; mkRR [66] [RTerm [97]] None])
  with Some g => g | None => dummy_g end.

Example no_rr_needed :
  grammar_wf g_rr = true /\ grammar_wf_extra g_rr = true /\
  match gen g_rr with
  | inl (sts, tbl) => no_rr g_rr (length sts) tbl = false /\ accept_clean g_rr sts = true /\
                      validate_resolved g_rr (map st_all sts) tbl = false
  | inr _ => False
  end.
Proof. vm_compute. repeat split; reflexivity. Qed.

(* the hypothesis accept_clean cannot be dropped either (finding D12): for S -> b | A, A -> S (Proofs/CellResolve.v)
   no cell is marked at all, state 1 hides the accept/reduce conflict, and the resolved validator rejects the table *)
Example accept_clean_needed :
  grammar_wf CellResolve.g12 = true /\ grammar_wf_extra CellResolve.g12 = true /\
  match gen CellResolve.g12 with
  | inl (sts, tbl) => conflict_free CellResolve.g12 (length sts) tbl = true /\ no_rr CellResolve.g12 (length sts) tbl = true /\
                      accept_clean CellResolve.g12 sts = false /\
                      validate_resolved CellResolve.g12 (map st_all sts) tbl = false
  | inr _ => False
  end.
Proof. vm_compute. repeat split; reflexivity. Qed.

Print Assumptions ge_groups_by_theorem.
