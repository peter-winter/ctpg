(* Counterexamples: what [validate] does NOT guarantee about non-sentences.
   The validator accepts item sets that contain items no closure put there (it checks that each state is closed,
   not that it is the closure of its kernel; state 0 may contain any dot-0 items). Such items are harmless for the
   accepted language (lr_language) but they govern what happens on non-sentences:
   (1) CRASH: the run on a non-sentence ends with Crash CrGotoUninit, not Reject;
   (2) LOOP : the run on a non-sentence never ends (OutOfFuel for every fuel);
   (3) LATE : a token is shifted without error although no sentence begins with it.
   So neither "(exists fuel, tree_run = Reject) <-> ~ derives" nor "the tokens shifted so far are a prefix of a
   sentence" follows from [validate] alone. *)
Require Import Ctpg.Base.Prelude Ctpg.Model.Grammar Ctpg.Model.LRGen Ctpg.Model.Driver
               Ctpg.Spec.Cfg Ctpg.Spec.LRSpec Ctpg.Valid.LRValid
               Ctpg.Proofs.LRMachine Ctpg.Proofs.LRSound Ctpg.Proofs.LRComplete Ctpg.Proofs.ReportLang.

Definition E := entry_default.
Definition Sh n := mkE KShift (Some n) false.
Definition Rd n := mkE KReduce (Some n) false.
Definition Ok := mkE KSuccess None false.

(* (1) crash.  S -> a ; A -> (empty), A unreachable. terms a=0 <eof>=1 <err>=2; nonterminals S=0 A=1 ##=2;
   columns S A ## a <eof> <err>. State 0 carries the extra item [A -> ., <eof>] with its reduce; there is no goto on A. *)
Definition g1 := mkG 3 3 3 1 [[T 0]; []; [NT 0]] [mkRI 0 0 1; mkRI 1 1 0; mkRI 2 2 1] [(0,1);(1,1);(2,1)]
                     [0%Z;0%Z;0%Z] [NoAssoc;NoAssoc;NoAssoc] [0%Z;0%Z;0%Z] [NoAssoc;NoAssoc;NoAssoc] [Some 0; None; None].
Definition sts1 : list items := [[mkItem 2 0 1; mkItem 0 0 1; mkItem 1 0 1]; [mkItem 0 1 1]; [mkItem 2 1 1]].
Definition tbl1 : table :=
  [[Sh 2; E; E; Sh 1; Rd 1; E];
   [E; E; E; E; Rd 0; E];
   [E; E; E; E; Ok; E]].

Example crash_validates : validate g1 sts1 tbl1 = true /\ no_error_symbol g1 tbl1 = true.
Proof. vm_compute. auto. Qed.

Example crash_run : forall fuel, tree_run g1 tbl1 [] (S fuel) = Crash CrGotoUninit.
Proof. intros fuel. reflexivity. Qed.

Lemma crash_not_sentence : ~ derives g1 [].
Proof.
  intros [t Hd]. destruct (lr_complete g1 sts1 tbl1 [] t (proj1 crash_validates) (Forall_nil _) Hd) as [fuel Ha].
  destruct fuel as [|fuel]; [discriminate|]. rewrite crash_run in Ha. discriminate.
Qed.

(* [validate] and [no_error_symbol] do not give the equivalence *)
Theorem reject_iff_not_in_language_false :
  ~ (forall g sts tbl w, validate g sts tbl = true -> no_error_symbol g tbl = true -> tokens_ok g w ->
       ((exists fuel, tree_run g tbl w fuel = Reject) <-> ~ derives g w)).
Proof.
  intros H. destruct crash_validates as [Hv Hn].
  destruct (proj2 (H g1 sts1 tbl1 [] Hv Hn (Forall_nil _)) crash_not_sentence) as [fuel Hr].
  destruct fuel as [|fuel]; [discriminate|]. rewrite crash_run in Hr. discriminate.
Qed.

(* (2) loop and (3) late error.  S -> c ; X -> X | b, X unreachable. terms c=0 b=1 <eof>=2 <err>=3; nonterminals S=0 X=1 ##=2;
   rules 0: S -> c, 1: X -> X, 2: X -> b, 3: ## -> S; columns S X ## c b <eof> <err>.
   State 0 carries the extra items [X -> . X, <eof>] and [X -> . b, <eof>] with their shift and goto. *)
Definition g2 := mkG 4 3 4 1 [[T 0]; [NT 1]; [T 1]; [NT 0]]
                     [mkRI 0 0 1; mkRI 1 1 1; mkRI 1 2 1; mkRI 2 3 1] [(0,1);(1,2);(3,1)]
                     [0%Z;0%Z;0%Z;0%Z] [NoAssoc;NoAssoc;NoAssoc;NoAssoc]
                     [0%Z;0%Z;0%Z;0%Z] [NoAssoc;NoAssoc;NoAssoc;NoAssoc] [Some 0; None; Some 1; None].
Definition sts2 : list items :=
  [[mkItem 3 0 2; mkItem 0 0 2; mkItem 1 0 2; mkItem 2 0 2];
   [mkItem 0 1 2]; [mkItem 2 1 2]; [mkItem 3 1 2]; [mkItem 1 1 2]].
Definition tbl2 : table :=
  [[Sh 3; Sh 4; E; Sh 1; Sh 2; E; E];
   [E; E; E; E; E; Rd 0; E];
   [E; E; E; E; E; Rd 2; E];
   [E; E; E; E; E; Ok; E];
   [E; E; E; E; E; Rd 1; E]].

Example loop_validates : validate g2 sts2 tbl2 = true /\ no_error_symbol g2 tbl2 = true /\ tokens_ok g2 [1].
Proof. split; [vm_compute; reflexivity|]. split; [vm_compute; reflexivity|]. repeat constructor. Qed.

(* the grammar's only sentence is "c"; it still accepts it *)
Example loop_accepts_c : tree_run g2 tbl2 [0] 10 = Accept (Node 0 [Leaf 0]).
Proof. vm_compute. reflexivity. Qed.

Lemma g2_rules r rhs : is_rule g2 r 0 rhs -> r = 0 /\ rhs = [T 0].
Proof.
  intros (i & ri & Hi & Hr & Hl & Hrhs).
  destruct i as [|[|[|[|i]]]]; cbn in Hi; try (destruct i; discriminate);
    inversion Hi; subst ri; cbn in *; subst; try discriminate; cbn in Hrhs; inversion Hrhs; auto.
Qed.

Lemma g2_sentences t w : derives_tree g2 t w -> w = [0].
Proof.
  intros (s & Hs & Hv & Hy). cbn in Hs. inversion Hs; subst s. subst w.
  inversion Hv as [|r l rhs ch Hr Hch]; subst.
  apply g2_rules in Hr as [-> ->].
  inversion Hch as [|x c rhs' ch' Hx Hrest]; subst. inversion Hrest; subst. inversion Hx; subst. reflexivity.
Qed.

Lemma loop_not_sentence : ~ derives g2 [1].
Proof. intros [t Hd]. apply g2_sentences in Hd. discriminate. Qed.

Notation step2 := (step tree unit g2 tbl2 tree_opts [1] None id_lexer tf (ef g2) rlf).
Notation run2 := (run_from tree unit g2 tbl2 tree_opts [1] None id_lexer tf (ef g2) rlf).

(* the loop-head states of the cycle: stack [4; 0], one tree, <eof> pending *)
Definition Lst (v : tree) (sp : spoint) : pstate tree unit :=
  mkPS [4; 0] [v] sp 1 1 (Some 2) false false tt.

Lemma loop_step v sp : exists ev, step2 (Lst v sp) = (inl (Lst (Node 1 [v]) sp), ev).
Proof. eexists. reflexivity. Qed.

Lemma loop_run fuel : forall v sp out, fst (fst (run2 fuel (Lst v sp) out)) = OutOfFuel.
Proof.
  induction fuel as [|f IH]; intros v sp out; cbn [run_from]; [reflexivity|].
  destruct (loop_step v sp) as [ev E]. rewrite E. apply IH.
Qed.

Theorem loop_forever : forall fuel, tree_run g2 tbl2 [1] fuel = OutOfFuel.
Proof.
  intros fuel. rewrite tree_run_eq.
  destruct fuel as [|[|fuel]]; [reflexivity|reflexivity|].
  (* the first two iterations (shift term 1, reduce by rule 2) are computed, each as the subterm [step ...] alone since
     the goal around it holds the variable fuel; they lead to a state [Lst _ _ _], where [loop_run] takes over *)
  cbn [run_from].
  match goal with |- context [step ?a ?b ?c ?d ?e ?f ?g ?h ?i ?j ?k (init tt)] =>
    let x := eval vm_compute in (step a b c d e f g h i j k (init tt)) in
    change (step a b c d e f g h i j k (init tt)) with x end.
  cbv iota beta.
  match goal with |- context [step ?a ?b ?c ?d ?e ?f ?g ?h ?i ?j ?k ?s] =>
    let x := eval vm_compute in (step a b c d e f g h i j k s) in
    change (step a b c d e f g h i j k s) with x end.
  cbv iota beta.
  apply (loop_run fuel (Node 2 [Leaf 1])).
Qed.

Theorem nonsentence_never_rejected :
  validate g2 sts2 tbl2 = true /\ no_error_symbol g2 tbl2 = true /\ tokens_ok g2 [1] /\ ~ derives g2 [1] /\
  forall fuel, tree_run g2 tbl2 [1] fuel <> Reject.
Proof.
  destruct loop_validates as (Hv & Hn & Hw). repeat split; auto using loop_not_sentence.
  intros fuel. rewrite loop_forever. discriminate.
Qed.

(* (3) "the driver has shifted w without error -> some sentence begins with w" is false *)

Lemma g2_reachable l : reachable g2 l -> l = 0.
Proof.
  induction 1 as [x Hx|l r rhs m Hl IH Hr Hin].
  - cbn in Hx. inversion Hx. reflexivity.
  - subst l. apply g2_rules in Hr as [_ ->].
    cbn in Hin. destruct Hin as [E|[]]. discriminate.
Qed.

Lemma g2_productive : productive g2.
Proof.
  intros l Hl. apply g2_reachable in Hl. subst l. exists (Node 0 [Leaf 0]).
  econstructor; [exists 0, (mkRI 0 0 1); cbn; auto|]. repeat constructor.
Qed.

(* the machine (hence the driver: EvShift is written) shifts b from the initial configuration, no error cell is
   met, and yet no sentence begins with b *)
Theorem shifted_prefix_not_viable :
  validate g2 sts2 tbl2 = true /\ no_error_symbol g2 tbl2 = true /\ tokens_ok g2 [1] /\ productive g2 /\
  msteps g2 tbl2 1 ([0], [], [1]) ([2; 0], [Leaf 1], []) /\
  ~ sentence_prefix g2 [1].
Proof.
  destruct loop_validates as (Hv & Hn & Hw). repeat split; auto using g2_productive.
  - cbn. eexists. split; reflexivity.
  - intros (v & t & Hd). apply g2_sentences in Hd. discriminate.
Qed.

Print Assumptions reject_iff_not_in_language_false.
Print Assumptions nonsentence_never_rejected.
Print Assumptions shifted_prefix_not_viable.
