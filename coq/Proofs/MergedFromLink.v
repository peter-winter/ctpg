(* merged_from on words.  ctpg.hpp's DFA builder keeps, per state, the set of states already merged into it as a
   cbitset over state indices: `if (merged_from.test(from)) return; merged_from.set(from);`.  The builder mirror
   Model/Dfa.v keeps the set bits as a list (`d_merged`), tests with Prelude.mem_nat and inserts with `from :: _`.
   Here: the relation between the word-level set and the list, the simulation of test and of insert, the throw outside
   the range, and the test-then-set discipline over any sequence of in-range indices. *)
From Ctpg Require Import Base.Prelude Model.Containers Proofs.ContainersBits.
From Coq Require Import NArith Lia List Bool.
Import ListNotations.

(* the last conjunct keeps the list free of indices the bitset has no bit for; the lemmas below re-establish it and
   none of them needs it *)
Definition merged_rel (n : nat) (b : cbitset) (l : list nat) : Prop :=
  cb_wf b /\ cb_n b = N.of_nat n /\
  (forall j, j < n -> cb_mem b (N.of_nat j) = mem_nat j l) /\
  Forall (fun j => j < n) l.

Lemma merged_rel_new : forall n, merged_rel n (cb_new (N.of_nat n)) [].
Proof.
  intros n. split; [apply cb_new_wf |]. split; [reflexivity |]. split; [| constructor].
  intros j _. rewrite new_mem. reflexivity.
Qed.

Lemma merged_test_sim : forall n b l from, merged_rel n b l -> from < n ->
  cb_test b (N.of_nat from) = Ok (mem_nat from l).
Proof.
  intros n b l from (Hwf & Hn & Hmem & Hall) Hlt.
  rewrite cb_test_ok by lia. rewrite (Hmem from Hlt). reflexivity.
Qed.

Lemma merged_insert_sim : forall n b l from, merged_rel n b l -> from < n ->
  exists b', cb_set b (N.of_nat from) = Ok b' /\ merged_rel n b' (from :: l).
Proof.
  intros n b l from (Hwf & Hn & Hmem & Hall) Hlt.
  destruct (cb_set_nat b from n Hwf Hn Hlt) as (b' & Hs & Hwf' & Hn' & _ & Hmem' & _).
  exists b'. split; [exact Hs |].
  split; [exact Hwf' |]. split; [exact Hn' |]. split; [| constructor; assumption].
  intros j Hj. rewrite (Hmem' j Hj), (Hmem j Hj). cbn [mem_nat].
  destruct (Nat.eqb j from); reflexivity.
Qed.

Lemma merged_out_of_range_throws : forall n b l from, merged_rel n b l -> n <= from ->
  cb_test b (N.of_nat from) = Throw.
Proof.
  intros n b l from (_ & Hn & _) Hge. apply cb_test_throws_iff_out_of_range. lia.
Qed.

(* one `if (merged_from.test(from)) return; merged_from.set(from);` *)
Definition w_merge_step (acc : res cbitset) (j : nat) : res cbitset :=
  match acc with
  | Ok b => match cb_test b (N.of_nat j) with
            | Ok true => Ok b
            | Ok false => cb_set b (N.of_nat j)
            | Throw => Throw
            | Undef => Undef
            end
  | r => r
  end.

(* what Dfa.merge does to d_merged (`if mem_nat from (d_merged _) then ... else from :: d_merged _`), written out
   here: Model/Dfa.v is not imported and no Coq statement ties the two *)
Definition l_merge_step (l : list nat) (j : nat) : list nat := if mem_nat j l then l else j :: l.

Lemma merged_step_sim : forall n b l j, merged_rel n b l -> j < n ->
  exists b', w_merge_step (Ok b) j = Ok b' /\ merged_rel n b' (l_merge_step l j).
Proof.
  intros n b l j Hrel Hj. unfold w_merge_step, l_merge_step.
  rewrite (merged_test_sim n b l j Hrel Hj).
  destruct (mem_nat j l).
  - exists b. split; [reflexivity | exact Hrel].
  - apply merged_insert_sim; assumption.
Qed.

Theorem merged_fold_sim : forall n js b l, merged_rel n b l -> Forall (fun j => j < n) js ->
  exists b', fold_left w_merge_step js (Ok b) = Ok b' /\ merged_rel n b' (fold_left l_merge_step js l).
Proof.
  intros n js. induction js as [| j js IH]; intros b l Hrel Hjs.
  - exists b. split; [reflexivity | exact Hrel].
  - inversion Hjs as [| j0 js0 Hj Hjs']; subst.
    destruct (merged_step_sim n b l j Hrel Hj) as (b1 & Hs & Hrel1).
    cbn [fold_left]. rewrite Hs. apply IH; assumption.
Qed.

Corollary merged_fold_from_new : forall n js, Forall (fun j => j < n) js ->
  exists b', fold_left w_merge_step js (Ok (cb_new (N.of_nat n))) = Ok b' /\
             merged_rel n b' (fold_left l_merge_step js []).
Proof. intros n js Hjs. apply merged_fold_sim; [apply merged_rel_new | exact Hjs]. Qed.

(* an out-of-range index anywhere in the sequence makes the word-level fold throw at that point *)
Lemma w_merge_step_throw_absorb : forall js, fold_left w_merge_step js Throw = Throw.
Proof. induction js as [| j js IH]; [reflexivity | exact IH]. Qed.

Theorem merged_fold_out_of_range_throws : forall n pre j post b l, merged_rel n b l ->
  Forall (fun i => i < n) pre -> n <= j ->
  fold_left w_merge_step (pre ++ j :: post) (Ok b) = Throw.
Proof.
  intros n pre j post b l Hrel Hpre Hge.
  destruct (merged_fold_sim n pre b l Hrel Hpre) as (b1 & Hf & Hrel1).
  rewrite fold_left_app, Hf. cbn [fold_left]. unfold w_merge_step at 2.
  rewrite (merged_out_of_range_throws n b1 _ j Hrel1 Hge).
  apply w_merge_step_throw_absorb.
Qed.

Print Assumptions merged_insert_sim.
Print Assumptions merged_fold_sim.
