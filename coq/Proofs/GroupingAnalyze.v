(* For grammars built by the rule analysis ([analyze], Model/Grammar.v): a binary operator rule written WITHOUT an
   explicit precedence is "plain" in the sense of Spec/Grouping.v: its precedence and associativity are those of its
   operator. So for such rules [groups_by_precedence] speaks about the precedence levels the user declared for the
   operators. *)
Require Import Ctpg.Base.Prelude Ctpg.Model.Grammar Ctpg.Spec.Conflict Ctpg.Spec.Grouping Ctpg.Proofs.GenLists.

Lemma nth_map_in {A B} (f : A -> B) l k da db : k < length l -> nth k (map f l) db = f (nth k l da).
Proof. intros H. rewrite (nth_indep _ db (f da)) by (rewrite map_length; exact H). apply map_nth. Qed.

(* the associativity of a rule is that of its last term even when its precedence is given explicitly
   (calculate_rule_precedence, calculate_rule_associativity in ctpg.hpp) *)
Theorem analyze_rule_prec rg g k rr :
  analyze rg = Some g -> nth_error (rg_rules rg) k = Some rr ->
  nth k (rule_prec g) 0%Z =
    match rr_prec rr with
    | Some z => z
    | None => match last_term (nth k (right_sides g) []) with
              | Some t => nth t (term_prec g) 0%Z
              | None => 0%Z
              end
    end /\
  nth k (rule_assoc g) NoAssoc =
    match last_term (nth k (right_sides g) []) with
    | Some t => nth t (term_assoc g) NoAssoc
    | None => NoAssoc
    end.
Proof.
  unfold analyze. intros H Hk.
  set (all_rules := rg_rules rg ++ [mkRR id_fake_root [RNterm (rg_root rg)] None]) in *.
  destruct (map_opt _ all_rules) as [ls|] eqn:Els; [|discriminate].
  destruct (map_opt (fun r => map_opt _ (rr_r r)) all_rules) as [rs|] eqn:Ers; [|discriminate].
  inversion H; subst g; clear H. cbn [rule_prec rule_assoc right_sides term_prec term_assoc].
  assert (k < length (rg_rules rg)) as Hlt by (apply nth_error_Some; congruence).
  assert (length rs = length all_rules) as Hlen by (eapply map_opt_length; eassumption).
  assert (k < length all_rules) as Hlt' by (unfold all_rules; rewrite app_length; cbn; lia).
  assert (nth k all_rules (mkRR [] [] None) = rr) as Hrr.
  { unfold all_rules. rewrite app_nth1 by assumption. apply nth_error_nth. assumption. }
  split.
  - rewrite (nth_map_in _ _ k (mkRR [] [] None, None)).
    2:{ rewrite combine_length, map_length. lia. }
    rewrite combine_nth by (rewrite map_length; lia). cbn [fst snd]. rewrite Hrr.
    rewrite (nth_map_in last_term rs k []) by lia. reflexivity.
  - rewrite (nth_map_in _ (map last_term rs) k None) by (rewrite map_length; lia).
    rewrite (nth_map_in last_term rs k []) by lia. reflexivity.
Qed.

(* a binary operator rule (r_idx r, one of the user's rules) without explicit precedence is plain *)
Corollary analyze_binop_plain rg g i r e t rr :
  analyze rg = Some g -> binop_at g i r e t ->
  nth_error (rg_rules rg) r = Some rr -> rr_prec rr = None ->
  plain_rule g i t.
Proof.
  intros Ha (ri & Hi & Hr & Hl & Hrhs) Hrr Hnone.
  destruct (analyze_rule_prec rg g r rr Ha Hrr) as [Hp Has]. rewrite Hnone in Hp.
  assert (nth r (right_sides g) [] = [NT e; T t; NT e]) as E by (apply nth_error_nth; assumption).
  rewrite E in Hp, Has. cbn [last_term] in Hp, Has.
  unfold plain_rule, rule_prec_of, rule_assoc_of, term_prec_of, term_assoc_of, get_ri.
  rewrite (nth_error_nth _ _ dummy_ri Hi), Hr. split; assumption.
Qed.

Print Assumptions analyze_binop_plain.
