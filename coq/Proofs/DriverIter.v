(* One iteration of the driver loop, split into WHICH move it makes and WHAT the move does.
   [decide] reads the table cell, the modes, the pending term, the cursor stack and the NUMBER of values, and names
   the move; it never looks at a value, the context or a functor.  [perform] is what the move does to the state and which lines it
   writes; it never looks at the table.  [act_eq]: act = perform (decide).  [decided] says, per move, what
   [decide] saw (the cell, the guards).
   An invariant proof is one [step_moves], a lemma about [gct_spec] and a case analysis of [decided] (or of the
   move); a proof that follows one path rewrites with [step_eq] and computes [decide] ([decide_nocell],
   [decide_error]); a proof that compares two runs compares [decide] or [perform] alone.  What a move does to a
   group of fields is said once: [move_cur], [perform_heights], [perform_modes], [perform_final]. *)
Require Import Ctpg.Base.Prelude Ctpg.Proofs.ListFacts Ctpg.Model.Grammar Ctpg.Model.LRGen Ctpg.Model.Driver
               Ctpg.Proofs.DriverBasics.

(* how a push, a pop or a table access can go wrong *)
Inductive failure := VCrash (c : crash) | VThrow.

Inductive move :=
| MNoCell (c : crash)                              (* the table has no such cell: stop as it is *)
| MEof                                             (* <eof> while discarding: stop as it is, Reject *)
| MStop (x : failure) (ev : list event)            (* a non-error cell that cannot be followed: leave consume mode, write ev, stop *)
| MAccept                                          (* the success cell: Accept, or CrNoValue when there is no value *)
| MPopFail
| MConsume
| MEnter
| MPop (top : nat)
| MShift (t nst : nat)                             (* t is the term, kept for term_f *)
| MShiftErr (nst : nat)
| MReduce (rr : bool) (r : nat) (ri : rule_info) (nst : nat).  (* r indexes rule_infos (the cell's argument), ri is the
                                                      record there, the rule is ri_r ri *)

Section Iter.
  Variables V C : Type.
  Variable g : grammar.
  Variable tbl : table.
  Variable opts : options.
  Variable buf : list nat.
  Variable cap : option nat.
  Variable lexer : bool -> spoint -> list nat -> list lex_event * option (nat * nat).
  Variable term_f : nat -> nat -> nat -> spoint -> V.
  Variable err_f : spoint -> V.
  Variable rule_f : nat -> C -> list V -> C * V.

  Notation pst := (pstate V C).
  Notation outcome := (pst + result V * pst)%type.
  Notation stepx := (step V C g tbl opts buf cap lexer term_f err_f rule_f).
  Notation actx := (act V C g tbl buf cap term_f err_f rule_f).
  Notation gctx := (get_current_term V C g opts buf lexer).
  Notation gspec := (gct_spec V C g opts buf lexer).
  Notation reducex := (do_reduce V C g tbl cap rule_f).
  Notation consumex := (consume_term V C buf).
  Notation fullx := (full cap).

  (* the reduce by rule_info r on a cursor stack cs over nv values: the rule and the goto target, or why not.
     The two [fullx] tests are those of do_reduce's two push_back, each on its stack after the pop. *)
  Definition decide_reduce (cs : list nat) (nv r : nat) : rule_info * nat + failure :=
    match nth_error (rule_infos g) r with
    | None => inr (VCrash CrRuleInfo)
    | Some ri =>
        if Nat.ltb (length cs) (ri_n ri) then inr (VCrash CrStackUnderflow) else
        match skipn (ri_n ri) cs with
        | [] => inr (VCrash CrEmptyStack)
        | top :: below =>
            match cell tbl top (ri_l ri) with
            | inr c => inr (VCrash c)
            | inl e =>
                if fullx (length (top :: below)) then inr VThrow else
                match e_arg e with
                | None => inr (VCrash CrGotoUninit)
                | Some nst =>
                    if Nat.ltb nv (ri_n ri) then inr (VCrash CrStackUnderflow) else
                    if fullx (nv - ri_n ri) then inr VThrow else inl (ri, nst)
                end
            end
        end
    end.

  Definition shift_line (s1 : pst) (nst : nat) : event := EvShift (ps_sp s1) nst (ps_it s1) (ps_end s1 - ps_it s1).
  Definition rr_line (rr : bool) (s1 : pst) : list event := if rr then [EvRR (ps_sp s1)] else [].

  Definition decide (s1 : pst) (cursor t : nat) : move :=
    match cell tbl cursor (nterm_count g + t) with
    | inr c => MNoCell c
    | inl e =>
        let red rr :=
          match e_arg e with
          | None => MStop (VCrash CrRRArg) (rr_line rr s1)
          | Some r => match decide_reduce (ps_cursors s1) (length (ps_values s1)) r with
                      | inl (ri, nst) => MReduce rr r ri nst
                      | inr x => MStop x (rr_line rr s1)
                      end
          end in
        match e_kind e with
        | KError =>
            if ps_cons s1 then
              if match ps_term s1 with Some x => Nat.eqb x (eof_idx g) | None => false end then MEof else MConsume
            else if ps_rec s1 then match tl (ps_cursors s1) with [] => MPopFail | top :: _ => MPop top end
            else MEnter
        | KSuccess => MAccept
        | KShift =>
            match e_arg e with
            | None => MStop (VCrash CrGotoUninit) []
            | Some nst =>
                if fullx (length (ps_cursors s1)) then MStop VThrow [shift_line s1 nst] else
                if Nat.ltb (length buf) (ps_end s1) then MStop (VCrash CrBufferOverrun) [shift_line s1 nst] else
                MShift t nst
            end
        | KShiftErr =>
            match e_arg e with
            | None => MStop (VCrash CrGotoUninit) []
            | Some nst => if fullx (length (ps_cursors s1)) then MStop VThrow [EvShiftErr (ps_sp s1) nst] else MShiftErr nst
            end
        | KReduce => red false
        | KRR => red true
        end
    end.

  Definition to_result (x : failure) : result V :=
    match x with VCrash c => Crash c | VThrow => Throw end.

  Definition push (s : pst) (n : nat) (v : V) : pst := set_stacks s (n :: ps_cursors s) (v :: ps_values s).
  Definition pop1 (s : pst) : pst := set_stacks s (tl (ps_cursors s)) (tl (ps_values s)).
  Definition reduced (s : pst) (ri : rule_info) (nst : nat) : pst :=
    let cv := rule_f (ri_r ri) (ps_ctx s) (rev (firstn (ri_n ri) (ps_values s))) in
    set_ctx (set_stacks s (nst :: skipn (ri_n ri) (ps_cursors s)) (snd cv :: skipn (ri_n ri) (ps_values s))) (fst cv).

  Definition perform (m : move) (s1 : pst) : outcome * list event :=
    let sp := ps_sp s1 in
    match m with
    | MNoCell c => (inr (Crash c, s1), [])
    | MEof => (inr (Reject, s1), [])
    | MStop x ev => (inr (to_result x, clr s1), lc s1 ++ ev)
    | MAccept =>
        (inr (match rev (ps_values s1) with [] => Crash CrNoValue | v :: _ => Accept v end, clr s1), lc s1 ++ [EvSuccess sp])
    | MPopFail => (inr (Reject, pop1 s1), [EvCouldNotRecover sp])
    | MConsume => (inl (consumex s1), [EvConsuming sp (term_or0 s1)])
    | MEnter => (inl (set_modes s1 true false), [EvSyntaxError sp (term_or0 s1); EvEnterRecovery sp])
    | MPop top => (inl (pop1 s1), [EvRecoveringTo sp top])
    | MShift t nst =>
        (inl (consumex (push (clr s1) nst (term_f t (ps_it s1) (ps_end s1 - ps_it s1) sp))), lc s1 ++ [shift_line s1 nst])
    | MShiftErr nst =>
        (inl (set_modes (push (clr s1) nst (err_f sp)) false true),
         lc s1 ++ [EvShiftErr sp nst; EvLeaveRecovery sp; EvEnterConsume sp])
    | MReduce rr r ri nst =>
        (inl (reduced (clr s1) ri nst), lc s1 ++ rr_line rr s1 ++ [EvReduce sp (ri_r ri) r; EvGoto sp (Some nst)])
    end.

  Lemma reduce_eq s r :
    reducex s r =
    match decide_reduce (ps_cursors s) (length (ps_values s)) r with
    | inl (ri, nst) => inl (reduced s ri nst, [EvReduce (ps_sp s) (ri_r ri) r; EvGoto (ps_sp s) (Some nst)])
    | inr x => inr (to_result x)
    end.
  Proof.
    unfold do_reduce, decide_reduce.
    destruct (nth_error (rule_infos g) r) as [ri|]; [|reflexivity].
    destruct (Nat.ltb (length (ps_cursors s)) (ri_n ri)); [reflexivity|].
    destruct (skipn (ri_n ri) (ps_cursors s)) as [|top below] eqn:Hsk; [reflexivity|].
    destruct (cell tbl top (ri_l ri)) as [e|c]; [|reflexivity].
    destruct (fullx (length (top :: below))); [reflexivity|].
    destruct (e_arg e) as [nst|]; [|reflexivity].
    destruct (Nat.ltb (length (ps_values s)) (ri_n ri)); [reflexivity|].
    rewrite skipn_length.
    destruct (rule_f (ri_r ri) (ps_ctx s) (rev (firstn (ri_n ri) (ps_values s)))) as [c' v] eqn:Hf.
    destruct (fullx (length (ps_values s) - ri_n ri)); [reflexivity|].
    cbv beta iota. unfold reduced. now rewrite Hsk, Hf.
  Qed.

  Theorem act_eq s1 cursor t : actx s1 cursor t = perform (decide s1 cursor t) s1.
  Proof.
    unfold act, decide.
    destruct (cell tbl cursor (nterm_count g + t)) as [e|c]; [|reflexivity].
    fold (clr s1). fold (lc s1).
    destruct (e_kind e).
    - destruct (ps_cons s1) eqn:Hc.
      + destruct (match ps_term s1 with Some x => Nat.eqb x (eof_idx g) | None => false end); reflexivity.
      + destruct (ps_rec s1); cbn [negb]; [|reflexivity].
        unfold pop_stacks. fold (pop1 s1). destruct (tl (ps_cursors s1)); reflexivity.
    - unfold perform. rewrite clr_values, clr_sp. destruct (rev (ps_values s1)); reflexivity.
    - destruct (e_arg e) as [nst|]; [|unfold perform; now rewrite app_nil_r].
      unfold perform, shift_line, push. rewrite clr_cursors, clr_values, clr_sp, clr_it, clr_end.
      destruct (fullx (length (ps_cursors s1))); [reflexivity|].
      destruct (Nat.ltb (length buf) (ps_end s1)); reflexivity.
    - destruct (e_arg e) as [nst|]; [|unfold perform; now rewrite app_nil_r].
      unfold perform, push. rewrite clr_cursors, clr_values, clr_sp.
      destruct (fullx (length (ps_cursors s1))); [reflexivity|]. now rewrite <- app_assoc.
    - destruct (e_arg e) as [r|]; [|unfold perform; now rewrite app_nil_r].
      rewrite reduce_eq, clr_cursors, clr_values, clr_sp.
      destruct (decide_reduce (ps_cursors s1) (length (ps_values s1)) r) as [[ri nst]|x]; unfold perform; cbn [rr_line app];
        [reflexivity|now rewrite app_nil_r].
    - rewrite clr_sp. destruct (e_arg e) as [r|]; [|reflexivity].
      rewrite reduce_eq, clr_cursors, clr_values, clr_sp.
      destruct (decide_reduce (ps_cursors s1) (length (ps_values s1)) r) as [[ri nst]|x]; reflexivity.
  Qed.

  (* [decide] where the table has no cell, and on an error cell: by the mode *)
  Lemma decide_nocell s1 cursor t c : cell tbl cursor (nterm_count g + t) = inr c -> decide s1 cursor t = MNoCell c.
  Proof. intros H. unfold decide. now rewrite H. Qed.

  Lemma decide_error s1 cursor t e :
    cell tbl cursor (nterm_count g + t) = inl e -> e_kind e = KError ->
    decide s1 cursor t =
      if ps_cons s1 then
        if match ps_term s1 with Some x => Nat.eqb x (eof_idx g) | None => false end then MEof else MConsume
      else if ps_rec s1 then match tl (ps_cursors s1) with [] => MPopFail | top :: _ => MPop top end
      else MEnter.
  Proof. intros H K. unfold decide. now rewrite H, K. Qed.

  Definition red_at (cs : list nat) (r : nat) (ri : rule_info) (top : nat) (below : list nat) : Prop :=
    nth_error (rule_infos g) r = Some ri /\ ri_n ri <= length cs /\ skipn (ri_n ri) cs = top :: below.

  Inductive decided_reduce (cs : list nat) (nv r : nat) : rule_info * nat + failure -> Prop :=
  | DrNoRule : nth_error (rule_infos g) r = None -> decided_reduce cs nv r (inr (VCrash CrRuleInfo))
  | DrUnderC ri : nth_error (rule_infos g) r = Some ri -> length cs < ri_n ri ->
      decided_reduce cs nv r (inr (VCrash CrStackUnderflow))
  | DrEmpty ri : nth_error (rule_infos g) r = Some ri -> ri_n ri <= length cs -> skipn (ri_n ri) cs = [] ->
      decided_reduce cs nv r (inr (VCrash CrEmptyStack))
  | DrCell ri top below c : red_at cs r ri top below -> cell tbl top (ri_l ri) = inr c ->
      decided_reduce cs nv r (inr (VCrash c))
  | DrThrow1 ri top below e : red_at cs r ri top below -> cell tbl top (ri_l ri) = inl e ->
      fullx (length (top :: below)) = true -> decided_reduce cs nv r (inr VThrow)
  | DrUninit ri top below e : red_at cs r ri top below -> cell tbl top (ri_l ri) = inl e ->
      fullx (length (top :: below)) = false -> e_arg e = None -> decided_reduce cs nv r (inr (VCrash CrGotoUninit))
  | DrUnderV ri top below e nst : red_at cs r ri top below -> cell tbl top (ri_l ri) = inl e ->
      fullx (length (top :: below)) = false -> e_arg e = Some nst -> nv < ri_n ri ->
      decided_reduce cs nv r (inr (VCrash CrStackUnderflow))
  | DrThrow2 ri top below e nst : red_at cs r ri top below -> cell tbl top (ri_l ri) = inl e ->
      fullx (length (top :: below)) = false -> e_arg e = Some nst -> ri_n ri <= nv ->
      fullx (nv - ri_n ri) = true -> decided_reduce cs nv r (inr VThrow)
  | DrOk ri top below e nst : red_at cs r ri top below -> cell tbl top (ri_l ri) = inl e ->
      fullx (length (top :: below)) = false -> e_arg e = Some nst -> ri_n ri <= nv ->
      fullx (nv - ri_n ri) = false -> decided_reduce cs nv r (inl (ri, nst)).

  Lemma decided_reduce_holds cs nv r : decided_reduce cs nv r (decide_reduce cs nv r).
  Proof.
    unfold decide_reduce. destruct (nth_error (rule_infos g) r) as [ri|] eqn:Hri; [|now apply DrNoRule].
    destruct (Nat.ltb_spec (length cs) (ri_n ri)) as [Hc|Hc]; [eapply DrUnderC; eassumption|].
    destruct (skipn (ri_n ri) cs) as [|top below] eqn:Hcs; [eapply DrEmpty; eassumption|].
    assert (Hpre : red_at cs r ri top below) by (unfold red_at; auto).
    destruct (cell tbl top (ri_l ri)) as [e|c] eqn:Hcell; [|eapply DrCell; eassumption].
    destruct (fullx (length (top :: below))) eqn:Hf1; [eapply DrThrow1; eassumption|].
    destruct (e_arg e) as [nst|] eqn:Ha; [|eapply DrUninit; eassumption].
    destruct (Nat.ltb_spec nv (ri_n ri)) as [Hv|Hv]; [eapply DrUnderV; eassumption|].
    destruct (fullx (nv - ri_n ri)) eqn:Hf2; [eapply DrThrow2|eapply DrOk]; eassumption.
  Qed.

  Definition reduce_kind (rr : bool) : kind := if rr then KRR else KReduce.

  Inductive decided (s1 : pst) (cursor t : nat) : move -> Prop :=
  | DCell c : cell tbl cursor (nterm_count g + t) = inr c -> decided s1 cursor t (MNoCell c)
  | DConsEof e : cell tbl cursor (nterm_count g + t) = inl e -> e_kind e = KError ->
      ps_cons s1 = true -> ps_term s1 = Some (eof_idx g) -> decided s1 cursor t MEof
  | DConsume e : cell tbl cursor (nterm_count g + t) = inl e -> e_kind e = KError ->
      ps_cons s1 = true -> ps_term s1 <> Some (eof_idx g) -> decided s1 cursor t MConsume
  | DEnter e : cell tbl cursor (nterm_count g + t) = inl e -> e_kind e = KError ->
      ps_cons s1 = false -> ps_rec s1 = false -> decided s1 cursor t MEnter
  | DPop e top below : cell tbl cursor (nterm_count g + t) = inl e -> e_kind e = KError ->
      ps_cons s1 = false -> ps_rec s1 = true -> tl (ps_cursors s1) = top :: below -> decided s1 cursor t (MPop top)
  | DPopFail e : cell tbl cursor (nterm_count g + t) = inl e -> e_kind e = KError ->
      ps_cons s1 = false -> ps_rec s1 = true -> tl (ps_cursors s1) = [] -> decided s1 cursor t MPopFail
  | DShiftNone e : cell tbl cursor (nterm_count g + t) = inl e -> e_kind e = KShift \/ e_kind e = KShiftErr ->
      e_arg e = None -> decided s1 cursor t (MStop (VCrash CrGotoUninit) [])
  | DShiftFull e nst : cell tbl cursor (nterm_count g + t) = inl e -> e_kind e = KShift ->
      e_arg e = Some nst -> fullx (length (ps_cursors s1)) = true ->
      decided s1 cursor t (MStop VThrow [shift_line s1 nst])
  | DShiftOver e nst : cell tbl cursor (nterm_count g + t) = inl e -> e_kind e = KShift ->
      e_arg e = Some nst -> fullx (length (ps_cursors s1)) = false -> length buf < ps_end s1 ->
      decided s1 cursor t (MStop (VCrash CrBufferOverrun) [shift_line s1 nst])
  | DShift e nst : cell tbl cursor (nterm_count g + t) = inl e -> e_kind e = KShift ->
      e_arg e = Some nst -> fullx (length (ps_cursors s1)) = false -> ps_end s1 <= length buf ->
      decided s1 cursor t (MShift t nst)
  | DShiftErrFull e nst : cell tbl cursor (nterm_count g + t) = inl e -> e_kind e = KShiftErr ->
      e_arg e = Some nst -> fullx (length (ps_cursors s1)) = true ->
      decided s1 cursor t (MStop VThrow [EvShiftErr (ps_sp s1) nst])
  | DShiftErr e nst : cell tbl cursor (nterm_count g + t) = inl e -> e_kind e = KShiftErr ->
      e_arg e = Some nst -> fullx (length (ps_cursors s1)) = false -> decided s1 cursor t (MShiftErr nst)
  | DRedNone e rr : cell tbl cursor (nterm_count g + t) = inl e -> e_kind e = reduce_kind rr ->
      e_arg e = None -> decided s1 cursor t (MStop (VCrash CrRRArg) (rr_line rr s1))
  | DRedOk e rr r ri nst : cell tbl cursor (nterm_count g + t) = inl e -> e_kind e = reduce_kind rr ->
      e_arg e = Some r -> decided_reduce (ps_cursors s1) (length (ps_values s1)) r (inl (ri, nst)) ->
      decided s1 cursor t (MReduce rr r ri nst)
  | DRedFail e rr r x : cell tbl cursor (nterm_count g + t) = inl e -> e_kind e = reduce_kind rr ->
      e_arg e = Some r -> decided_reduce (ps_cursors s1) (length (ps_values s1)) r (inr x) ->
      decided s1 cursor t (MStop x (rr_line rr s1))
  | DAccept e : cell tbl cursor (nterm_count g + t) = inl e -> e_kind e = KSuccess -> decided s1 cursor t MAccept.

  Lemma decided_holds s1 cursor t : decided s1 cursor t (decide s1 cursor t).
  Proof.
    unfold decide.
    destruct (cell tbl cursor (nterm_count g + t)) as [e|c] eqn:Hcell; [|now apply DCell].
    assert (Hred : forall rr, e_kind e = reduce_kind rr ->
              decided s1 cursor t
                match e_arg e with
                | None => MStop (VCrash CrRRArg) (rr_line rr s1)
                | Some r => match decide_reduce (ps_cursors s1) (length (ps_values s1)) r with
                            | inl (ri, nst) => MReduce rr r ri nst
                            | inr x => MStop x (rr_line rr s1)
                            end
                end).
    { intros rr Hk. destruct (e_arg e) as [r|] eqn:Ha; [|eapply DRedNone; eassumption].
      pose proof (decided_reduce_holds (ps_cursors s1) (length (ps_values s1)) r) as Hd.
      destruct (decide_reduce (ps_cursors s1) (length (ps_values s1)) r) as [[ri nst]|x];
        [eapply DRedOk|eapply DRedFail]; eassumption. }
    destruct (e_kind e) eqn:Hk; [| | | |exact (Hred false eq_refl)|exact (Hred true eq_refl)]; clear Hred.
    - destruct (ps_cons s1) eqn:Hcons.
      + destruct (ps_term s1) as [x|] eqn:Hterm; [destruct (Nat.eqb_spec x (eof_idx g)) as [->|Hx]|].
        * eapply DConsEof; eassumption.
        * eapply DConsume; try eassumption. congruence.
        * eapply DConsume; try eassumption. congruence.
      + destruct (ps_rec s1) eqn:Hrec; [|eapply DEnter; eassumption].
        destruct (tl (ps_cursors s1)) as [|top below] eqn:Htl; [eapply DPopFail|eapply DPop]; eassumption.
    - eapply DAccept; eassumption.
    - destruct (e_arg e) as [nst|] eqn:Ha; [|eapply DShiftNone; try eassumption; left; assumption].
      destruct (fullx (length (ps_cursors s1))) eqn:Hf; [eapply DShiftFull; eassumption|].
      destruct (Nat.ltb_spec (length buf) (ps_end s1)) as [Hov|Hov]; [eapply DShiftOver|eapply DShift]; eassumption.
    - destruct (e_arg e) as [nst|] eqn:Ha; [|eapply DShiftNone; try eassumption; right; assumption].
      destruct (fullx (length (ps_cursors s1))) eqn:Hf; [eapply DShiftErrFull|eapply DShiftErr]; eassumption.
  Qed.

  Lemma decided_reduce_ok cs nv r ri nst : decided_reduce cs nv r (inl (ri, nst)) ->
    nth_error (rule_infos g) r = Some ri /\ ri_n ri <= length cs /\ ri_n ri <= nv.
  Proof. intros H. inversion H as [| | | | | | | |? ? ? ? ? (? & ? & _)]. auto. Qed.

  Lemma red_at_length cs r ri top below : red_at cs r ri top below -> S (length below) = length cs - ri_n ri.
  Proof. intros (_ & _ & H). apply (f_equal (@length nat)) in H. now rewrite skipn_length in H. Qed.

  (* without a capacity no push throws *)
  Lemma decided_unbounded s1 cursor t ev : cap = None -> ~ decided s1 cursor t (MStop VThrow ev).
  Proof.
    intros Hcap H. inversion H as [| | | | | | |? ? _ _ _ Hf| | |? ? _ _ _ Hf| | | |? ? ? ? _ _ _ Hr|];
      try (rewrite Hcap in Hf; discriminate Hf).
    inversion Hr as [| | | |? ? ? ? _ _ Hf| | |? ? ? ? ? _ _ _ _ _ Hf|]; rewrite Hcap in Hf; discriminate Hf.
  Qed.

  (* a reduce that goes through replaces the handle by the goto target and the rule's value, and nothing else *)
  Lemma do_reduce_inl s r s3 ev :
    reducex s r = inl (s3, ev) ->
    exists ri nst c' v,
      nth_error (rule_infos g) r = Some ri /\
      ri_n ri <= length (ps_values s) /\ ri_n ri <= length (ps_cursors s) /\
      rule_f (ri_r ri) (ps_ctx s) (rev (firstn (ri_n ri) (ps_values s))) = (c', v) /\
      s3 = set_ctx (set_stacks s (nst :: skipn (ri_n ri) (ps_cursors s)) (v :: skipn (ri_n ri) (ps_values s))) c' /\
      ev = [EvReduce (ps_sp s) (ri_r ri) r; EvGoto (ps_sp s) (Some nst)].
  Proof.
    rewrite reduce_eq. pose proof (decided_reduce_holds (ps_cursors s) (length (ps_values s)) r) as D.
    destruct (decide_reduce (ps_cursors s) (length (ps_values s)) r) as [[ri nst]|x]; [|discriminate].
    intros E. injection E as <- <-. inversion D as [| | | | | | | |? ? ? ? ? (Hri & Hn & _) _ _ _ Hnv _].
    exists ri, nst, (fst (rule_f (ri_r ri) (ps_ctx s) (rev (firstn (ri_n ri) (ps_values s))))),
           (snd (rule_f (ri_r ri) (ps_ctx s) (rev (firstn (ri_n ri) (ps_values s))))).
    repeat split; auto using surjective_pairing.
  Qed.

  Lemma step_eq s cursor cs s1 t ev1 :
    ps_cursors s = cursor :: cs -> gctx s = (s1, Some t, ev1) ->
    stepx s = (fst (perform (decide s1 cursor t) s1), ev1 ++ snd (perform (decide s1 cursor t) s1)).
  Proof. intros Hc Hg. rewrite <- act_eq. exact (step_gct Hc Hg). Qed.

  Lemma step_moves (P : outcome * list event -> Prop) s :
    (ps_cursors s = [] -> P (inr (Crash CrEmptyStack, s), [])) ->
    (forall s1 ev1, ps_cursors s <> [] -> gctx s = (s1, None, ev1) -> gspec s (s1, None, ev1) -> P (inr (Reject, s1), ev1)) ->
    (forall cursor cs s1 t ev1 m,
        ps_cursors s = cursor :: cs -> gctx s = (s1, Some t, ev1) -> gspec s (s1, Some t, ev1) ->
        decided s1 cursor t m -> P (fst (perform m s1), ev1 ++ snd (perform m s1))) ->
    P (stepx s).
  Proof.
    intros H1 H2 H3. pose proof (gct_spec_holds V C g opts buf lexer s) as Hg.
    destruct (ps_cursors s) as [|cursor cs] eqn:Hcs; [rewrite (step_empty Hcs); auto|].
    destruct (gctx s) as [[s1 [t|]] ev1] eqn:Eg.
    - rewrite (step_eq s cursor cs s1 t ev1 Hcs Eg). exact (H3 cursor cs s1 t ev1 _ eq_refl eq_refl Hg (decided_holds s1 cursor t)).
    - rewrite (step_lexfail Hcs Eg). apply H2; [discriminate|reflexivity|exact Hg].
  Qed.

  (* what a move does to the cursor fields: nothing, or what consume_term does (and then in consume mode or by a shift) *)
  Lemma move_cur s1 cursor t m : decided s1 cursor t m ->
    match fst (perform m s1) with
    | inl s' => same_cur s1 s' \/
                same_cur (consumex s1) s' /\
                (ps_cons s1 = true /\ ps_term s1 <> Some (eof_idx g) \/
                 exists e, cell tbl cursor (nterm_count g + t) = inl e /\ e_kind e = KShift)
    | inr (_, s') => same_cur s1 s'
    end.
  Proof. unfold same_cur. intros H; destruct H; cbn [perform fst]; unfold push, pop1, reduced; simp_ps; eauto 9. Qed.

  (* what a move does to the two stacks: both grow and shrink together *)
  Lemma perform_heights m (s1 : pst) :
    match fst (perform m s1) with
    | inl s' => (length (ps_cursors s'), length (ps_values s')) =
                match m with
                | MShift _ _ | MShiftErr _ => (S (length (ps_cursors s1)), S (length (ps_values s1)))
                | MPop _ => (pred (length (ps_cursors s1)), pred (length (ps_values s1)))
                | MReduce _ _ ri _ => (S (length (ps_cursors s1) - ri_n ri), S (length (ps_values s1) - ri_n ri))
                | _ => (length (ps_cursors s1), length (ps_values s1))   (* MConsume, MEnter: the others end the run *)
                end
    | inr (_, s') => length (ps_cursors s') <= length (ps_cursors s1) /\ length (ps_values s') <= length (ps_values s1)
    end.
  Proof.
    destruct m; cbn [perform fst]; unfold push, pop1, reduced; simp_ps; cbn [length fst snd]; auto;
      rewrite ?skipn_length; try reflexivity.
    - destruct (ps_cursors s1), (ps_values s1); cbn [tl length]; lia.
    - destruct (ps_cursors s1), (ps_values s1); reflexivity.
  Qed.

  (* what a move does to the two modes *)
  Lemma perform_modes m (s1 : pst) :
    let md (s : pst) := (ps_rec s, ps_cons s) in
    match fst (perform m s1) with
    | inl s' => md s' = match m with
                        | MEnter => (true, false)
                        | MShiftErr _ => (false, true)
                        | MConsume | MPop _ => md s1
                        | _ => (ps_rec s1, false)                    (* MShift, MReduce *)
                        end
    | inr (_, s') => md s' = md s1 \/ md s' = (ps_rec s1, false)
    end.
  Proof. destruct m; cbn [perform fst]; unfold push, pop1, reduced; simp_ps; auto. Qed.

  (* [OutOfFuel] comes from [run_from] only, and [Accept] hands out the bottom of the value stack *)
  Definition final_res_ok (s1 : pst) (r : result V) : Prop :=
    match r with
    | Accept v => exists rest, rev (ps_values s1) = v :: rest
    | OutOfFuel => False
    | _ => True
    end.

  Lemma perform_final m (s1 : pst) r s' : fst (perform m s1) = inr (r, s') -> final_res_ok s' r.
  Proof.
    destruct m; cbn [perform fst]; intros E; inversion E; subst; try exact I; try (now destruct x).
    unfold final_res_ok. rewrite clr_values. destruct (rev (ps_values s1)); eauto.
  Qed.

  Lemma step_final s r s' : fst (stepx s) = inr (r, s') -> final_res_ok s' r.
  Proof.
    apply step_moves; cbn [fst].
    - intros _ E. inversion E. exact I.
    - intros s1 ev1 _ _ _ E. inversion E. exact I.
    - intros cursor cs s1 t ev1 m _ _ _ _. apply perform_final.
  Qed.

  Lemma step_not_oof s s' ev : stepx s <> (inr (OutOfFuel, s'), ev).
  Proof. intros E. apply (step_final s OutOfFuel s'). now rewrite E. Qed.

  Lemma run_gh_split f1 f2 : forall s out vis s1 out1 vis1,
    run_gh V C g tbl opts buf cap lexer term_f err_f rule_f f1 s out vis = (OutOfFuel, s1, out1, vis1) ->
    run_gh V C g tbl opts buf cap lexer term_f err_f rule_f (f1 + f2) s out vis =
    run_gh V C g tbl opts buf cap lexer term_f err_f rule_f f2 s1 out1 vis1.
  Proof.
    induction f1 as [|f IH]; intros s out vis s1 out1 vis1 H; cbn [run_gh Nat.add] in *.
    - inversion H; subst. reflexivity.
    - destruct (stepx s) as [[sa|[ra sa]] ev] eqn:Hs.
      + apply IH. assumption.
      + inversion H; subst. exfalso. exact (step_not_oof _ _ _ Hs).
  Qed.

  Lemma step_term_inv s : term_inv V C s -> match fst (stepx s) with inl s' => term_inv V C s' | inr (r, s') => True end.
  Proof.
    intros Hi. apply step_moves; cbn [fst]; auto.
    intros cursor cs s1 t ev1 m _ _ Hg Hd.
    assert (Hi1 : term_inv V C s1) by (inversion Hg; subst; auto; right; cbn; discriminate).
    pose proof (move_cur s1 cursor t m Hd) as Hc. destruct (fst (perform m s1)) as [s'|[r s']]; [|exact I].
    unfold term_inv. destruct Hc as [(_ & -> & -> & ->)|[(_ & -> & -> & _) _]]; [exact Hi1|left; reflexivity].
  Qed.
End Iter.

Arguments final_res_ok {V C}.
Arguments perform {V C} buf term_f err_f rule_f m s1.
Arguments push {V C}. Arguments pop1 {V C}. Arguments reduced {V C}.
Arguments shift_line {V C}. Arguments rr_line {V C}.
Arguments decided_reduce_ok {g tbl cap cs nv r ri nst}.
Arguments do_reduce_inl {V C g tbl cap rule_f s r s3 ev}.
Arguments decide_nocell {V C g tbl buf cap} s1 {cursor t c}.
Arguments decide_error {V C g tbl buf cap} s1 {cursor t e}.
Arguments step_final {V C g tbl opts buf cap lexer term_f err_f rule_f s r s'}.
Arguments step_not_oof {V C g tbl opts buf cap lexer term_f err_f rule_f s s' ev}.
Arguments run_gh_split {V C g tbl opts buf cap lexer term_f err_f rule_f}.
Arguments move_cur {V C g tbl buf cap} term_f err_f rule_f {s1 cursor t m}.

(* reduce projections of states built by [perform] *)
Ltac simp_mv := unfold push, pop1, reduced; simp_ps.

(* Case analysis of a [decided_reduce] / [decided] hypothesis whose move is a variable, with fixed names: [e] is the
   cell read and [Hcell], [Hkind], [Harg] what it holds ([Hgoto], [Hgarg] for the goto cell of a reduce), [Hfull]
   ([Hfull1], [Hfull2]) the capacity tests, [Hend] where the pending lexeme ends, [Hred] the reduce; [crc] is the crash
   of a missing cell, [rl] the cell's rule_info index, [Hpt] what [ps_term] is in consume mode; of a reduce, [Hri] is
   the rule_info found, [Hnc] and [Hnv] compare its length with the two stacks, [Hsk] is the cursor stack below the handle. *)
Ltac case_dred H :=
  destruct H as [Hri|ri Hri Hnc|ri Hri Hnc Hsk|ri top below crc (Hri & Hnc & Hsk) Hgoto
                 |ri top below e' (Hri & Hnc & Hsk) Hgoto Hfull1
                 |ri top below e' (Hri & Hnc & Hsk) Hgoto Hfull1 Hgarg
                 |ri top below e' nst' (Hri & Hnc & Hsk) Hgoto Hfull1 Hgarg Hnv
                 |ri top below e' nst' (Hri & Hnc & Hsk) Hgoto Hfull1 Hgarg Hnv Hfull2
                 |ri top below e' nst' (Hri & Hnc & Hsk) Hgoto Hfull1 Hgarg Hnv Hfull2].
Ltac case_move H :=
  destruct H as [crc Hcell|e Hcell Hkind Hcons Hpt|e Hcell Hkind Hcons Hpt|e Hcell Hkind Hcons Hrec
                 |e top below Hcell Hkind Hcons Hrec Htl|e Hcell Hkind Hcons Hrec Htl
                 |e Hcell Hkind Harg|e nst Hcell Hkind Harg Hfull|e nst Hcell Hkind Harg Hfull Hend
                 |e nst Hcell Hkind Harg Hfull Hend|e nst Hcell Hkind Harg Hfull|e nst Hcell Hkind Harg Hfull
                 |e rr Hcell Hkind Harg|e rr rl ri nst Hcell Hkind Harg Hred|e rr rl x Hcell Hkind Harg Hred
                 |e Hcell Hkind].
