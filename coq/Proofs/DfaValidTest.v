(* Runs of the lexer-automaton validator inside Coq (vm_compute), and an instance of the soundness theorem
   for a concrete automaton. No definitions used elsewhere. *)
Require Import Ctpg.Base.Prelude Ctpg.Model.Driver Ctpg.Model.Dfa Ctpg.Spec.Lang Ctpg.Valid.DfaValid
               Ctpg.Proofs.DfaValidSound.

Definition ch (c : nat) : regex := RSet (cs_single c).

(* a(b|c)*d : the builder gets this one right *)
Definition pat1 : regex := RCat (ch 97) (RCat (RStar (RAlt (ch 98) (ch 99))) (ch 100)).
(* a*a : the in-place merging builder gets this one wrong (rejects "a"), the validator must refuse it *)
Definition pat2 : regex := RCat (RStar (ch 97)) (ch 97).
(* "if" | [a-z]+ *)
Definition terms3 : list term_data := [TString [105;102]; TRegex (RPlus (RSet (cs_add_range cs_empty 97 122)))].

Definition expr_verdict (r : regex) : option (nat * bool) :=
  match build_expr r with Some sm => Some (length sm, expr_ok sm r) | None => None end.
Definition lexer_verdict (ts : list term_data) : option (nat * bool) :=
  match create_lexer ts with Some sm => Some (length sm, lexer_ok sm ts) | None => None end.

Time Eval vm_compute in expr_verdict pat1.        (* Some (8, true) *)
Time Eval vm_compute in expr_verdict pat2.        (* Some (4, false) *)
Time Eval vm_compute in lexer_verdict terms3.     (* Some (6, true) *)

(* a hand-written correct automaton for a*a is accepted *)
Definition mk_state (rec : list nat) (tr : list (nat * nat)) : dstate :=
  mkD false false false rec (fold_left (fun acc p => update acc (fst p) (Some (snd p))) tr (repeat None 256)) [].
Time Eval vm_compute in expr_ok [mk_state [] [(97, 1)]; mk_state [0] [(97, 1)]] pat2.   (* true *)

(* a larger lexer: two keywords, identifiers, numbers, string literals, '#' followed by 40 hex digits *)
Definition rng (a b : nat) : regex := RSet (cs_add_range cs_empty a b).
Definition terms6 : list term_data :=
  [TString [119;104;105;108;101]; TString [114;101;116;117;114;110];
   TRegex (RCat (RAlt (rng 97 122) (ch 95)) (RStar (RSet (cs_add_range (cs_add_range (cs_single 95) 97 122) 48 57))));
   TRegex (RCat (RPlus (rng 48 57)) (ROpt (RCat (ch 46) (RPlus (rng 48 57)))));
   TRegex (RCat (ch 34) (RCat (RStar (RSet (cs_flip (cs_single 34)))) (ch 34)));
   TRegex (RCat (ch 35) (RRep (RSet (cs_add_range (cs_add_range cs_empty 97 102) 48 57)) 40))].
Time Eval vm_compute in lexer_verdict terms6.     (* Some (122, true) *)

(* 480 states *)
Definition pat_big : regex := RRep (RAlt (RCat (rng 97 122) (rng 48 57)) (RCat (rng 48 57) (rng 97 122))) 60.
Time Eval vm_compute in expr_verdict pat_big.     (* Some (480, true) *)

(* the theorem instantiated on the automaton the builder produces for terms3 *)
Definition sm3 : dfa := match create_lexer terms3 with Some sm => sm | None => [] end.
(* the reachable pairs of a state and the residual patterns ("if", [a-z]+) there: state 1 after 'i', 3 after "if",
   5 after any other letters; given here so that only the closure check is evaluated, not the search for them *)
Definition tab3 : table :=
  [[[Cat (Chr 0) (Chr 1); Cat (Chr 2) (Star (Chr 2))]]; [[Chr 1; Star (Chr 2)]]; []; [[Eps; Star (Chr 2)]]; [];
   [[Emp; Star (Chr 2)]]].
Lemma sm3_ok : check_closed (dict_of terms3) sm3 tab3 (v0_of (dict_of terms3) terms3) = true.
Proof. vm_compute. reflexivity. Qed.

Corollary sm3_longest_match : forall s, bytes_ok s ->
  is_longest_match terms3 s (snd (dfa_match sm3 false sp0 s)).
Proof. intros s Hs. rewrite dfa_match_run, (run_start terms3 sm3 tab3 sm3_ok s Hs). apply spec_longest_correct_any. Qed.

Print Assumptions sm3_longest_match.
