(* C09, lexer laziness (generic driver): when the syntax error is written the driver has consumed a
   prefix [pre] of the token stream of [tokenize] and the offending term is the NEXT token of that stream (or <eof>
   at its end); the lexeme window [ps_it, ps_end) of the driver is exactly that token: nothing behind the offending
   token has been looked at. *)
Require Import Ctpg.Base.Prelude Ctpg.Model.Grammar Ctpg.Model.LRGen Ctpg.Model.Driver Ctpg.Spec.Eval
               Ctpg.Proofs.DriverBasics Ctpg.Proofs.DriverTokens Ctpg.Proofs.ReportOne.

Section Lazy.
  Variables V C : Type.
  Variable g : grammar.
  Variable tbl : table.
  Variable opts : options.
  Variable buf : list nat.
  Variable cap : option nat.
  Variable lexer : lexer_t.
  Variable term_f : nat -> nat -> nat -> spoint -> V.
  Variable err_f : spoint -> V.
  Variable rule_f : nat -> C -> list V -> C * V.

  Hypothesis lexer_ok : lexer_in_range lexer.
  Hypothesis sp_ok : eof_err_not_shifted g tbl \/ sp_indep lexer.

  Notation run_ghx := (run_gh V C g tbl opts buf cap lexer term_f err_f rule_f).

  (* the state of the driver when the syntax error (p, t) is written by the iteration of loop-head state se:
     s1 is the state after get_current_term; the two disjuncts are [TaPending] and [TaEof] of DriverTokens.[tok_at] *)
  Theorem syntax_error_lexer_lazy fuel c :
    let '(r, s', out, vis) := run_ghx fuel (init c) [] [] in
    forall se p t, In se vis -> enter_step V C g tbl opts buf cap lexer term_f err_f rule_f se p t ->
      exists s1 ev1 pre pos,
        get_current_term V C g opts buf lexer se = (s1, Some t, ev1) /\
        consumed_upto opts buf lexer pre pos /\
        ((exists start len, next_tok opts buf lexer pos (t, start, len) /\
                            ps_it s1 = start /\ ps_end s1 = start + len) \/
         (t = eof_idx g /\ skipn (pos + wsk opts buf pos) buf = [] /\ ps_it s1 = pos + wsk opts buf pos /\ ps_end s1 = pos)).
  Proof.
    pose proof (run_tok_gh V C g tbl opts buf cap lexer term_f err_f rule_f lexer_ok sp_ok fuel c) as H.
    destruct (run_ghx fuel (init c) [] []) as [[[r s'] out] vis]. destruct H as [H _].
    intros se p t Hin (Hrec & s1 & cursor & ev1 & Hent & _ & _).
    rewrite Forall_forall in H. destruct (H se Hin) as [(pre & pos & Hc & Hat) Hsp].
    destruct Hent as (_ & Hg & _ & _ & _ & Hr1 & Ht1).
    pose proof (gct_spec_holds V C g opts buf lexer se) as Hgs. rewrite Hg in Hgs.
    pose proof (gct_tok V C g tbl opts buf lexer lexer_ok sp_ok pos se s1 t ev1 Hsp Hat Hgs) as Hat1.
    exists s1, ev1, pre, pos. split; [exact Hg|]. split; [assumption|].
    destruct Hat1 as [H1 H2|t' len H1 H2 H3|H1 H2 H3 H4].
    - (* on the boundary with a term known: only <eof> found without skipping anything *)
      right. inversion Hgs as [Hr|Hr Hne|sp1 it1 Hr He Hit1 Hsp1 Hsk|sp1 it1 c0 rest lx Hr He Hit1 Hsp1 Hsk Hlx|sp1 it1 c0 rest lx t' len Hr He Hit1 Hsp1 Hsk Hlx]; subst.
      + congruence.
      + exfalso. apply Hne. congruence.
      + cbn [ps_it ps_end set_pos] in *.
        assert (Hw : wsk opts buf (ps_it se) = 0) by lia.
        rewrite !Hw, !Nat.add_0_r in *. rewrite !Hw, !Nat.add_0_r. auto.
      + cbn [ps_it ps_end set_pos] in *. destruct (lexer_ok _ _ _ _ _ (f_equal snd Hlx)) as [Hl _]. lia.
    - left. rewrite Ht1 in H3. inversion H3; subst t'. exists (ps_it s1), len. auto.
    - right. rewrite Ht1 in H4. inversion H4. auto.
  Qed.
End Lazy.

Print Assumptions syntax_error_lexer_lazy.
