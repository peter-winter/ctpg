(* An instance of plain_lexer_correct (in the form plain_lexer_correct', for the automaton at hand), and the boundary
   of the theorem: with a regex term the builder is wrong. *)
Require Import Ctpg.Base.Prelude Ctpg.Model.Driver Ctpg.Model.Dfa Ctpg.Spec.Lang Ctpg.Valid.SpecMatch
               Ctpg.Proofs.BuilderTerm Ctpg.Proofs.TrieLexerChain Ctpg.Proofs.TrieLexer.

(* "ab" 'a' "abc" "b" "ab" "" 'a' : duplicates, a character equal to a one-byte string, the empty string *)
Definition kw : list term_data :=
  [TString [97;98]; TChar 97; TString [97;98;99]; TString [98]; TString [97;98]; TString []; TChar 97].

Lemma kw_plain : Forall is_plain kw.
Proof. unfold kw. repeat (apply Forall_cons; [exact I|]). apply Forall_nil. Qed.

Definition kw_sm : dfa := match create_lexer kw with Some sm => sm | None => [] end.

Corollary kw_longest_match : forall s, bytes_ok s -> is_longest_match kw s (snd (dfa_match kw_sm false sp0 s)).
Proof.
  intros s Hs. apply (plain_lexer_correct' kw kw_sm s kw_plain); [|exact Hs].
  unfold kw_sm. destruct (plain_lexer_total kw kw_plain) as [sm E]. rewrite E. reflexivity.
Qed.

(* "abx" -> term 0 ("ab", the first of the two equal strings), length 2; "\0" -> the empty string term *)
Eval vm_compute in snd (dfa_match kw_sm false sp0 [97;98;120]).    (* Some (0, 2) *)
Eval vm_compute in snd (dfa_match kw_sm false sp0 [97;120]).       (* Some (1, 1) *)
Eval vm_compute in snd (dfa_match kw_sm false sp0 [0]).            (* Some (5, 1) *)
Eval vm_compute in snd (dfa_match kw_sm false sp0 [120]).          (* None *)

(* more than four equal strings: the four slots overflow, the first listed term still wins *)
Definition dup6 : list term_data := repeat (TString [97;98]) 6 ++ [TChar 97; TString [97]].
Eval vm_compute in match create_lexer dup6 with Some sm => Some (d_rec (get sm 3), d_rec (get sm 1)) | None => None end.
   (* Some ([0;1;2;3], [6;7]) *)

(* the restriction to plain terms is needed: one regex term a*a and the in-place builder loses the word "a"
   (known finding D4); the specification says Some (0, 1) *)
Definition bad : list term_data := [TRegex (RCat (RStar (RSet (cs_single 97))) (RSet (cs_single 97)))].
Lemma regex_lexer_refuted :
  exists sm, create_lexer bad = Some sm /\
             snd (dfa_match sm false sp0 [97]) = None /\ spec_longest bad [97] = Some (0, 1).
Proof.
  exists (match create_lexer bad with Some sm => sm | None => [] end). split.
  - destruct (create_lexer bad) eqn:E; [reflexivity | exfalso; exact (create_lexer_total _ E)].
  - split; vm_compute; reflexivity.
Qed.

Print Assumptions kw_longest_match.
