(* C08 -- non-vacuity: the README's error-recovery grammar, its generated table, and runs that exercise every
   branch of the specification (Spec/Recovery.v) and every hypothesis of the theorems (Proofs/RecoveryRefines.v).
   Everything by computation (vm_compute).

     exprs -> (empty) | exprs expr ';' | exprs error ';'
     expr  -> expr '+' expr | '(' expr ')' | '(' error ')' | num          ('+' : precedence 1, left)

   terms: num = 0, '+' = 1, ';' = 2, '(' = 3, ')' = 4, <eof> = 5, <error_recovery_token> = 6;
   nonterminals: exprs = 0, expr = 1, ## = 2; columns: 0-2 nonterminals, 3.. terms; error column = 9. *)
Require Import Ctpg.Base.Prelude Ctpg.Model.Grammar Ctpg.Model.LRGen Ctpg.Model.Driver Ctpg.Spec.Cfg Ctpg.Spec.LRSpec
               Ctpg.Spec.Recovery Ctpg.Proofs.DriverBasics Ctpg.Proofs.RecoveryRefines.

Definition id_num := [110]. Definition id_plus := [43]. Definition id_semi := [59].
Definition id_lp := [40]. Definition id_rp := [41].
Definition id_exprs := [101;115]. Definition id_expr := [101].

Definition readme_raw : raw_grammar :=
  mkRG id_exprs
    [mkRT id_num 0%Z NoAssoc; mkRT id_plus 1%Z Ltor; mkRT id_semi 0%Z NoAssoc; mkRT id_lp 0%Z NoAssoc; mkRT id_rp 0%Z NoAssoc]
    [id_exprs; id_expr]
    [mkRR id_exprs [] None;                                                   (* rule 0 *)
     mkRR id_exprs [RNterm id_exprs; RNterm id_expr; RTerm id_semi] None;     (* rule 1 *)
     mkRR id_exprs [RNterm id_exprs; RTerm id_error; RTerm id_semi] None;     (* rule 2 *)
     mkRR id_expr [RNterm id_expr; RTerm id_plus; RNterm id_expr] None;       (* rule 3 *)
     mkRR id_expr [RTerm id_lp; RNterm id_expr; RTerm id_rp] None;            (* rule 4 *)
     mkRR id_expr [RTerm id_lp; RTerm id_error; RTerm id_rp] None;            (* rule 5 *)
     mkRR id_expr [RTerm id_num] None].                                       (* rule 6 *)

Definition dummy_g : grammar := mkG 0 0 0 0 [] [] [] [] [] [] [] [].
Definition rg : grammar := match analyze readme_raw with Some g => g | None => dummy_g end.
(* the generator's table has [state_cap] rows, filled with the default entry beyond the states: cut to the states *)
Definition rtbl : table := match gen rg with inl (sts, tbl) => firstn (length sts) tbl | inr _ => [] end.

Example readme_grammar_analyzed : analyze readme_raw = Some rg /\ err_idx rg = 6 /\ eof_idx rg = 5 /\ nterm_count rg = 3.
Proof. vm_compute. repeat split. Qed.

(* The generator is run once, here; [rtbl_val] is the table it produces, and every example below computes on
   the literal grammar and table. *)
Definition rg_val : grammar := Eval vm_compute in rg.
Definition rtbl_val : table := Eval vm_compute in rtbl.

Lemma rg_eq : rg = rg_val.
Proof. vm_compute. reflexivity. Qed.

Lemma gen_rg : match gen rg with inl (sts, tbl) => length sts = 22 /\ firstn (length sts) tbl = rtbl_val | inr _ => False end.
Proof. vm_compute. split; reflexivity. Qed.

Lemma rtbl_eq : rtbl = rtbl_val.
Proof. pose proof gen_rg as H. unfold rtbl. destruct (gen rg) as [[sts tbl]|]; [apply H|destruct H]. Qed.

Example readme_table_generated :
  match gen rg with inl (sts, tbl) => length sts = 22 /\ length rtbl = 22 | inr _ => False end.
Proof.
  rewrite rtbl_eq. pose proof gen_rg as H. destruct (gen rg) as [[sts tbl]|]; [|exact H].
  split; [apply H|reflexivity].
Qed.

(* which states accept the error symbol: 0, 7, 12 (reduce on the error lookahead), 1, 4, 10 (shift it) *)
Example readme_accepting_states :
  filter (accepts_err rg rtbl) (seq 0 22) = [0; 1; 4; 7; 10; 12] /\
  map (fun st => option_map (fun e => (e_kind e, e_arg e)) (nth_error (nth st rtbl []) 9)) [0; 1; 4; 7; 10; 12]
  = [Some (KReduce, Some 0); Some (KShiftErr, Some 5); Some (KShiftErr, Some 11);
     Some (KReduce, Some 1); Some (KShiftErr, Some 17); Some (KReduce, Some 2)] /\
  (* the generator never writes a plain shift into the error-symbol (or <eof>) column *)
  eof_err_not_shiftedb rg rtbl = true.
Proof. rewrite rg_eq, rtbl_eq. vm_compute. repeat split. Qed.

(* the tree instance (Spec/LRSpec.v), with the trace *)
Notation T := tree.
Definition t_term (t _ _ : nat) (_ : spoint) : T := Leaf t.
Definition t_err (_ : spoint) : T := Leaf (err_idx rg).
Definition t_rule (r : nat) (c : unit) (args : list T) : unit * T := (c, Node r args).
Definition vopts := mkOpt true false false.

Definition vrun (w : list nat) (fuel : nat) := run T unit rg rtbl vopts w None id_lexer t_term t_err t_rule fuel tt.
Definition vsteps (w : list nat) (n : nat) := steps T unit rg rtbl vopts w None id_lexer t_term t_err t_rule n (init tt).
Definition vspec (w : list nat) (fuel : nat) := spec_run T unit rg rtbl vopts w None id_lexer t_term t_err t_rule fuel (init tt).

(* the lines that concern recovery, and the Reduce lines (a reduction on the error lookahead is part of it) *)
Definition rec_line (e : event) : bool :=
  match e with
  | EvSyntaxError _ _ | EvEnterRecovery _ | EvLeaveRecovery _ | EvEnterConsume _ | EvLeaveConsume _
  | EvRecoveringTo _ _ | EvCouldNotRecover _ | EvConsuming _ _ | EvShiftErr _ _ => true
  | EvReduce _ _ _ => true
  | _ => false
  end.
Inductive line := SyntaxError (t : nat) | EnterRec | LeaveRec | EnterCons | LeaveCons | RecoveringTo (st : nat)
                | CouldNotRecover | Consuming (t : nat) | ShiftErr (st : nat) | Reduce (r : nat) | Other.
Definition to_line (e : event) : line :=
  match e with
  | EvSyntaxError _ t => SyntaxError t | EvEnterRecovery _ => EnterRec | EvLeaveRecovery _ => LeaveRec
  | EvEnterConsume _ => EnterCons | EvLeaveConsume _ => LeaveCons | EvRecoveringTo _ st => RecoveringTo st
  | EvCouldNotRecover _ => CouldNotRecover | EvConsuming _ t => Consuming t | EvShiftErr _ st => ShiftErr st
  | EvReduce _ r _ => Reduce r
  | _ => Other
  end.
(* the lines from the first SyntaxError on, Reduce lines kept *)
Fixpoint from_error (evs : list event) : list event :=
  match evs with
  | [] => []
  | EvSyntaxError p t :: r => EvSyntaxError p t :: r
  | _ :: r => from_error r
  end.
Definition recovery_lines (evs : list event) : list line := map to_line (filter rec_line (from_error evs)).

Definition summary (w : list nat) (fuel : nat) :=
  let '(r, s, out) := vrun w fuel in (r, ps_cursors s, recovery_lines out).

(* the statements below mention [rg] and [rtbl] through these definitions *)
Ltac on_literals := unfold summary, vrun, vsteps, vspec, t_err; rewrite ?rg_eq, ?rtbl_eq.

(* the tree instance is the one of Spec/LRSpec.v *)
Example same_instance w fuel : tree_run rg rtbl w fuel = fst (fst (run T unit rg rtbl tree_opts w None id_lexer t_term t_err t_rule fuel tt)).
Proof. reflexivity. Qed.

(* (1)  num ; ; num ;   -- the error is detected in a state that itself accepts the error symbol *)
Definition w1 := [0; 2; 2; 0; 2].

(* after 4 iterations the stack is  7 2 1 0  ( exprs expr ';' ), the pending term is ';' and its cell is an error cell;
   state 7 accepts the error symbol (reduce exprs -> exprs expr ';' on the error lookahead): k = 0 *)
Example ex1_error_state :
  match vsteps w1 4 with
  | (inl s, _) =>
      ps_cursors s = [7; 2; 1; 0] /\ ps_rec s = false /\ ps_cons s = false /\
      fst (get_current_term T unit rg vopts w1 id_lexer s) = (set_pos s (mkSp 1 3) 2 3 (Some 2), Some 2) /\
      cell_kind rtbl 7 (term_col rg 2) = Some KError /\
      accepts_err rg rtbl 7 = true /\ drop_count rg rtbl (ps_cursors s) = Some 0 /\ pop_defined rg rtbl (ps_cursors s) = true
  | _ => False
  end.
Proof. on_literals. vm_compute. repeat split. Qed.

(* nothing is popped; the reduction on the error lookahead makes the value of the first "num ;" part of exprs;
   state 1 then shifts the error symbol; ';' is actionable at once (nothing discarded); the first statement
   (Node 1 [Node 0 []; Node 6 [Leaf 0]; Leaf 2]) is KEPT in the result *)
Example ex1_result :
  summary w1 100 =
  (Accept (Node 1 [Node 2 [Node 1 [Node 0 []; Node 6 [Leaf 0]; Leaf 2]; Leaf 6; Leaf 2]; Node 6 [Leaf 0]; Leaf 2]),
   [1; 0],
   [SyntaxError 2; EnterRec; Reduce 1; ShiftErr 5; LeaveRec; EnterCons; LeaveCons;
    Reduce 2; Reduce 6; Reduce 1]).
Proof. on_literals. vm_compute. reflexivity. Qed.

(* (2)  ( + ) + num ;   -- the inner rule  expr -> '(' error ')' *)
Definition w2 := [3; 1; 4; 1; 0; 2].
Example ex2_result :
  summary w2 100 =
  (Accept (Node 1 [Node 0 []; Node 3 [Node 5 [Leaf 3; Leaf 6; Leaf 4]; Leaf 1; Node 6 [Leaf 0]]; Leaf 2]),
   [1; 0],
   [SyntaxError 1; EnterRec; ShiftErr 11; LeaveRec; EnterCons; Consuming 1; LeaveCons;
    Reduce 5; Reduce 6; Reduce 3; Reduce 1]).
Proof. on_literals. vm_compute. reflexivity. Qed.

(* (3)  + ; num ;   -- state 0 reduces exprs -> (empty) on the error lookahead, then state 1 shifts it *)
Definition w3 := [1; 2; 0; 2].
Example ex3_result :
  summary w3 100 =
  (Accept (Node 1 [Node 2 [Node 0 []; Leaf 6; Leaf 2]; Node 6 [Leaf 0]; Leaf 2]),
   [1; 0],
   [SyntaxError 1; EnterRec; Reduce 0; ShiftErr 5; LeaveRec; EnterCons; Consuming 1; LeaveCons;
    Reduce 2; Reduce 6; Reduce 1]).
Proof. on_literals. vm_compute. reflexivity. Qed.

(* (4)  num ; +   -- the input ends while discarding: Reject *)
Definition w4 := [0; 2; 1].
Example ex4_result :
  summary w4 100 =
  (Reject, [5; 1; 0],
   [SyntaxError 1; EnterRec; Reduce 1; ShiftErr 5; LeaveRec; EnterCons; Consuming 1]).
Proof. on_literals. vm_compute. reflexivity. Qed.

(* the last visited configuration satisfies [eof_while_discarding] (reason (B) of C08_fails_iff) *)
Example ex4_reason :
  match vsteps w4 8 with
  | (inl s, _) =>
      ps_cons s = true /\ ps_rec s = false /\ ps_cursors s = [5; 1; 0] /\
      snd (fst (get_current_term T unit rg vopts w4 id_lexer s)) = Some (eof_idx rg) /\
      cell_kind rtbl (top_state s) (term_col rg (eof_idx rg)) = Some KError
  | _ => False
  end.
Proof. on_literals. vm_compute. repeat split. Qed.

(* (5)  num + ; num ;   -- k = 2: two states are discarded, the values below are kept *)
Definition w5 := [0; 1; 2; 0; 2].
Example ex5_error_state :
  match vsteps w5 4 with
  | (inl s, _) =>
      ps_cursors s = [6; 2; 1; 0] /\ ps_values s = [Leaf 1; Node 6 [Leaf 0]; Node 0 []] /\
      map (accepts_err rg rtbl) (ps_cursors s) = [false; false; true; true] /\
      map (rejects_err rg rtbl) (ps_cursors s) = [true; true; false; false] /\
      drop_count rg rtbl (ps_cursors s) = Some 2 /\ pop_defined rg rtbl (ps_cursors s) = true /\
      (* the specified pop phase, from the configuration in which ';' is pending *)
      match get_current_term T unit rg vopts w5 id_lexer s with
      | (s1, _, _) =>
          spec_pop_phase T unit rg rtbl s1 =
          inl (mkPS [1; 0] [Node 0 []] (mkSp 1 3) 2 3 (Some 2) true false tt,
               [EvSyntaxError (mkSp 1 3) 2; EvEnterRecovery (mkSp 1 3);
                EvRecoveringTo (mkSp 1 3) 2; EvRecoveringTo (mkSp 1 3) 1])
      end
  | _ => False
  end.
Proof. on_literals. vm_compute. repeat split. Qed.

(* ... and the driver does exactly that in 1 + 2 iterations (an instance of pop_phase_refines) *)
Example ex5_driver_pop_phase :
  match vsteps w5 4 with
  | (inl s, _) =>
      fst (steps T unit rg rtbl vopts w5 None id_lexer t_term t_err t_rule 3 s)
      = inl (mkPS [1; 0] [Node 0 []] (mkSp 1 3) 2 3 (Some 2) true false tt)
  | _ => False
  end.
Proof. on_literals. vm_compute. reflexivity. Qed.

Example ex5_result :
  summary w5 100 =
  (Accept (Node 1 [Node 2 [Node 0 []; Leaf 6; Leaf 2]; Node 6 [Leaf 0]; Leaf 2]),
   [1; 0],
   [SyntaxError 2; EnterRec; RecoveringTo 2; RecoveringTo 1; ShiftErr 5; LeaveRec; EnterCons; LeaveCons;
    Reduce 2; Reduce 6; Reduce 1]).
Proof. on_literals. vm_compute. reflexivity. Qed.

(* (6)  two errors in one input:  + ; ( + ) ;  *)
Definition w6 := [1; 2; 3; 1; 4; 2].
Example ex6_result :
  summary w6 100 =
  (Accept (Node 1 [Node 2 [Node 0 []; Leaf 6; Leaf 2]; Node 5 [Leaf 3; Leaf 6; Leaf 4]; Leaf 2]),
   [1; 0],
   [SyntaxError 1; EnterRec; Reduce 0; ShiftErr 5; LeaveRec; EnterCons; Consuming 1; LeaveCons; Reduce 2;
    SyntaxError 1; EnterRec; ShiftErr 11; LeaveRec; EnterCons; Consuming 1; LeaveCons; Reduce 5; Reduce 1]).
Proof. on_literals. vm_compute. reflexivity. Qed.

(* (7)  a grammar that does not use the error symbol:  e -> num ;  input  +  : the stack is exhausted *)
Definition plain_raw : raw_grammar :=
  mkRG id_expr [mkRT id_num 0%Z NoAssoc; mkRT id_plus 0%Z NoAssoc] [id_expr] [mkRR id_expr [RTerm id_num] None].
Definition pg : grammar := match analyze plain_raw with Some g => g | None => dummy_g end.
Definition ptbl : table := match gen pg with inl (sts, tbl) => firstn (length sts) tbl | inr _ => [] end.
Example ex7_could_not_recover :
  let '(r, s, out) := run T unit pg ptbl vopts [1] None id_lexer t_term (fun _ => Leaf (err_idx pg)) t_rule 100 tt in
  (r, ps_cursors s, recovery_lines out) = (Reject, [], [SyntaxError 1; EnterRec; CouldNotRecover]) /\
  drop_count pg ptbl [0] = None /\ pop_defined pg ptbl [0] = true /\
  spec_pop_phase T unit pg ptbl (mkPS [0] [] (mkSp 1 1) 0 1 (Some 1) false false tt)
  = inr (mkPS [] [] (mkSp 1 1) 0 1 (Some 1) true false tt,
         [EvSyntaxError (mkSp 1 1) 1; EvEnterRecovery (mkSp 1 1); EvCouldNotRecover (mkSp 1 1)]).
Proof. vm_compute. repeat split. Qed.

(* the big-step specification predicts every one of these runs, line by line *)
Example spec_run_agrees_exactly :
  map (fun w => vspec w 40) [w1; w2; w3; w4; w5; w6] = map (fun w => Some (vrun w 100)) [w1; w2; w3; w4; w5; w6].
Proof. on_literals. vm_compute. reflexivity. Qed.

(* the one-report-per-error reading of the traces *)
Example traces_track :
  map (fun w => err_track false (snd (vrun w 100))) [w1; w2; w3; w4; w5; w6] = repeat (Some false) 6.
Proof. on_literals. vm_compute. reflexivity. Qed.

Print Assumptions ex1_result.
Print Assumptions ex5_error_state.
Print Assumptions spec_run_agrees_exactly.
