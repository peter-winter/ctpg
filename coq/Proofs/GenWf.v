(* Prop reading of grammar_wf alone (no table), and the two extra coherence conditions on the grammar record
   that the generator proofs need and that grammar_wf does not state:
   - max_elems bounds every arity (it sizes the address space that fuels the closure loop);
   - every rule slice lies inside rule_infos (slice_ok only constrains indices < rule_count). *)
Require Import Ctpg.Base.Prelude Ctpg.Proofs.ListFacts Ctpg.Model.Grammar Ctpg.Valid.LRValid Ctpg.Proofs.LRReflect.

Definition grammar_wf_extra (g : grammar) : bool :=
  forallb (fun i => Nat.leb (ri_n (get_ri g i)) (max_elems g)) (seq 0 (rule_count g)) &&
  forallb (fun a => let '(st, n) := nth a (slices g) (0, 0) in Nat.leb (st + n) (rule_count g)) (seq 0 (nterm_count g)).

(* An index i < rule_count g is a position in rule_infos, that is AFTER analyze has sorted the rules by left side;
   ri_r (get_ri g i) is the rule's number as the user wrote it, the index into right_sides. wf_slice: the rules of
   nonterminal a stand at the positions of its slice; wf_distinct: rule_infos is a permutation of the rule numbers. *)
Record wf_facts (g : grammar) : Prop := {
  wf_tc : 1 < term_count g;
  wf_nc : 0 < nterm_count g;
  wf_rc : 0 < rule_count g;
  wf_len_ri : length (rule_infos g) = rule_count g;
  wf_len_rs : length (right_sides g) = rule_count g;
  wf_len_sl : length (slices g) = nterm_count g;
  wf_ri : forall i, i < rule_count g ->
          ri_r (get_ri g i) < rule_count g /\ ri_l (get_ri g i) < nterm_count g /\
          ri_n (get_ri g i) = length (get_rhs g (ri_r (get_ri g i)));
  wf_sym : forall r x, In r (right_sides g) -> In x r ->
           sym_ok g x = true /\ x <> NT (fake_root_idx g) /\ x <> T (eof_idx g);
  wf_slice : forall a i, a < nterm_count g -> i < rule_count g ->
             (ri_l (get_ri g i) = a <->
              fst (nth a (slices g) (0, 0)) <= i < fst (nth a (slices g) (0, 0)) + snd (nth a (slices g) (0, 0)));
  wf_root_r : ri_r (get_ri g (root_rule_idx g)) = root_rule_idx g;
  wf_root_l : ri_l (get_ri g (root_rule_idx g)) = fake_root_idx g;
  wf_root_rhs : exists x, get_rhs g (root_rule_idx g) = [NT x];
  wf_root_only : forall i, i < rule_count g -> ri_l (get_ri g i) = fake_root_idx g -> i = root_rule_idx g;
  wf_distinct : forall i j, i < rule_count g -> j < rule_count g ->
                ri_r (get_ri g i) = ri_r (get_ri g j) -> i = j
}.

Lemma wf_facts_of g : grammar_wf g = true -> wf_facts g.
Proof.
  unfold grammar_wf. (* the pattern follows the conjuncts of grammar_wf (Valid/LRValid.v), in their order *)
  intros ((((((((((((((Htc%Nat.ltb_lt & Hnc%Nat.ltb_lt)%andb_prop & Hrc%Nat.ltb_lt)%andb_prop & Lri%Nat.eqb_eq)%andb_prop
    & Lrs%Nat.eqb_eq)%andb_prop & Lsl%Nat.eqb_eq)%andb_prop & Hri)%andb_prop & Hsy)%andb_prop & Hsl)%andb_prop
    & Hdi)%andb_prop & Rr%Nat.eqb_eq)%andb_prop & Rl%Nat.eqb_eq)%andb_prop & Rrhs)%andb_prop & Ronly)%andb_prop
    & Hne)%andb_prop.
  rewrite forallb_seq0 in Hri, Hsl, Ronly.
  constructor; try assumption.
  - intros i Hi. specialize (Hri i Hi). unfold ri_ok in Hri.
    apply andb_prop in Hri as ((A%Nat.ltb_lt & B%Nat.ltb_lt)%andb_prop & C%Nat.eqb_eq). auto.
  - rewrite forallb_forall in Hsy, Hne. intros r x Hr Hx. specialize (Hsy r Hr). specialize (Hne r Hr).
    rewrite forallb_forall in Hsy, Hne. specialize (Hne x Hx). apply andb_prop in Hne as (A & B).
    split; [auto|]. split; intros ->; rewrite symbol_eqb_refl in *; discriminate.
  - intros a i Ha Hi. specialize (Hsl a Ha). unfold slice_ok in Hsl.
    destruct (nth a (slices g) (0, 0)) as [st n]. rewrite forallb_seq0 in Hsl. cbn [fst snd].
    rewrite <- Nat.eqb_eq, (eqb_prop _ _ (Hsl i Hi)), andb_true_iff, Nat.leb_le, Nat.ltb_lt. reflexivity.
  - destruct (get_rhs g (root_rule_idx g)) as [|[a|x] [|? ?]]; try discriminate. eauto.
  - intros i Hi E. destruct (orb_prop _ _ (Ronly i Hi)) as [H|H]; [apply Nat.eqb_eq, H|].
    rewrite E, Nat.eqb_refl in H. discriminate.
  - unfold distinct_r in Hdi. rewrite forallb_seq0 in Hdi. intros i j Hi Hj E. specialize (Hdi i Hi).
    rewrite forallb_seq0 in Hdi. destruct (orb_prop _ _ (Hdi j Hj)) as [H|H]; [apply Nat.eqb_eq, H|].
    rewrite E, Nat.eqb_refl in H. discriminate.
Qed.

Record wfx_facts (g : grammar) : Prop := {
  wfx_elems : forall i, i < rule_count g -> ri_n (get_ri g i) <= max_elems g;
  wfx_slice : forall a, a < nterm_count g ->
              fst (nth a (slices g) (0, 0)) + snd (nth a (slices g) (0, 0)) <= rule_count g
}.

Lemma wfx_facts_of g : grammar_wf_extra g = true -> wfx_facts g.
Proof.
  intros H. unfold grammar_wf_extra in H. apply andb_true_iff in H. destruct H as [H1 H2].
  rewrite forallb_seq0 in H1, H2. constructor.
  - intros i Hi. apply Nat.leb_le. apply H1. assumption.
  - intros a Ha. specialize (H2 a Ha). destruct (nth a (slices g) (0, 0)) as [st n]. cbn [fst snd].
    apply Nat.leb_le. assumption.
Qed.

Section WfFacts.
  Variable g : grammar.
  Hypothesis WF : wf_facts g.

  Lemma wf_eof_lt : eof_idx g < term_count g.
  Proof. pose proof (wf_tc _ WF). unfold eof_idx. lia. Qed.

  Lemma wf_err_lt : err_idx g < term_count g.
  Proof. pose proof (wf_tc _ WF). unfold err_idx. lia. Qed.

  Lemma wf_root_lt : root_rule_idx g < rule_count g.
  Proof. pose proof (wf_rc _ WF). unfold root_rule_idx. lia. Qed.

  Lemma wf_fake_lt : fake_root_idx g < nterm_count g.
  Proof. pose proof (wf_nc _ WF). unfold fake_root_idx. lia. Qed.

  Lemma wf_in_rule_infos ri : In ri (rule_infos g) -> exists i, i < rule_count g /\ ri = get_ri g i.
  Proof.
    intros H. destruct (In_nth _ _ dummy_ri H) as (i & Hi & E). exists i. rewrite <- (wf_len_ri _ WF).
    split; [assumption|]. symmetry. exact E.
  Qed.

  Lemma ri_l_lt ri : In ri (rule_infos g) -> ri_l ri < nterm_count g.
  Proof. intros H. destruct (wf_in_rule_infos _ H) as (i & Hi & ->). apply (wf_ri _ WF). assumption. Qed.

  Lemma wf_get_ri_in i : i < rule_count g -> In (get_ri g i) (rule_infos g).
  Proof. intros H. apply nth_In. rewrite (wf_len_ri _ WF). assumption. Qed.

  Lemma wf_rhs_in r : r < rule_count g -> In (get_rhs g (ri_r (get_ri g r))) (right_sides g).
  Proof.
    intros Hr. unfold get_rhs. apply nth_In. rewrite (wf_len_rs _ WF). apply (wf_ri _ WF). assumption.
  Qed.

  Lemma wf_firstn_rhs i : i < rule_count g ->
    firstn (ri_n (get_ri g i)) (get_rhs g (ri_r (get_ri g i))) = get_rhs g (ri_r (get_ri g i)).
  Proof. intros H. apply firstn_all2. destruct (wf_ri _ WF i H) as (_ & _ & E). lia. Qed.

  Lemma wf_root_n : ri_n (get_ri g (root_rule_idx g)) = 1.
  Proof.
    destruct (wf_ri _ WF _ wf_root_lt) as (_ & _ & E). rewrite E, (wf_root_r _ WF).
    destruct (wf_root_rhs _ WF) as (x & Hx). rewrite Hx. reflexivity.
  Qed.
End WfFacts.
