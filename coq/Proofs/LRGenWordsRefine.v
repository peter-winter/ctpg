(* The word-level nullable / FIRST computation (Model/LRGenWords.v, on cbitset objects: 64-bit words, checked
   test()/set(), add(), operator==) refines the abstract one (Model/LRGen.v, on Prelude.bset), for every grammar whose
   symbol indices are in range: it never throws, and its results abstract (cb_abs) to exactly nterm_empty / nterm_first.
   The invariant carried through the FIRST passes: every table entry is well-formed, has clean padding bits (only
   cb_new / cb_set / cb_add touch it, never a whole-set operation) and has term_count bits; under it operator== on the
   words is set equality (ContainersBits.cb_eqb_iff_same_set), so the `changed` flags of both levels agree. *)
From Ctpg Require Import Base.Prelude Proofs.ListFacts Model.Grammar Model.LRGen Model.Containers Model.LRGenWords
                         Proofs.ContainersBits.
From Coq Require Import NArith Lia List Bool.

Definition sym_ok (g : grammar) (s : symbol) : Prop :=
  match s with T i => i < term_count g | NT n => n < nterm_count g end.
Definition ri_ok (g : grammar) (ri : rule_info) : Prop :=
  ri_l ri < nterm_count g /\ Forall (sym_ok g) (firstn (ri_n ri) (get_rhs g (ri_r ri))).
Definition syms_in_range (g : grammar) : Prop := Forall (ri_ok g) (rule_infos g).

Definition sym_okb (g : grammar) (s : symbol) : bool :=
  match s with T i => Nat.ltb i (term_count g) | NT n => Nat.ltb n (nterm_count g) end.
Definition syms_in_rangeb (g : grammar) : bool :=
  forallb (fun ri => Nat.ltb (ri_l ri) (nterm_count g) &&
                     forallb (sym_okb g) (firstn (ri_n ri) (get_rhs g (ri_r ri)))) (rule_infos g).

Lemma syms_in_rangeb_sound : forall g, syms_in_rangeb g = true -> syms_in_range g.
Proof.
  intros g Hb. unfold syms_in_rangeb in Hb. rewrite forallb_forall in Hb.
  unfold syms_in_range. apply Forall_forall. intros ri Hin. specialize (Hb ri Hin).
  apply andb_true_iff in Hb. destruct Hb as [Hl Hs]. split.
  - apply Nat.ltb_lt. exact Hl.
  - rewrite forallb_forall in Hs. apply Forall_forall. intros s Hsin. specialize (Hs s Hsin).
    destruct s as [i | n]; cbn [sym_ok sym_okb] in *; apply Nat.ltb_lt; exact Hs.
Qed.

Lemma cb_add_clean : forall a b, cb_wf a -> cb_wf b -> cb_n a = cb_n b -> cb_clean a -> cb_clean b ->
  cb_clean (cb_add a b).
Proof.
  intros a b Ha Hb Hn Hca Hcb i Hi. change (cb_n (cb_add a b)) with (cb_n a) in Hi.
  change (cb_bitat (cb_add a b) i = false).
  rewrite add_bitat by assumption.
  apply orb_false_iff. split; [apply Hca; exact Hi | apply Hcb; rewrite <- Hn; exact Hi].
Qed.

Lemma cb_abs_new_nat : forall n, cb_abs (cb_new (N.of_nat n)) = bset_empty n.
Proof. intros n. rewrite cb_abs_new, Nat2N.id. reflexivity. Qed.

Lemma map_repeat' : forall A B (f : A -> B) x n, map f (repeat x n) = repeat (f x) n.
Proof. intros A B f x n. induction n as [| n IH]; simpl; [reflexivity | rewrite IH; reflexivity]. Qed.

Lemma list_eqb_bool : forall a b : list bool, list_eqb Bool.eqb a b = true <-> a = b.
Proof. exact (list_eqb_spec bool Bool.eqb Bool.eqb_true_iff). Qed.

(* the invariant of one entry of the FIRST table *)
Definition good (g : grammar) (b : cbitset) : Prop :=
  cb_wf b /\ cb_clean b /\ cb_n b = N.of_nat (term_count g).

Lemma good_dflt : forall g, good g (w_empty_terms g).
Proof. intros g. unfold w_empty_terms. split; [apply cb_new_wf | split; [apply cb_new_clean | reflexivity]]. Qed.

Lemma abs_dflt : forall g, cb_abs (w_empty_terms g) = bset_empty (term_count g).
Proof. intros g. apply cb_abs_new_nat. Qed.

Lemma nth_abs : forall g nf n,
  nth n (map cb_abs nf) (bset_empty (term_count g)) = cb_abs (nth n nf (w_empty_terms g)).
Proof. intros g nf n. rewrite <- abs_dflt. apply map_nth. Qed.

Lemma good_nth : forall g nf n, Forall (good g) nf -> good g (nth n nf (w_empty_terms g)).
Proof. intros g nf n Hnf. apply Forall_nth_d; [exact Hnf | apply good_dflt]. Qed.

Lemma good_add_abs : forall g a b, good g a -> good g b ->
  good g (cb_add a b) /\ cb_abs (cb_add a b) = bset_or (cb_abs a) (cb_abs b).
Proof.
  intros g a b (Hwa & Hca & Hna) (Hwb & Hcb & Hnb).
  assert (Hn : cb_n a = cb_n b) by congruence. split; [| apply cb_abs_add; assumption].
  split; [apply cb_add_wf; assumption |]. split; [apply cb_add_clean; assumption | exact Hna].
Qed.

Lemma good_add : forall g a b, good g a -> good g b -> good g (cb_add a b).
Proof. intros g a b Ha Hb. exact (proj1 (good_add_abs g a b Ha Hb)). Qed.

(* operator== on the words is the list comparison of the abstractions *)
Lemma eqb_agree : forall g a b, good g a -> good g b -> cb_eqb a b = bset_eqb (cb_abs a) (cb_abs b).
Proof.
  intros g a b (Hwa & Hca & Hna) (Hwb & Hcb & Hnb).
  apply Bool.eq_true_iff_eq. unfold bset_eqb. rewrite list_eqb_bool.
  apply cb_eqb_iff_same_set; try assumption. congruence.
Qed.

Section Refine.
Variable g : grammar.

Lemma w_all_nullable_ok : forall ne r, cb_n ne = N.of_nat (nterm_count g) -> Forall (sym_ok g) r ->
  w_all_nullable ne r = Ok (all_nullable (cb_abs ne) r).
Proof.
  intros ne r Hn. induction r as [| s r IH]; intros Hr.
  - reflexivity.
  - inversion Hr as [| s' r' Hs Hr']; subst. destruct s as [i | n]; cbn [w_all_nullable all_nullable].
    + reflexivity.
    + cbn [sym_ok] in Hs. rewrite (cb_test_nat ne n _ Hn Hs). cbn [rbind].
      destruct (bset_test (cb_abs ne) n); cbn [andb]; [apply IH; exact Hr' | reflexivity].
Qed.

Lemma w_empty_pass_ok : forall ris ne ch, cb_wf ne -> cb_n ne = N.of_nat (nterm_count g) -> Forall (ri_ok g) ris ->
  exists ne', w_empty_pass g ris ne ch = Ok (ne', snd (empty_pass g ris (cb_abs ne) ch)) /\
              cb_wf ne' /\ cb_n ne' = N.of_nat (nterm_count g) /\
              cb_abs ne' = fst (empty_pass g ris (cb_abs ne) ch).
Proof.
  intros ris. induction ris as [| ri ris IH]; intros ne ch Hwf Hn Hr.
  - exists ne. cbn. auto.
  - inversion Hr as [| ri' ris' [Hl Hsy] Hr']; subst. cbn [w_empty_pass empty_pass].
    rewrite (cb_test_nat ne _ _ Hn Hl). cbn [rbind].
    destruct (bset_test (cb_abs ne) (ri_l ri)).
    + apply IH; assumption.
    + rewrite (w_all_nullable_ok ne _ Hn Hsy). cbn [rbind].
      destruct (all_nullable (cb_abs ne) (firstn (ri_n ri) (get_rhs g (ri_r ri)))).
      * destruct (cb_set_nat ne _ _ Hwf Hn Hl) as (ne' & Hs & Hwf' & Hn' & _ & _ & Habs). rewrite Hs. cbn [rbind].
        rewrite <- Habs. apply IH; assumption.
      * apply IH; assumption.
Qed.

Lemma w_empty_iter_ok : forall fuel ne, cb_wf ne -> cb_n ne = N.of_nat (nterm_count g) -> syms_in_range g ->
  exists b, w_empty_iter fuel g ne = Ok b /\ cb_wf b /\ cb_n b = N.of_nat (nterm_count g) /\
            cb_abs b = empty_iter fuel g (cb_abs ne).
Proof.
  intros fuel. induction fuel as [| fuel IH]; intros ne Hwf Hn Hr.
  - exists ne. cbn. auto.
  - cbn [w_empty_iter empty_iter].
    destruct (w_empty_pass_ok (rule_infos g) ne false Hwf Hn Hr) as (ne' & Hp & Hwf' & Hn' & Habs).
    rewrite Hp. cbn [rbind]. revert Habs.
    destruct (empty_pass g (rule_infos g) (cb_abs ne) false) as [a ch]. cbn [fst snd]. intros Habs.
    destruct ch.
    + rewrite <- Habs. apply IH; assumption.
    + exists ne'. auto.
Qed.

Lemma w_first_of_syms_ok : forall ne nf, cb_n ne = N.of_nat (nterm_count g) -> Forall (good g) nf ->
  forall r acc, good g acc -> Forall (sym_ok g) r ->
  exists a, w_first_of_syms g ne nf acc r = Ok a /\ good g a /\
            cb_abs a = first_of_syms g (cb_abs ne) (map cb_abs nf) (cb_abs acc) r.
Proof.
  intros ne nf Hn Hnf r. induction r as [| s r IH]; intros acc Hacc Hr.
  - exists acc. cbn. auto.
  - inversion Hr as [| s' r' Hs Hr']; subst. destruct s as [i | n]; cbn [w_first_of_syms first_of_syms]; cbv zeta.
    + cbn [sym_ok] in Hs. destruct Hacc as (Hw & Hc & Hna).
      destruct (cb_set_nat acc i _ Hw Hna Hs) as (b' & Hs' & Hw' & Hn' & Hc' & _ & Ha).
      exists b'. split; [exact Hs' |]. split; [| exact Ha].
      split; [exact Hw' |]. split; [apply Hc'; exact Hc | exact Hn'].
    + cbn [sym_ok] in Hs.
      destruct (good_add_abs g acc _ Hacc (good_nth g nf n Hnf)) as [Hacc' Habs'].
      rewrite (cb_test_nat ne n _ Hn Hs). cbn [rbind]. rewrite nth_abs, <- Habs'.
      destruct (bset_test (cb_abs ne) n).
      * apply IH; assumption.
      * exists (cb_add acc (nth n nf (w_empty_terms g))). auto.
Qed.

Lemma w_first_pass_ok : forall ne, cb_n ne = N.of_nat (nterm_count g) ->
  forall ris nf ch, Forall (good g) nf -> Forall (ri_ok g) ris ->
  exists nf', w_first_pass g ne ris nf ch = Ok (nf', snd (first_pass g (cb_abs ne) ris (map cb_abs nf) ch)) /\
              Forall (good g) nf' /\
              map cb_abs nf' = fst (first_pass g (cb_abs ne) ris (map cb_abs nf) ch).
Proof.
  intros ne Hn ris. induction ris as [| ri ris IH]; intros nf ch Hnf Hr.
  - exists nf. cbn. auto.
  - inversion Hr as [| ri' ris' [Hl Hsy] Hr']; subst. cbn [w_first_pass first_pass]; cbv zeta.
    assert (Hb : good g (nth (ri_l ri) nf (w_empty_terms g))) by (apply good_nth; exact Hnf).
    destruct (w_first_of_syms_ok ne nf Hn Hnf _ _ Hb Hsy) as (after & Hf & Hga & Habs).
    rewrite Hf. cbn [rbind]. rewrite nth_abs. rewrite <- Habs. rewrite <- map_update.
    rewrite <- (eqb_agree g _ _ Hb Hga).
    apply IH; [apply Forall_update; assumption | exact Hr'].
Qed.

Lemma w_first_iter_ok : forall ne, cb_n ne = N.of_nat (nterm_count g) -> syms_in_range g ->
  forall fuel nf, Forall (good g) nf ->
  exists t, w_first_iter fuel g ne nf = Ok t /\ Forall (good g) t /\
            map cb_abs t = first_iter fuel g (cb_abs ne) (map cb_abs nf).
Proof.
  intros ne Hn Hr fuel. induction fuel as [| fuel IH]; intros nf Hnf.
  - exists nf. cbn. auto.
  - cbn [w_first_iter first_iter].
    destruct (w_first_pass_ok ne Hn (rule_infos g) nf false Hnf Hr) as (nf' & Hp & Hnf' & Habs).
    rewrite Hp. cbn [rbind]. revert Habs.
    destruct (first_pass g (cb_abs ne) (rule_infos g) (map cb_abs nf) false) as [a ch]. cbn [fst snd]. intros Habs.
    destruct ch.
    + rewrite <- Habs. apply IH; assumption.
    + exists nf'. auto.
Qed.

Theorem w_nterm_empty_refines : syms_in_range g ->
  exists b, w_nterm_empty g = Ok b /\ cb_wf b /\ cb_n b = N.of_nat (nterm_count g) /\ cb_abs b = nterm_empty g.
Proof.
  intros Hr. unfold w_nterm_empty, nterm_empty. rewrite <- cb_abs_new_nat.
  apply w_empty_iter_ok; [apply cb_new_wf | reflexivity | exact Hr].
Qed.

(* the last conjunct is [Forall (good g) t] written out *)
Theorem w_nterm_first_refines : syms_in_range g ->
  forall ne_w, cb_wf ne_w -> cb_n ne_w = N.of_nat (nterm_count g) ->
  exists t, w_nterm_first g ne_w = Ok t /\ map cb_abs t = nterm_first g (cb_abs ne_w) /\
            Forall (fun b => cb_wf b /\ cb_clean b /\ cb_n b = N.of_nat (term_count g)) t.
Proof.
  intros Hr ne_w _ Hn. unfold w_nterm_first, nterm_first.
  rewrite <- abs_dflt, <- (map_repeat' _ _ cb_abs (w_empty_terms g)).
  destruct (w_first_iter_ok ne_w Hn Hr (S (nterm_count g * term_count g))
              (repeat (w_empty_terms g) (nterm_count g))) as (t & Ht & Hgood & Habs).
  - apply Forall_repeat, good_dflt.
  - exists t. split; [exact Ht |]. split; [exact Habs | exact Hgood].
Qed.

Corollary w_first_sets_refine : syms_in_range g ->
  exists b t, w_nterm_empty g = Ok b /\ w_nterm_first g b = Ok t /\
              cb_abs b = nterm_empty g /\ map cb_abs t = nterm_first g (nterm_empty g).
Proof.
  intros Hr. destruct (w_nterm_empty_refines Hr) as (b & Hb & Hwf & Hn & Habs).
  destruct (w_nterm_first_refines Hr b Hwf Hn) as (t & Ht & Hmap & _).
  exists b, t. rewrite <- Habs. auto.
Qed.

(* the table has one entry per nonterminal *)
Corollary w_nterm_first_length : syms_in_range g ->
  forall ne_w, cb_wf ne_w -> cb_n ne_w = N.of_nat (nterm_count g) ->
  forall t, w_nterm_first g ne_w = Ok t -> length t = length (nterm_first g (cb_abs ne_w)).
Proof.
  intros Hr ne_w Hwf Hn t Ht. destruct (w_nterm_first_refines Hr ne_w Hwf Hn) as (t' & Ht' & Hmap & _).
  rewrite Ht in Ht'. injection Ht' as Ht'. subst t'. rewrite <- Hmap, map_length. reflexivity.
Qed.
End Refine.

(* S -> A B c ; A -> a A | <empty> ; B -> b | <empty>.
   terms: a = 0, b = 1, c = 2, <eof> = 3, <error_recovery_token> = 4; nonterminals: S = 0, A = 1, B = 2, ## = 3 *)
Definition ex_S := [83]. Definition ex_A := [65]. Definition ex_B := [66].
Definition ex_a := [97]. Definition ex_b := [98]. Definition ex_c := [99].
Definition ex_raw : raw_grammar :=
  mkRG ex_S [mkRT ex_a 0%Z NoAssoc; mkRT ex_b 0%Z NoAssoc; mkRT ex_c 0%Z NoAssoc] [ex_S; ex_A; ex_B]
    [mkRR ex_S [RNterm ex_A; RNterm ex_B; RTerm ex_c] None;
     mkRR ex_A [RTerm ex_a; RNterm ex_A] None;
     mkRR ex_A [] None;
     mkRR ex_B [RTerm ex_b] None;
     mkRR ex_B [] None].
Definition ex_dummy : grammar := mkG 0 0 0 0 [] [] [] [] [] [] [] [].
Definition ex_g : grammar := match analyze ex_raw with Some g => g | None => ex_dummy end.

Definition res_map {A B} (f : A -> B) (r : res A) : res B :=
  match r with Ok a => Ok (f a) | Throw => Throw | Undef => Undef end.

Example ex_refines :
  analyze ex_raw = Some ex_g /\ syms_in_rangeb ex_g = true /\
  res_map cb_abs (w_nterm_empty ex_g) = Ok (nterm_empty ex_g) /\
  nterm_empty ex_g = [false; true; true; false] /\
  res_map (map cb_abs) (rbind (w_nterm_empty ex_g) (w_nterm_first ex_g)) = Ok (nterm_first ex_g (nterm_empty ex_g)) /\
  nterm_first ex_g (nterm_empty ex_g) =
    [[true; true; true; false; false];        (* FIRST(S) = {a, b, c} *)
     [true; false; false; false; false];      (* FIRST(A) = {a} *)
     [false; true; false; false; false];      (* FIRST(B) = {b} *)
     [true; true; true; false; false]].       (* FIRST(##) = {a, b, c} *)
Proof. vm_compute. repeat split. Qed.

Example ex_in_range : syms_in_range ex_g.
Proof. apply syms_in_rangeb_sound. vm_compute. reflexivity. Qed.

(* more than one word per set, with padding bits in the last word: 70 terms, X -> t69 | t3 X | Y t64 ; Y -> <empty>.
   FIRST(X) = {t3, t64, t69} is the words [8; 33]: bit 3 of the first, bits 0 and 5 of the second. *)
Definition ex70_g : grammar :=
  mkG 70 3 4 2
      [[T 69]; [T 3; NT 0]; [NT 1; T 64]; []; [NT 0]]
      [mkRI 0 0 1; mkRI 0 1 2; mkRI 0 2 2; mkRI 1 3 0; mkRI 2 4 1]
      [(0, 3); (3, 1); (4, 1)] [] [] [] [] [].

Example ex70_refines :
  syms_in_rangeb ex70_g = true /\
  res_map (map cb_data) (rbind (w_nterm_empty ex70_g) (w_nterm_first ex70_g))
    = Ok [[8%N; 33%N]; [0%N; 0%N]; [8%N; 33%N]] /\
  res_map (map cb_abs) (rbind (w_nterm_empty ex70_g) (w_nterm_first ex70_g))
    = Ok (nterm_first ex70_g (nterm_empty ex70_g)).
Proof. vm_compute. repeat split. Qed.

(* outside the range condition the two levels do differ: the list model ignores the out-of-range index, the words throw *)
Definition exbad_g : grammar := mkG 2 1 1 1 [[T 5]] [mkRI 0 0 1] [(0, 1)] [] [] [] [] [].
Example out_of_range_throws :
  syms_in_rangeb exbad_g = false /\
  rbind (w_nterm_empty exbad_g) (w_nterm_first exbad_g) = Throw /\
  nterm_first exbad_g (nterm_empty exbad_g) = [[false; false]].
Proof. vm_compute. repeat split. Qed.

Print Assumptions w_nterm_empty_refines.
Print Assumptions w_nterm_first_refines.
Print Assumptions w_first_sets_refine.
