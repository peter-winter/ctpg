(* Correctness of the byte-level mirror of namespace utils (Model/Utils.v): the walks over NUL-terminated memory regions
   compute what the rest of the model uses on the string before the terminator (list equality, index_of,
   Grammar.find_str) and never read past the terminator, and the character classification / naming tables are what
   the model assumes.  A region is written s ++ 0 :: rest with s NUL-free; Utils.cstr reads s back from it (cstr_app).
   The walks are each one induction over the NUL-free prefix. The byte classes are comparisons on signed chars; a byte
   below 128 is its own char value and a byte from 128 on is a negative one, so a comparison against ASCII bounds is the
   same comparison on the byte (char_range_le / char_range_lt), and everything about classes, names and hex digits
   follows by arithmetic on the three digit ranges. *)
From Ctpg Require Import Base.Prelude Proofs.ListFacts Model.Containers Model.Utils Model.Grammar.
From Coq Require Import NArith ZArith Lia List Bool.
Import ListNotations.

Definition nul_free (s : list nat) : Prop := Forall (fun x => x <> 0) s.

Lemma nul_free_cons : forall x s, nul_free (x :: s) <-> x <> 0 /\ nul_free s.
Proof. intros x s. apply Forall_cons_iff. Qed.

(* the form the walks use: the test for the terminator fails on the head *)
Lemma nul_free_head : forall x s, nul_free (x :: s) -> Nat.eqb x 0 = false /\ nul_free s.
Proof. intros x s H. apply nul_free_cons in H. rewrite Nat.eqb_neq. exact H. Qed.

Lemma nul_free_not_in : forall s, nul_free s -> ~ In 0 s.
Proof. intros s Hs Hin. exact (proj1 (Forall_forall _ _) Hs 0 Hin eq_refl). Qed.

Lemma Ok_eq_iff : forall A (a b : A), Ok a = Ok b <-> a = b.
Proof. intros A a b. split; [intros [= H]; exact H | intros ->; reflexivity]. Qed.

Lemma ident_eqb_spec : forall a b, ident_eqb a b = true <-> a = b.
Proof. exact (list_eqb_spec nat Nat.eqb Nat.eqb_eq). Qed.

Theorem cstr_app : forall s rest, nul_free s -> cstr (s ++ 0 :: rest) = Some s.
Proof.
  induction s as [|x s IH]; intros rest Hs; cbn [app cstr].
  - reflexivity.
  - apply nul_free_head in Hs. destruct Hs as [-> Hs]. rewrite (IH rest Hs). reflexivity.
Qed.

Theorem str_equal_spec : forall s1 s2 r1 r2, nul_free s1 -> nul_free s2 ->
  str_equal (s1 ++ 0 :: r1) (s2 ++ 0 :: r2) = Ok (list_eqb Nat.eqb s1 s2).
Proof.
  induction s1 as [|x s1 IH]; intros [|y s2] r1 r2 H1 H2; cbn [app str_equal list_eqb].
  - reflexivity.
  - apply nul_free_head in H2. destruct H2 as [E _]. rewrite Nat.eqb_sym, E. reflexivity.
  - apply nul_free_head in H1. destruct H1 as [-> _]. reflexivity.
  - apply nul_free_head in H1. destruct H1 as [-> H1]. apply nul_free_head in H2. destruct H2 as [_ H2].
    destruct (Nat.eqb x y); [apply IH; assumption | reflexivity].
Qed.

Corollary str_equal_true_iff : forall s1 s2 r1 r2, nul_free s1 -> nul_free s2 ->
  (str_equal (s1 ++ 0 :: r1) (s2 ++ 0 :: r2) = Ok true <-> s1 = s2).
Proof.
  intros s1 s2 r1 r2 H1 H2. rewrite (str_equal_spec s1 s2 r1 r2 H1 H2), Ok_eq_iff. apply ident_eqb_spec.
Qed.

Corollary str_equal_false_iff : forall s1 s2 r1 r2, nul_free s1 -> nul_free s2 ->
  (str_equal (s1 ++ 0 :: r1) (s2 ++ 0 :: r2) = Ok false <-> s1 <> s2).
Proof.
  intros s1 s2 r1 r2 H1 H2. rewrite (str_equal_spec s1 s2 r1 r2 H1 H2), Ok_eq_iff, <- ident_eqb_spec.
  symmetry. apply not_true_iff_false.
Qed.

(* a proper prefix is not equal *)
Corollary str_equal_proper_prefix : forall s x t r1 r2, nul_free s -> nul_free (x :: t) ->
  str_equal (s ++ 0 :: r1) ((s ++ x :: t) ++ 0 :: r2) = Ok false.
Proof.
  intros s x t r1 r2 H1 H2. apply str_equal_false_iff.
  - exact H1.
  - apply Forall_app. split; assumption.
  - intro E. apply (f_equal (@length nat)) in E. rewrite app_length in E. cbn [length] in E. lia.
Qed.

Theorem str_equal_never_throws : forall a b, str_equal a b <> Throw.
Proof.
  induction a as [|x a IH]; intros [|y b]; cbn [str_equal]; try discriminate.
  destruct (Nat.eqb x y); [|discriminate].
  destruct (Nat.eqb x 0); [discriminate | apply IH].
Qed.

Theorem find_char_spec : forall c s rest i, nul_free s ->
  find_char c (s ++ 0 :: rest) i = Ok (if Nat.eqb c 0 then None else index_of c s i).
Proof.
  intros c s. induction s as [|x s IH]; intros rest i Hs; cbn [app find_char index_of].
  - cbn [Nat.eqb]. destruct (Nat.eqb c 0); reflexivity.
  - apply nul_free_head in Hs. destruct Hs as [E Hs]. rewrite E.
    destruct (Nat.eqb_spec x c) as [<-|_]; [rewrite E; reflexivity | apply IH; exact Hs].
Qed.

Corollary find_char_nul : forall s rest, nul_free s -> find_char 0 (s ++ 0 :: rest) 0 = Ok None.
Proof. intros s rest Hs. apply (find_char_spec 0 s rest 0 Hs). Qed.

Lemma index_of_some_iff : forall c s i, (exists k, index_of c s i = Some k) <-> In c s.
Proof.
  intros c s. induction s as [|x s IH]; intros i; cbn [index_of In].
  - split; [intros [k Hk]; discriminate | intros []].
  - destruct (Nat.eqb_spec x c) as [E|E].
    + split; [intros _; left; exact E | intros _; exists i; reflexivity].
    + rewrite (IH (S i)). tauto.
Qed.

Lemma index_of_none_iff : forall c s i, index_of c s i = None <-> ~ In c s.
Proof.
  intros c s i. rewrite <- (index_of_some_iff c s i). destruct (index_of c s i) as [k|].
  - split; [discriminate | intro H; elim H; exists k; reflexivity].
  - split; [intros _ [k Hk]; discriminate | reflexivity].
Qed.

(* first occurrence, with a start index *)
Lemma index_of_first_gen : forall c d s i k, index_of c s i = Some k ->
  exists j, k = i + j /\ j < length s /\ nth j s d = c /\ forall j', j' < j -> nth j' s d <> c.
Proof.
  intros c d s. induction s as [|x s IH]; intros i k H; cbn [index_of] in H.
  - discriminate.
  - destruct (Nat.eqb_spec x c) as [E|E].
    + injection H as H. exists 0. cbn [length nth]. repeat split; lia.
    + destruct (IH (S i) k H) as [j [Hk [Hlt [Hnth Hmin]]]].
      exists (S j). cbn [length nth]. repeat split; try lia; try exact Hnth.
      intros [|j'] Hj'; [exact E | apply Hmin; lia].
Qed.

Theorem index_of_first : forall c d s k, index_of c s 0 = Some k ->
  k < length s /\ nth k s d = c /\ forall j, j < k -> nth j s d <> c.
Proof.
  intros c d s k H. destruct (index_of_first_gen c d s 0 k H) as [j [-> H']]. exact H'.
Qed.

Corollary find_char_member : forall c s rest, nul_free s -> c <> 0 ->
  ((exists k, find_char c (s ++ 0 :: rest) 0 = Ok (Some k)) <-> In c s).
Proof.
  intros c s rest Hs Hc. rewrite (find_char_spec c s rest 0 Hs), (proj2 (Nat.eqb_neq c 0) Hc).
  setoid_rewrite Ok_eq_iff. apply index_of_some_iff.
Qed.

Corollary find_char_first : forall c d s rest k, nul_free s ->
  find_char c (s ++ 0 :: rest) 0 = Ok (Some k) ->
  c <> 0 /\ k < length s /\ nth k s d = c /\ forall j, j < k -> nth j s d <> c.
Proof.
  intros c d s rest k Hs H. rewrite (find_char_spec c s rest 0 Hs) in H.
  destruct (Nat.eqb_spec c 0) as [E|E]; [discriminate|].
  injection H as H. split; [exact E | apply index_of_first; exact H].
Qed.

Corollary find_char_not_found : forall c s rest, nul_free s ->
  (find_char c (s ++ 0 :: rest) 0 = Ok None <-> ~ In c s).
Proof.
  intros c s rest Hs. rewrite (find_char_spec c s rest 0 Hs), Ok_eq_iff.
  destruct (Nat.eqb_spec c 0) as [->|E].
  - split; [intros _; apply nul_free_not_in; exact Hs | reflexivity].
  - apply index_of_none_iff.
Qed.

Theorem str_len_spec : forall s rest, nul_free s -> str_len (s ++ 0 :: rest) = Ok (length s).
Proof.
  induction s as [|x s IH]; intros rest Hs; cbn [app str_len length].
  - reflexivity.
  - apply nul_free_head in Hs. destruct Hs as [-> Hs]. rewrite (IH rest Hs). reflexivity.
Qed.

Lemma find_str_c_spec_gen : forall (table : list (list nat)) (s : list nat) rests rs i,
  Forall nul_free table -> nul_free s -> length rests = length table ->
  find_str_c (map (fun p => fst p ++ 0 :: snd p) (combine table rests)) (s ++ 0 :: rs) i
  = match Grammar.find_str table s with Some k => Ok (i + k) | None => Throw end.
Proof.
  induction table as [|n table IH]; intros s [|r rests] rs i Ht Hs Hlen; try discriminate.
  - reflexivity.
  - injection Hlen as Hlen. apply Forall_cons_iff in Ht. destruct Ht as [Hn Ht].
    cbn [combine map find_str_c find_str fst snd].
    rewrite (str_equal_spec n s r rs Hn Hs). unfold ident_eqb.
    destruct (list_eqb Nat.eqb n s).
    + rewrite Nat.add_0_r. reflexivity.
    + rewrite (IH s rests rs (S i) Ht Hs Hlen).
      destruct (find_str table s) as [k|]; cbn [option_map]; [|reflexivity].
      f_equal. lia.
Qed.

Theorem find_str_c_spec : forall (table : list (list nat)) (s : list nat) rests rs,
  Forall nul_free table -> nul_free s -> length rests = length table ->
  find_str_c (map (fun p => fst p ++ 0 :: snd p) (combine table rests)) (s ++ 0 :: rs) 0
  = match Grammar.find_str table s with Some i => Ok i | None => Throw end.
Proof. intros table s rests rs. apply find_str_c_spec_gen. Qed.

(* what Grammar.find_str computes: the first index holding an equal identifier *)
Lemma find_str_some : forall tbl s k, find_str tbl s = Some k ->
  k < length tbl /\ nth k tbl [] = s /\ forall j, j < k -> nth j tbl [] <> s.
Proof.
  induction tbl as [|x tbl IH]; intros s k H; cbn [find_str] in H.
  - discriminate.
  - destruct (ident_eqb x s) eqn:E.
    + injection H as <-. apply ident_eqb_spec in E. cbn [length nth]. repeat split; try lia. exact E.
    + destruct (find_str tbl s) as [k'|] eqn:F; cbn [option_map] in H; [|discriminate].
      injection H as <-. destruct (IH s k' F) as [Hlt [Hnth Hmin]].
      cbn [length nth]. repeat split; try lia; try exact Hnth.
      intros [|j] Hj.
      * rewrite <- ident_eqb_spec. congruence.
      * apply Hmin. lia.
Qed.

Lemma find_str_none : forall tbl s, find_str tbl s = None <-> ~ In s tbl.
Proof.
  induction tbl as [|x tbl IH]; intros s; cbn [find_str In].
  - tauto.
  - specialize (IH s). destruct (ident_eqb x s) eqn:E.
    + apply ident_eqb_spec in E. split; [discriminate | tauto].
    + assert (x <> s) as Hne by (rewrite <- ident_eqb_spec; congruence).
      destruct (find_str tbl s); cbn [option_map]; intuition discriminate.
Qed.

(* the C lookup throws "string not found" exactly when no table entry is the string; it is never Undef *)
Corollary find_str_c_throws_iff : forall table s rests rs,
  Forall nul_free table -> nul_free s -> length rests = length table ->
  (find_str_c (map (fun p => fst p ++ 0 :: snd p) (combine table rests)) (s ++ 0 :: rs) 0 = Throw <-> ~ In s table).
Proof.
  intros table s rests rs Ht Hs Hlen. rewrite (find_str_c_spec table s rests rs Ht Hs Hlen).
  rewrite <- find_str_none. destruct (find_str table s); split; intro H; try reflexivity; discriminate.
Qed.

Lemma char_val_small : forall b, b < 128 -> char_val b = Z.of_nat b.
Proof. intros b Hb. unfold char_val. rewrite (proj2 (Nat.ltb_lt b 128) Hb). reflexivity. Qed.

Lemma char_val_high : forall b, 128 <= b < 256 -> (char_val b < 0)%Z.
Proof. intros b Hb. unfold char_val. rewrite (proj2 (Nat.ltb_ge b 128)) by lia. lia. Qed.

Lemma char_range_le : forall lo hi b, b < 256 -> hi < 128 ->
  ((Z.of_nat lo <=? char_val b) && (char_val b <=? Z.of_nat hi))%Z = Nat.leb lo b && Nat.leb b hi.
Proof.
  intros lo hi b Hb Hhi. apply eq_true_iff_eq. rewrite !andb_true_iff, !Z.leb_le, !Nat.leb_le.
  destruct (Nat.lt_ge_cases b 128) as [H|H]; [rewrite (char_val_small b H) | pose proof (char_val_high b)]; lia.
Qed.

Lemma char_range_lt : forall lo hi b, b < 256 -> hi <= 128 ->
  ((Z.of_nat lo <? char_val b) && (char_val b <? Z.of_nat hi))%Z = Nat.ltb lo b && Nat.ltb b hi.
Proof.
  intros lo hi b Hb Hhi. apply eq_true_iff_eq. rewrite !andb_true_iff, !Z.ltb_lt, !Nat.ltb_lt.
  destruct (Nat.lt_ge_cases b 128) as [H|H]; [rewrite (char_val_small b H) | pose proof (char_val_high b)]; lia.
Qed.

(* which branch a test on a range takes *)
Lemma range_in : forall lo hi d, lo <= d <= hi -> Nat.leb lo d && Nat.leb d hi = true.
Proof. intros lo hi d. apply range_iff. Qed.

Lemma range_out : forall lo hi d, d < lo \/ hi < d -> Nat.leb lo d && Nat.leb d hi = false.
Proof. intros lo hi d H. apply not_true_iff_false. rewrite range_iff. lia. Qed.

Theorem is_printable_spec : forall b, b < 256 -> is_printable b = (Nat.leb 32 b && Nat.leb b 126).
Proof. intros b Hb. apply (char_range_le 32 126 b Hb). lia. Qed.

Theorem is_dec_digit_spec : forall b, b < 256 -> is_dec_digit b = (Nat.leb 48 b && Nat.leb b 57).
Proof. intros b Hb. apply (char_range_le 48 57 b Hb). lia. Qed.

Theorem is_hex_digit_spec : forall b, b < 256 ->
  is_hex_digit b = ((Nat.leb 48 b && Nat.leb b 57) || (Nat.leb 97 b && Nat.leb b 102) || (Nat.leb 65 b && Nat.leb b 70)).
Proof.
  intros b Hb. rewrite <- (char_range_le 48 57 b), <- (char_range_le 97 102 b), <- (char_range_le 65 70 b) by lia.
  reflexivity.
Qed.

(* bytes >= 128 are negative chars and belong to no class *)
Corollary high_bytes_no_class : forall b, 128 <= b -> b < 256 ->
  is_printable b = false /\ is_dec_digit b = false /\ is_hex_digit b = false.
Proof.
  intros b Hlo Hhi.
  rewrite (is_printable_spec b Hhi), (is_dec_digit_spec b Hhi), (is_hex_digit_spec b Hhi), !range_out by lia.
  auto.
Qed.

Corollary dec_digit_is_hex_digit : forall b, b < 256 -> is_dec_digit b = true -> is_hex_digit b = true.
Proof.
  intros b Hb H. rewrite (is_dec_digit_spec b Hb) in H. rewrite (is_hex_digit_spec b Hb), H. reflexivity.
Qed.

Theorem char_name_spec : forall b, b < 256 ->
  char_name b = if Nat.ltb 32 b && Nat.ltb b 127 then [b; 0]
                else [92; 120; hex_digit_char (b / 16); hex_digit_char (b mod 16); 0].
Proof.
  intros b Hb. rewrite <- (char_range_lt 32 127 b Hb) by lia.
  unfold char_name, idx_to_char. rewrite (Nat.mod_small b 256 Hb). reflexivity.
Qed.

Lemma hex_digit_char_inj : forall d e, hex_digit_char d = hex_digit_char e -> d = e.
Proof. intros d e. unfold hex_digit_char. destruct (Nat.ltb_spec d 10), (Nat.ltb_spec e 10); lia. Qed.

Theorem char_name_injective : forall a b, a < 256 -> b < 256 -> char_name a = char_name b -> a = b.
Proof.
  intros a b Ha Hb. rewrite (char_name_spec a Ha), (char_name_spec b Hb).
  destruct (Nat.ltb 32 a && Nat.ltb a 127), (Nat.ltb 32 b && Nat.ltb b 127); intros H; try discriminate H.
  - injection H as H. exact H.
  - injection H as H1 H2. apply hex_digit_char_inj in H1, H2.
    rewrite (Nat.div_mod a 16), (Nat.div_mod b 16) by discriminate.
    f_equal; [f_equal; exact H1 | exact H2].
Qed.

Lemma hex_digit_char_not_nul : forall d, hex_digit_char d <> 0.
Proof. intros d. unfold hex_digit_char. destruct (Nat.ltb d 10); discriminate. Qed.

(* every name is a NUL-terminated string of at most name_size = 5 chars with no inner NUL *)
Lemma char_name_cstr : forall b, b < 256 ->
  exists s, nul_free s /\ char_name b = s ++ [0] /\ length s <= 4.
Proof.
  intros b Hb. rewrite (char_name_spec b Hb). destruct (Nat.ltb 32 b && Nat.ltb b 127) eqn:E.
  - exists [b]. apply andb_true_iff in E. destruct E as [E _]. apply Nat.ltb_lt in E.
    split; [repeat constructor; lia | split; [reflexivity | cbn [length]; lia]].
  - exists [92; 120; hex_digit_char (b / 16); hex_digit_char (b mod 16)].
    split; [repeat constructor; (discriminate || apply hex_digit_char_not_nul) | split; reflexivity].
Qed.

Theorem char_idx_roundtrip : forall b, b < 256 -> idx_to_char (char_to_idx b) = b /\ char_to_idx b = b.
Proof.
  intros b Hb. unfold idx_to_char, char_to_idx.
  rewrite (Nat.mod_small b 256 Hb). split; [apply Nat.mod_small; exact Hb | reflexivity].
Qed.

Definition hex_value (b : nat) : option nat :=
  if Nat.leb 48 b && Nat.leb b 57 then Some (b - 48)
  else if Nat.leb 97 b && Nat.leb b 102 then Some (b - 87)
  else if Nat.leb 65 b && Nat.leb b 70 then Some (b - 55)
  else None.

Lemma hex_value_cases : forall d v, hex_value d = Some v ->
  (48 <= d <= 57 /\ v = d - 48) \/ (97 <= d <= 102 /\ v = d - 87) \/ (65 <= d <= 70 /\ v = d - 55).
Proof.
  intros d v H. unfold hex_value in H.
  destruct (Nat.leb 48 d && Nat.leb d 57) eqn:E1; [apply range_iff in E1; injection H as <-; auto|].
  destruct (Nat.leb 97 d && Nat.leb d 102) eqn:E2; [apply range_iff in E2; injection H as <-; auto|].
  destruct (Nat.leb 65 d && Nat.leb d 70) eqn:E3; [apply range_iff in E3; injection H as <-; auto | discriminate].
Qed.

Lemma hex_value_is_hex_digit : forall b, b < 256 ->
  is_hex_digit b = match hex_value b with Some _ => true | None => false end.
Proof.
  intros b Hb. rewrite (is_hex_digit_spec b Hb). unfold hex_value.
  destruct (Nat.leb 48 b && Nat.leb b 57), (Nat.leb 97 b && Nat.leb b 102), (Nat.leb 65 b && Nat.leb b 70); reflexivity.
Qed.

(* dd on a byte below 128, in comparisons on the byte *)
Lemma hex_dd_spec : forall d, d < 128 ->
  hex_dd d = (if Nat.leb 65 d && Nat.leb d 70 then 10 + Z.of_nat d - 65
              else if Nat.leb 97 d && Nat.leb d 102 then 10 + Z.of_nat d - 97 else Z.of_nat d - 48)%Z.
Proof.
  intros d Hd. rewrite <- (char_range_le 65 70 d), <- (char_range_le 97 102 d), <- (char_val_small d Hd) by lia.
  reflexivity.
Qed.

(* dd(d) of a digit is its value: a small non-negative int, unchanged by the conversions to char and back *)
Lemma hex_dd_value : forall d v, hex_value d = Some v -> v < 16 /\ hex_dd d = Z.of_nat v.
Proof.
  intros d v H. pose proof (hex_value_cases d v H) as C. rewrite hex_dd_spec by lia.
  destruct C as [[R ->]|[[R ->]|[R ->]]].
  - rewrite !range_out by lia. lia.
  - rewrite (range_out 65 70), (range_in 97 102) by lia. lia.
  - rewrite (range_in 65 70) by lia. lia.
Qed.

Lemma to_char_byte_nat : forall n, n < 256 -> to_char_byte (Z.of_nat n) = n.
Proof. intros n Hn. unfold to_char_byte. rewrite Z.mod_small by lia. apply Nat2Z.id. Qed.

Theorem hex_digits_to_char_spec : forall d1 d2 v1 v2, hex_value d1 = Some v1 -> hex_value d2 = Some v2 ->
  hex_digits_to_char d1 d2 = 16 * v1 + v2.
Proof.
  intros d1 d2 v1 v2 H1 H2.
  destruct (hex_dd_value d1 v1 H1) as [B1 E1]. destruct (hex_dd_value d2 v2 H2) as [B2 E2].
  unfold hex_digits_to_char. rewrite E1, E2, !to_char_byte_nat, !char_val_small by lia.
  replace (Z.of_nat v1 * 16 + Z.of_nat v2)%Z with (Z.of_nat (16 * v1 + v2)) by lia.
  apply to_char_byte_nat. lia.
Qed.

Corollary hex_digits_to_char_byte : forall d1 d2 v1 v2, hex_value d1 = Some v1 -> hex_value d2 = Some v2 ->
  hex_digits_to_char d1 d2 < 256.
Proof.
  intros d1 d2 v1 v2 H1 H2. rewrite (hex_digits_to_char_spec d1 d2 v1 v2 H1 H2).
  pose proof (hex_dd_value d1 v1 H1). pose proof (hex_dd_value d2 v2 H2). lia.
Qed.

Print Assumptions str_equal_spec.
Print Assumptions find_char_spec.
Print Assumptions find_str_c_spec.
Print Assumptions char_name_injective.
Print Assumptions hex_digits_to_char_spec.
