(* C14: ownership of semantic values. With the id algebra every value created by the driver (a shifted term or the
   result of a functor call) is moved into at most one functor call, never used after the move, and at the end of the
   run sits in exactly one place: an argument list, the final value stack, or the values discarded by error recovery. *)
Require Import Ctpg.Base.Prelude Ctpg.Model.Grammar Ctpg.Model.LRGen Ctpg.Model.Driver Ctpg.Spec.Eval.
Require Import Ctpg.Proofs.DriverBasics Ctpg.Proofs.DriverIter Ctpg.Proofs.DriverPos.
Require Import Permutation.

Definition vid_eq_dec (x y : vid) : {x = y} + {x <> y}.
Proof. decide equality; apply Nat.eq_dec. Defined.

(* every error value has the one id [IdErr]: error values are not unique and stay out of the count *)
Definition non_err (v : vid) : bool := match v with IdErr => false | _ => true end.
Definition livef (l : list vid) : list vid := filter non_err l.
Definition call_args (c : nat * list vid * vid) : list vid := livef (snd (fst c)).
Definition call_res (c : nat * list vid * vid) : vid := snd c.
(* ids moved into a functor call so far, in call order; results of the calls *)
Definition consumed (lg : ledger) : list vid := flat_map call_args (lg_calls lg).
Definition results (lg : ledger) : list vid := map call_res (lg_calls lg).
Definition shift_ids (ev : list event) : list vid :=
  flat_map (fun e => match e with EvShift _ _ a _ => [IdLeaf a] | _ => [] end) ev.

Notation cnt := (count_occ vid_eq_dec).

Lemma livef_app a b : livef (a ++ b) = livef a ++ livef b.
Proof. apply filter_app. Qed.
Lemma cnt_livef_split n l x : cnt (livef l) x = cnt (livef (firstn n l)) x + cnt (livef (skipn n l)) x.
Proof. rewrite <- (firstn_skipn n l) at 1. now rewrite livef_app, count_occ_app. Qed.
Lemma cnt_livef_rev l x : cnt (livef (rev l)) x = cnt (livef l) x.
Proof.
  induction l as [|y l IH]; [reflexivity|]. cbn [rev]. rewrite livef_app, count_occ_app, IH.
  unfold livef. cbn [filter]. destruct (non_err y); cbn [filter count_occ]; try destruct (vid_eq_dec y x); lia.
Qed.
Lemma shift_ids_app a b : shift_ids (a ++ b) = shift_ids a ++ shift_ids b.
Proof. apply flat_map_app. Qed.
Lemma shift_ids_lex lx : shift_ids (map EvLex lx) = [].
Proof. induction lx; cbn; auto. Qed.
Lemma pop_lex lx : existsb is_pop_ev (map EvLex lx) = false.
Proof. induction lx; cbn; auto. Qed.

Lemma nodes_NoDup n : NoDup (map IdNode (seq 0 n)).
Proof. apply FinFun.Injective_map_NoDup; [|apply seq_NoDup]. intros a b Hab. now inversion Hab. Qed.

(* how often an id may occur among the leaves created before the cursor reached [it] *)
Definition leaf_below (it : nat) (x : vid) : nat := match x with IdLeaf a => if a <? it then 1 else 0 | _ => 0 end.

Lemma leaf_below_le i j x : i <= j -> leaf_below i x <= leaf_below j x.
Proof. intros H. destruct x as [a| |]; cbn [leaf_below]; try lia. destruct (Nat.ltb_spec a i), (Nat.ltb_spec a j); lia. Qed.

Section Linear.
  Variable g : grammar.
  Variable tbl : table.
  Variable opts : options.
  Variable buf : list nat.
  Variable cap : option nat.
  Variable lexer : bool -> spoint -> list nat -> list lex_event * option (nat * nat).
  Hypothesis lexer_ok : lexer_in_range lexer.
  (* a table shifting <eof> (a zero-length lexeme) or shifting on the error token creates the same leaf twice *)
  Hypothesis no_eof_shift : eof_err_not_shifted g tbl.

  Notation pst := (pstate vid ledger).
  Notation stepx := (step vid ledger g tbl opts buf cap lexer id_term_f id_err_f id_rule_f).
  Notation run_ghx := (run_gh vid ledger g tbl opts buf cap lexer id_term_f id_err_f id_rule_f).
  Notation poppedx := (popped vid ledger g tbl opts buf cap lexer id_term_f id_err_f id_rule_f).
  Notation popped_atx := (popped_at vid ledger g tbl opts buf cap lexer id_term_f id_err_f id_rule_f).
  Notation gspec := (gct_spec vid ledger g opts buf lexer).
  Notation pinv := (pos_inv vid ledger g tbl buf).

  Notation lexer_len := (in_range_len lexer lexer_ok).

  (* ghost: the leaf ids created, i.e. the shifts of the iterations that went on *)
  Definition leaves_at (s : pst) : list vid := match stepx s with (inl _, ev) => shift_ids ev | _ => [] end.
  Definition leaves (vis : list pst) : list vid := flat_map leaves_at vis.

  (* lv: leaves created so far; pp: live ids popped so far.  The second conjunct is the balance [run_linear] states;
     the third, every leaf id at most once and its start below the cursor, is what makes the leaf of the next shift fresh. *)
  Definition lin_inv (lv pp : list vid) (s : pst) : Prop :=
    results (ps_ctx s) = map IdNode (seq 0 (lg_next (ps_ctx s))) /\
    (forall x, cnt (results (ps_ctx s) ++ lv) x = cnt (consumed (ps_ctx s) ++ livef (ps_values s) ++ pp) x) /\
    (forall x, cnt lv x <= leaf_below (ps_it s) x).

  (* only the live values on the stack matter; the cursor may advance *)
  Lemma lin_inv_same lv pp (s s' : pst) :
    livef (ps_values s') = livef (ps_values s) -> ps_ctx s' = ps_ctx s -> ps_it s <= ps_it s' -> lin_inv lv pp s -> lin_inv lv pp s'.
  Proof.
    intros Hv Hc Hit (H1 & H2 & H3). unfold lin_inv. rewrite Hv, Hc. repeat split; auto.
    intros x. specialize (H3 x). pose proof (leaf_below_le _ _ x Hit). lia.
  Qed.

  Lemma gct_lin s s1 ot ev : gspec s (s1, ot, ev) ->
    shift_ids ev = [] /\ existsb is_pop_ev ev = false /\ ps_it s <= ps_it s1.
  Proof.
    intros H; inversion H; subst; simp_ps; rewrite ?shift_ids_app, ?existsb_app, ?shift_ids_lex, ?pop_lex; cbn; repeat split; lia.
  Qed.

  Lemma lc_lin (s1 : pst) : shift_ids (lc s1) = [] /\ existsb is_pop_ev (lc s1) = false.
  Proof. unfold lc. destruct (ps_cons s1); cbn; auto. Qed.

  (* a term that is really shifted has a non-empty lexeme *)
  Lemma gct_nonempty s s1 t ev : pinv s -> gspec s (s1, Some t, ev) -> ps_rec s1 = false ->
    t <> eof_idx g -> ps_it s1 < ps_end s1.
  Proof.
    intros [_ Hgap] H.
    inversion H as [Hr'|Hr' Hne| | |sp1 it1 c rest lx t' len Hr' He Hit1 Hsp1 Hsk Hlx]; subst; simp_ps; intros Hr Ht;
      try congruence.
    - destruct Hgap as [Hle|[Hterm _]]; [lia|]. congruence.
    - pose proof (lexer_ok _ _ _ _ len (f_equal snd Hlx)). lia.
  Qed.

  (* pop_stacks moves the top value, if it is live, from the stack to the popped ones *)
  Lemma lin_inv_pop lv pp (s s' : pst) :
    ps_values s' = tl (ps_values s) -> ps_ctx s' = ps_ctx s -> ps_it s' = ps_it s ->
    lin_inv lv pp s -> lin_inv lv (pp ++ livef (firstn 1 (ps_values s))) s'.
  Proof.
    intros Hv Hc Hit (Ha1 & Ha2 & Ha3). unfold lin_inv. rewrite Hv, Hc, Hit. repeat split; auto.
    intros x. specialize (Ha2 x). rewrite !count_occ_app in *.
    destruct (ps_values s) as [|v vs]; cbn [tl firstn]; [cbn in Ha2 |- *; lia|].
    change (v :: vs) with ([v] ++ vs) in Ha2. rewrite livef_app, count_occ_app in Ha2. lia.
  Qed.

  (* a shift creates the leaf named after the lexeme start; the cursor moves past it, so the name is fresh *)
  Lemma lin_inv_shift lv pp (s s' : pst) :
    ps_values s' = IdLeaf (ps_it s) :: ps_values s -> ps_ctx s' = ps_ctx s -> ps_it s < ps_it s' ->
    lin_inv lv pp s -> lin_inv (lv ++ [IdLeaf (ps_it s)]) pp s'.
  Proof.
    intros Hv Hc Hit (Ha1 & Ha2 & Ha3). unfold lin_inv. rewrite Hv, Hc. repeat split; auto.
    - intros x. specialize (Ha2 x). rewrite !count_occ_app in *. unfold livef in *. cbn [filter non_err count_occ].
      destruct (vid_eq_dec (IdLeaf (ps_it s)) x); lia.
    - intros x. specialize (Ha3 x). pose proof (leaf_below_le _ _ x (Nat.lt_le_incl _ _ Hit)).
      rewrite count_occ_app. cbn [count_occ]. destruct (vid_eq_dec (IdLeaf (ps_it s)) x) as [<-|]; [|lia].
      cbn [leaf_below] in *. rewrite Nat.ltb_irrefl in Ha3. rewrite (proj2 (Nat.ltb_lt _ _) Hit). lia.
  Qed.

  (* a reduction moves the top n values into a call and pushes the call's fresh result *)
  Lemma lin_inv_reduce lv pp (s s' : pst) n r :
    ps_values s' = IdNode (lg_next (ps_ctx s)) :: skipn n (ps_values s) ->
    ps_ctx s' = fst (id_rule_f r (ps_ctx s) (rev (firstn n (ps_values s)))) -> ps_it s' = ps_it s ->
    lin_inv lv pp s -> lin_inv lv pp s'.
  Proof.
    intros Hv Hc Hit (Ha1 & Ha2 & Ha3). unfold lin_inv. rewrite Hv, Hc, Hit.
    unfold results, consumed in *. cbn [id_rule_f fst lg_next lg_calls]. rewrite map_app, flat_map_app.
    cbn [map flat_map call_res call_args fst snd]. rewrite app_nil_r. repeat split; auto.
    - rewrite seq_S, map_app, Ha1. reflexivity.
    - intros x. specialize (Ha2 x). rewrite !count_occ_app in *.
      rewrite (cnt_livef_split n (ps_values s)) in Ha2. 
      change (call_args (r, rev (firstn n (ps_values s)), IdNode (lg_next (ps_ctx s)))) with (livef (rev (firstn n (ps_values s)))).
      rewrite cnt_livef_rev.
      unfold livef in *. cbn [filter non_err count_occ]. destruct (vid_eq_dec (IdNode (lg_next (ps_ctx s))) x); lia.
  Qed.

  Lemma step_lin lv pp s : pinv s -> lin_inv lv pp s ->
    match fst (stepx s) with inl s' | inr (_, s') => lin_inv (lv ++ leaves_at s) (pp ++ livef (popped_atx s)) s' end.
  Proof.
    intros Hpos Hinv. unfold leaves_at, popped_at. apply step_moves.
    - intros _. cbn. now rewrite !app_nil_r.
    - intros s1 ev1 _ _ Hg. pose proof (gct_lin _ _ _ _ Hg) as (_ & Hp & Hit). cbn [fst snd]. rewrite Hp. cbn. rewrite !app_nil_r.
      apply gct_stacks in Hg as (_ & Hv & Hc & _). eapply lin_inv_same; [rewrite Hv; reflexivity|eassumption..].
    - intros cursor cs s1 t ev1 m _ _ Hg Hd.
      pose proof (gct_lin _ _ _ _ Hg) as (Hs1 & Hp1 & Hit).
      pose proof (gct_term Hg) as Hterm.
      pose proof (gct_nonempty _ _ _ _ Hpos Hg) as Hne.
      pose proof (gct_pos _ _ g tbl opts buf lexer lexer_len (or_introl no_eof_shift) _ _ _ _ Hpos Hg) as (_ & _ & Hgap).
      specialize (Hgap ltac:(discriminate)). cbn [fst snd] in *.
      pose proof (gct_stacks Hg) as (_ & Hv & Hc & _).
      assert (H1 : lin_inv lv pp s1) by (eapply lin_inv_same; [rewrite Hv; reflexivity|eassumption..]).
      rewrite shift_ids_app, existsb_app, Hs1, Hp1, <- Hv. cbn [app orb]. clear Hinv Hg Hs1 Hp1 Hit Hv Hc Hpos.
      destruct (lc_lin s1) as [Hlc1 Hlc2].
      assert (Hrr : forall rr, shift_ids (rr_line rr s1) = [] /\ existsb is_pop_ev (rr_line rr s1) = false) by (intros []; auto).
      destruct Hd; cbn [perform fst snd]; unfold shift_line;
        rewrite ?shift_ids_app, ?existsb_app, ?Hlc1, ?Hlc2, ?(proj1 (Hrr _)), ?(proj2 (Hrr _)); cbn; rewrite ?app_nil_r;
        try (eapply lin_inv_same; [..|exact H1]; simp_mv; auto; fail).
      + (* discard the pending term *)
        eapply lin_inv_same; [..|exact H1]; simp_ps; auto. destruct Hgap as [Hle|[Hterm' _]]; [lia|contradiction].
      + eapply lin_inv_pop; [..|exact H1]; simp_mv; reflexivity.
      + eapply lin_inv_pop; [..|exact H1]; simp_mv; reflexivity.
      + (* shift *)
        assert (Hrec : ps_rec s1 = false /\ t <> eof_idx g).
        { destruct no_eof_shift as [Hn1 Hn2]. destruct Hterm as [[_ ->]|[Hr _]]; [exfalso; eapply Hn2; eauto|].
          split; [assumption|]. intros ->. eapply Hn1; eauto. }
        destruct Hrec as [Hrec Hteof]. specialize (Hne Hrec Hteof).
        eapply lin_inv_shift; [..|exact H1]; simp_mv; auto.
      + (* reduce *)
        eapply (lin_inv_reduce _ _ _ _ (ri_n ri) (ri_r ri)); [..|exact H1]; simp_mv; reflexivity.
  Qed.

  Lemma leaves_snoc vis s : leaves (vis ++ [s]) = leaves vis ++ leaves_at s.
  Proof. apply flat_map_snoc. Qed.
  Lemma popped_snoc vis s : livef (poppedx (vis ++ [s])) = livef (poppedx vis) ++ livef (popped_atx s).
  Proof. unfold popped. now rewrite flat_map_snoc, livef_app. Qed.

  Lemma run_lin_inv fuel :
    let '(_, s, _, vis) := run_ghx fuel (init ledger0) [] [] in
    lin_inv (leaves vis) (livef (poppedx vis)) s.
  Proof.
    apply (run_gh_inv vid ledger g tbl opts buf cap lexer id_term_f id_err_f id_rule_f
             (fun vis s => pinv s /\ lin_inv (leaves vis) (livef (poppedx vis)) s)
             (fun vis _ s => lin_inv (leaves vis) (livef (poppedx vis)) s)).
    - intros vis s [_ Hs]. exact Hs.
    - intros vis s [Hp Hl]. rewrite leaves_snoc, popped_snoc.
      pose proof (step_pos _ _ g tbl opts buf cap lexer id_term_f id_err_f id_rule_f lexer_len (or_introl no_eof_shift) s Hp) as [_ Hp'].
      pose proof (step_lin _ _ s Hp Hl) as Hl'.
      destruct (fst (stepx s)) as [s'|[r s']]; auto.
    - split; [apply pos_inv_init|]. unfold lin_inv. cbn. repeat split; auto; lia.
  Qed.

  (* C14, at every reachable state (the final state of the run for the given fuel):
     - the results of the functor calls are IdNode 0 .. IdNode (lg_next-1), one call each;
     - leak-freedom: the ids created (those results, and a leaf per shift) are, as a multiset, exactly the ids moved
       into calls + the ids on the value stack + the ids removed by pop_stacks;
     - that multiset has no duplicates: nothing is consumed twice, nothing consumed or popped is still on the stack. *)
  Theorem run_linear fuel :
    let '(_, s, _, vis) := run_ghx fuel (init ledger0) [] [] in
    let lg := ps_ctx s in
    results lg = map IdNode (seq 0 (lg_next lg)) /\
    Permutation (results lg ++ leaves vis) (consumed lg ++ livef (ps_values s) ++ livef (poppedx vis)) /\
    NoDup (results lg ++ leaves vis) /\
    NoDup (consumed lg ++ livef (ps_values s) ++ livef (poppedx vis)) /\
    (forall k, In (IdNode k) (consumed lg ++ livef (ps_values s) ++ livef (poppedx vis)) -> k < lg_next lg).
  Proof.
    pose proof (run_lin_inv fuel) as H. destruct (run_ghx fuel (init ledger0) [] []) as [[[r s] out] vis].
    destruct H as (H1 & H2 & H3). cbn zeta.
    assert (Hperm : Permutation (results (ps_ctx s) ++ leaves vis)
                      (consumed (ps_ctx s) ++ livef (ps_values s) ++ livef (poppedx vis))).
    { apply (Permutation_count_occ vid_eq_dec). exact H2. }
    assert (Hnd : NoDup (results (ps_ctx s) ++ leaves vis)).
    { apply (NoDup_count_occ vid_eq_dec). intros x. specialize (H3 x). rewrite count_occ_app, H1.
      pose proof (proj1 (NoDup_count_occ vid_eq_dec _) (nodes_NoDup (lg_next (ps_ctx s))) x).
      destruct x as [a| |]; cbn [leaf_below] in H3; try lia.
      rewrite (proj1 (count_occ_not_In vid_eq_dec _ _)); [destruct (a <? ps_it s); lia|].
      intros (k & Heq & _)%in_map_iff. discriminate. }
    repeat split; auto.
    - eapply Permutation_NoDup; eassumption.
    - intros k Hk. apply (Permutation_in _ (Permutation_sym Hperm)) in Hk. apply in_app_or in Hk as [Hk|Hk].
      + rewrite H1 in Hk. apply in_map_iff in Hk as (k' & Heq & Hin). inversion Heq; subst. apply in_seq in Hin. lia.
      + apply (count_occ_In vid_eq_dec) in Hk. specialize (H3 (IdNode k)). cbn in H3. lia.
  Qed.

  (* the itemised reading of the NoDup part *)
  Corollary run_linear_items fuel :
    let '(_, s, _, vis) := run_ghx fuel (init ledger0) [] [] in
    let lg := ps_ctx s in
    (* the live values on the stack are pairwise distinct *)
    NoDup (livef (ps_values s)) /\
    (* no live value was moved into an earlier call, none was popped *)
    (forall v, In v (livef (ps_values s)) -> ~ In v (consumed lg) /\ ~ In v (livef (poppedx vis))) /\
    (* no popped value had been, or is later, moved into a call *)
    (forall v, In v (livef (poppedx vis)) -> ~ In v (consumed lg)) /\
    (* each call's argument list is duplicate-free; the lists of two different calls are disjoint *)
    (forall c, In c (lg_calls lg) -> NoDup (call_args c)) /\
    (forall l1 c1 l2 c2 l3, lg_calls lg = l1 ++ c1 :: l2 ++ c2 :: l3 ->
        forall v, In v (call_args c1) -> ~ In v (call_args c2)) /\
    (* every node id around is the result of exactly one call *)
    (forall k, In (IdNode k) (consumed lg ++ livef (ps_values s) ++ livef (poppedx vis)) ->
        k < lg_next lg /\ cnt (results lg) (IdNode k) = 1).
  Proof.
    pose proof (run_linear fuel) as H. destruct (run_ghx fuel (init ledger0) [] []) as [[[r s] out] vis].
    cbn zeta in *. destruct H as (H1 & _ & _ & H4 & H5).
    (* in counts: every id occurs at most once in consumed ++ live ++ popped *)
    rewrite (NoDup_count_occ vid_eq_dec) in H4.
    assert (Hc : forall x, cnt (consumed (ps_ctx s)) x + cnt (livef (ps_values s)) x + cnt (livef (poppedx vis)) x <= 1).
    { intros x. specialize (H4 x). rewrite !count_occ_app in H4. lia. }
    assert (Hcalls : forall l1 c l2 x, lg_calls (ps_ctx s) = l1 ++ c :: l2 ->
               cnt (consumed (ps_ctx s)) x = cnt (flat_map call_args l1) x + cnt (call_args c) x + cnt (flat_map call_args l2) x).
    { intros l1 c l2 x E. unfold consumed. rewrite E, flat_map_app. cbn [flat_map]. rewrite !count_occ_app. lia. }
    clear H4. repeat split.
    - apply (NoDup_count_occ vid_eq_dec). intros x. specialize (Hc x). lia.
    - intros Hin. rewrite (count_occ_In vid_eq_dec) in H, Hin. specialize (Hc v). lia.
    - intros Hin. rewrite (count_occ_In vid_eq_dec) in H, Hin. specialize (Hc v). lia.
    - intros v Hv Hin. rewrite (count_occ_In vid_eq_dec) in Hv, Hin. specialize (Hc v). lia.
    - intros c Hin. apply in_split in Hin as (l1 & l2 & E). apply (NoDup_count_occ vid_eq_dec). intros x.
      specialize (Hc x). rewrite (Hcalls _ _ _ x E) in Hc. lia.
    - intros l1 c1 l2 c2 l3 E v Hv Hin. rewrite (count_occ_In vid_eq_dec) in Hv, Hin. specialize (Hc v).
      rewrite (Hcalls _ _ _ v E), flat_map_app in Hc. cbn [flat_map] in Hc. rewrite !count_occ_app in Hc. lia.
    - apply H5. assumption.
    - rewrite H1. apply (NoDup_count_occ' vid_eq_dec); [apply nodes_NoDup|]. apply in_map, in_seq. specialize (H5 k H). lia.
  Qed.
End Linear.

(* the hypothesis on the table cannot be dropped: a table that shifts <eof> (zero-length lexeme, the cursor does not
   move) creates the leaf with id [IdLeaf start] again and again *)
Module EofShiftCounterexample.
  Definition g := mkG 3 0 0 1 [] [] [] [] [] [] [] [].
  Definition sh := mkE KShift (Some 0) false.
  Definition er := mkE KError None false.
  Definition tbl : table := [[er; sh; er]].
  Definition lexer (v : bool) (p : spoint) (rest : list nat) : list lex_event * option (nat * nat) := ([], Some (0, 1)).
  Definition o := mkOpt true true true.
  Example duplicate_ids :
    let '(_, s, _) := run vid ledger g tbl o [] None lexer id_term_f id_err_f id_rule_f 3 ledger0 in
    ps_values s = [IdLeaf 0; IdLeaf 0; IdLeaf 0].
  Proof. vm_compute. reflexivity. Qed.
End EofShiftCounterexample.
