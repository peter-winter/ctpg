(* The validator for resolved tables is conservative over the full LR(1) validator: a table without conflicts that
   passes [validate] passes [validate_resolved]. (The converse fails exactly on tables with resolved conflicts, see
   Proofs/GroupingExamples.v.) *)
Require Import Ctpg.Base.Prelude Ctpg.Proofs.ListFacts Ctpg.Model.Grammar Ctpg.Model.LRGen Ctpg.Spec.Conflict
               Ctpg.Valid.LRValid Ctpg.Valid.LRResolved Ctpg.Proofs.LRValidFacts Ctpg.Proofs.LRComplete
               Ctpg.Proofs.GroupingFacts.

Section Conservative.
  Variable g : grammar.
  Variable sts : list items.
  Variable tbl : table.
  Variable ne : bset.
  Variable nf : list bset.
  Hypothesis CF : complete_facts g sts tbl ne nf.

  Notation items_of := (state_items sts).

  (* with [complete_facts] every completed item has its reduce cell (Hred) and every item before a terminal its
     goto (Hsh): three clauses of [cell_spec] follow, and the shift/reduce clause has no instance *)
  Lemma conservative_cell s t : s < length sts -> cell_spec g sts tbl s t.
  Proof.
    intros Hs. unfold cell_spec.
    assert (forall i, In i (red_items g sts s t) -> is_reduce g tbl s t (it_r i)) as Hred.
    { intros i Hi. apply in_red_items in Hi. destruct Hi as (Hi & Hc & Hnr & Ht).
      destruct (cf_reduce _ _ _ _ _ CF s i Hs Hi Hc) as [_ H]. specialize (H Hnr). rewrite Ht in H. exact H. }
    assert (forall l, (forall j, In j l -> In j (sh_items g sts s t)) -> l <> [] -> has_target g sts tbl s (T t) l) as Hsh.
    { intros l Hl Hne. destruct l as [|j0 l0]; [contradiction Hne; reflexivity|].
      assert (forall j, In j (j0 :: l0) -> exists s', goto_target g tbl s (T t) = Some s' /\ s' < length sts /\
                                                      In (advance j) (items_of s')) as Hj.
      { intros j Hin. apply Hl in Hin. apply in_sh_items in Hin. destruct Hin as (Hi & Hc & Hn).
        destruct (cf_goto _ _ _ _ _ CF s j Hs Hi Hc) as (x & s' & Hx & Hg & Hlt & Hin).
        assert (x = T t) by congruence. subst x. exists s'. auto. }
      destruct (Hj j0 (or_introl eq_refl)) as (s' & Hg & Hlt & _).
      exists s'. split; [assumption|]. split; [assumption|].
      intros j Hin. destruct (Hj j Hin) as (s1 & Hg1 & _ & H1). assert (s1 = s') by congruence. subst s1. assumption. }
    split; [|split; [|split]].
    - intros i j Hi Hj. destruct (Hred i Hi) as [_ A]. destruct (Hred j Hj) as [_ B]. congruence.
    - intros _ Hne. apply Hsh; [auto|assumption].
    - intros i Hi _. apply Hred. assumption.
    - (* shift/reduce cannot happen in a table that passes the full check *)
      intros i Hi Hne. destruct (Hsh _ (fun j H => H) Hne) as (s' & Hg & _).
      destruct (goto_target_not_reduce _ _ _ _ _ _ Hg (Hred i Hi)).
  Qed.
End Conservative.

Theorem table_ok_resolved_ok g sts tbl ne nf : table_ok g sts tbl ne nf = true -> resolved_ok g sts tbl ne nf = true.
Proof.
  intros H. pose proof (complete_facts_of _ _ _ _ _ H) as CF.
  unfold table_ok in H. apply andb_true_iff in H. destruct H as [H Hst].
  unfold resolved_ok. rewrite H. cbn [andb]. rewrite forallb_seq0 in Hst |- *.
  intros s Hs. specialize (Hst s Hs). apply andb_true_iff in Hst. destruct Hst as [Hst Hred].
  apply andb_true_iff in Hst. destruct Hst as [Hcl Hgo].
  unfold state_resolved. rewrite Hcl. cbn [andb]. apply andb_true_iff. split; [apply andb_true_iff; split|].
  - (* nonterminal columns *)
    unfold nt_goto_ok. unfold goto_ok in Hgo. rewrite forallb_forall in Hgo |- *. intros i Hi. specialize (Hgo i Hi).
    destruct (is_complete g i); [reflexivity|]. destruct (next_sym g i) as [[t|b]|]; try reflexivity.
    unfold target_has. destruct (goto_target g tbl s (NT b)) as [s'|]; [|discriminate].
    cbn [forallb]. rewrite andb_true_r. exact Hgo.
  - (* accept *)
    unfold accept_ok. unfold reduce_ok in Hred. rewrite forallb_forall in Hred |- *. intros i Hi. specialize (Hred i Hi).
    destruct (is_complete g i); [|reflexivity]. cbn [andb]. destruct (Nat.eqb (it_r i) (root_rule_idx g)); [|reflexivity].
    exact Hred.
  - rewrite forallb_seq0. intros t Ht. apply cell_resolved_iff. apply conservative_cell with (ne := ne) (nf := nf); assumption.
Qed.

Theorem validate_implies_resolved g sts tbl : validate g sts tbl = true -> validate_resolved g sts tbl = true.
Proof. exact (table_ok_resolved_ok g sts tbl _ _). Qed.

Print Assumptions validate_implies_resolved.
