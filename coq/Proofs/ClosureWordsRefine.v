(* Word-level twins of make_right_side_slice_first / make_right_side_slice_empty and of the direct closure children of
   an LR(1) item (Model/LRGen.v: slice_first, slice_empty, closure_children), on cbitset objects (checked test()),
   and their refinement theorems, for every grammar: given word tables related to the abstract nullable / FIRST tables
   by the invariant [good] of Proofs/LRGenWordsRefine.v, the twins never throw and return exactly the abstract results. *)
From Ctpg Require Import Base.Prelude Proofs.ListFacts Model.Grammar Model.LRGen Model.Containers Model.LRGenWords
                         Proofs.ContainersBits Proofs.LRGenWordsRefine.
From Coq Require Import NArith Lia List Bool.
Import ListNotations.

Definition w_slice_first (g : grammar) (ne : cbitset) (nf : list cbitset) (ri : rule_info) (start : nat)
  : res cbitset :=
  w_first_of_syms g ne nf (w_empty_terms g) (skipn start (firstn (ri_n ri) (get_rhs g (ri_r ri)))).

Definition w_slice_empty (g : grammar) (ne : cbitset) (ri : rule_info) (start : nat) : res bool :=
  w_all_nullable ne (skipn start (firstn (ri_n ri) (get_rhs g (ri_r ri)))).

(* monadic flat_map: the for-loop over t, stops at the first Throw / Undef *)
Fixpoint w_flat_map {A B} (f : A -> res (list B)) (l : list A) : res (list B) :=
  match l with
  | [] => Ok []
  | x :: t => do y <- f x ;; do r <- w_flat_map f t ;; Ok (y ++ r)
  end.

(* `after_empty && !first.test(info.t)` short-circuits, as in the C++ *)
Definition w_closure_children (g : grammar) (ne : cbitset) (nf : list cbitset) (i : item) : res (list item) :=
  let ri := get_ri g (it_r i) in
  if Nat.leb (ri_n ri) (it_d i) then Ok [] else
  match nth_error (get_rhs g (ri_r ri)) (it_d i) with
  | Some (NT nt) =>
      do after_empty <- w_slice_empty g ne ri (S (it_d i)) ;;
      do first <- w_slice_first g ne nf ri (S (it_d i)) ;;
      let '(st, n) := nth nt (slices g) (0, 0) in
      do l <- w_flat_map (fun t => do b <- cb_test first (N.of_nat t) ;;
                                   Ok (if b then map (fun k => mkItem (st + k) 0 t) (seq 0 n) else []))
                         (seq 0 (term_count g)) ;;
      do c <- (if after_empty then do b <- cb_test first (N.of_nat (it_t i)) ;; Ok (negb b) else Ok false) ;;
      Ok (l ++ (if c then map (fun k => mkItem (st + k) 0 (it_t i)) (seq 0 n) else []))
  | _ => Ok []
  end.


Lemma w_flat_map_ok : forall A B (f : A -> res (list B)) (h : A -> list B) l,
  (forall x, In x l -> f x = Ok (h x)) -> w_flat_map f l = Ok (flat_map h l).
Proof.
  intros A B f h l. induction l as [| x l IH]; intros Hf.
  - reflexivity.
  - cbn [w_flat_map flat_map]. rewrite (Hf x (or_introl eq_refl)). cbn [rbind].
    rewrite IH by (intros y Hy; apply Hf; right; exact Hy). reflexivity.
Qed.

Section Refine.
Variable g : grammar.
Variables (ne_w : cbitset) (nf_w : list cbitset) (ne : bset) (nf : list bset).
Hypothesis Hne_n : cb_n ne_w = N.of_nat (nterm_count g).
Hypothesis Hne_abs : cb_abs ne_w = ne.
Hypothesis Hnf_good : Forall (good g) nf_w.
Hypothesis Hnf_abs : map cb_abs nf_w = nf.

Theorem w_slice_first_refines : forall ri start, ri_ok g ri ->
  exists b, w_slice_first g ne_w nf_w ri start = Ok b /\ good g b /\ cb_abs b = slice_first g ne nf ri start.
Proof.
  intros ri start [_ Hsy]. unfold w_slice_first, slice_first.
  rewrite <- Hne_abs, <- Hnf_abs, <- (abs_dflt g).
  apply w_first_of_syms_ok; [exact Hne_n | exact Hnf_good | apply good_dflt | apply Forall_skipn; exact Hsy].
Qed.

Theorem w_slice_empty_refines : forall ri start, ri_ok g ri ->
  w_slice_empty g ne_w ri start = Ok (slice_empty g ne ri start).
Proof.
  intros ri start [_ Hsy]. unfold w_slice_empty, slice_empty. rewrite <- Hne_abs.
  apply (w_all_nullable_ok g); [exact Hne_n | apply Forall_skipn; exact Hsy].
Qed.

Theorem w_closure_children_refines : forall i, ri_ok g (get_ri g (it_r i)) -> it_t i < term_count g ->
  w_closure_children g ne_w nf_w i = Ok (closure_children g ne nf i).
Proof.
  intros i Hri Ht. unfold w_closure_children, closure_children. cbv zeta.
  destruct (Nat.leb (ri_n (get_ri g (it_r i))) (it_d i)); [reflexivity |].
  destruct (nth_error (get_rhs g (ri_r (get_ri g (it_r i)))) (it_d i)) as [[t | nt] |]; try reflexivity.
  rewrite (w_slice_empty_refines _ (S (it_d i)) Hri). cbn [rbind].
  destruct (w_slice_first_refines _ (S (it_d i)) Hri) as (first & Hf & (_ & _ & Hfn) & Hfa).
  rewrite Hf. cbn [rbind]. rewrite <- Hfa.
  destruct (nth nt (slices g) (0, 0)) as [st n].
  rewrite (w_flat_map_ok _ _ _
             (fun t => if bset_test (cb_abs first) t then map (fun k => mkItem (st + k) 0 t) (seq 0 n) else [])).
  - cbn [rbind].
    destruct (slice_empty g ne (get_ri g (it_r i)) (S (it_d i))); cbn [andb].
    + rewrite (cb_test_nat first _ _ Hfn Ht). cbn [rbind]. reflexivity.
    + cbn [rbind]. reflexivity.
  - intros t Hin. apply in_seq in Hin. rewrite (cb_test_nat first t _ Hfn) by lia. reflexivity.
Qed.

(* for a grammar in range no hypothesis on the rule index is needed: get_ri of an out-of-range index is
   dummy_ri = mkRI 0 0 0, which has no elements, so both levels return [] before any table access *)
Corollary w_closure_children_refines_in_range : syms_in_range g -> forall i, it_t i < term_count g ->
  w_closure_children g ne_w nf_w i = Ok (closure_children g ne nf i).
Proof.
  intros Hr i Ht. destruct (Nat.lt_ge_cases (it_r i) (length (rule_infos g))) as [Hlt | Hge].
  - apply w_closure_children_refines; [| exact Ht].
    unfold get_ri. unfold syms_in_range in Hr. rewrite Forall_forall in Hr. apply Hr. apply nth_In. exact Hlt.
  - unfold w_closure_children, closure_children, get_ri. rewrite (nth_overflow _ _ Hge). reflexivity.
Qed.
End Refine.

(* the three cases of closure_children on LRGenWordsRefine.ex_g *)
Definition ex_children (i : item) : res (list item) :=
  do ne <- w_nterm_empty ex_g ;; do nf <- w_nterm_first ex_g ne ;; w_closure_children ex_g ne nf i.
Definition ex_children_abs (i : item) : list item :=
  closure_children ex_g (nterm_empty ex_g) (nterm_first ex_g (nterm_empty ex_g)) i.

(* rule_infos ex_g = [S -> A B c; A -> a A; A -> ; B -> b; B -> ; ## -> S], slices = [(0,1); (1,2); (3,2); (5,1)].
   [S -> . A B c, eof]: FIRST(B c) = {b, c}, not nullable: the two A rules with lookaheads b and c;
   [## -> . S, eof]: the rest is empty, so the item's own lookahead is propagated (the after_empty branch);
   [S -> A . B c, eof]: FIRST(c) = {c}: the two B rules with lookahead c. *)
Example ex_closure_children :
  ex_children (mkItem 0 0 3) = Ok (ex_children_abs (mkItem 0 0 3)) /\
  ex_children_abs (mkItem 0 0 3) = [mkItem 1 0 1; mkItem 2 0 1; mkItem 1 0 2; mkItem 2 0 2] /\
  ex_children (mkItem 5 0 3) = Ok (ex_children_abs (mkItem 5 0 3)) /\
  ex_children_abs (mkItem 5 0 3) = [mkItem 0 0 3] /\
  ex_children (mkItem 0 1 3) = Ok (ex_children_abs (mkItem 0 1 3)) /\
  ex_children_abs (mkItem 0 1 3) = [mkItem 3 0 2; mkItem 4 0 2].
Proof. vm_compute. repeat split. Qed.

(* the hypothesis on the lookahead is needed: with an out-of-range lookahead and a nullable rest the words throw *)
Example ex_lookahead_out_of_range_throws :
  ex_children (mkItem 5 0 7) = Throw /\ ex_children_abs (mkItem 5 0 7) = [mkItem 0 0 7].
Proof. vm_compute. repeat split. Qed.

Print Assumptions w_slice_first_refines.
Print Assumptions w_slice_empty_refines.
Print Assumptions w_closure_children_refines_in_range.
Print Assumptions w_closure_children_refines.
