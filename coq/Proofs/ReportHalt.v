(* C09: with the additional check [closure_generated] on the item sets (Proofs/ReportViable.v) a run never
   crashes, so every run of the tree instance ends in Accept (of a derivation tree of the input), Reject (the input
   is no sentence) or OutOfFuel; hence
       (the run halts) -> ((exists fuel, Reject) <-> ~ derives).
   That the run halts on a non-sentence as well is proved in Proofs/TermAll.v ([tree_run_halts]). *)
Require Import Ctpg.Base.Prelude Ctpg.Proofs.ListFacts Ctpg.Model.Grammar Ctpg.Model.LRGen Ctpg.Model.Driver
               Ctpg.Spec.Cfg Ctpg.Spec.LRSpec Ctpg.Valid.LRValid Ctpg.Proofs.LRMachine Ctpg.Proofs.LRValidFacts
               Ctpg.Proofs.LRSound Ctpg.Proofs.LRComplete Ctpg.Proofs.DriverBasics Ctpg.Proofs.ReportLang
               Ctpg.Proofs.ReportViable.

Section Progress.
  Variable g : grammar.
  Variable sts : list items.
  Variable tbl : table.
  Variable ne : bset.                                (* the nullable set *)
  Variable nf : list bset.                           (* the FIRST sets *)
  Hypothesis CF : complete_facts g sts tbl ne nf.
  Hypothesis Hgen : closure_generated g sts.
  Variable w : list nat.

  Let SF : sound_facts g sts tbl := cf_sound _ _ _ _ _ CF.

  (* the machine fails on error cells only *)
  Lemma progress c : SInv g sts w c -> mstep g tbl c = Fail -> err_cell g tbl c.
  Proof.
    destruct c as [[ss trs] rest]. intros (syms & Hst & Hv & Hy & Hr). unfold mstep, err_cell.
    destruct ss as [|cur ss]; [inversion Hst|].
    destruct (top_cell g sts tbl SF _ _ _ _ Hst Hr) as (Hcur & Ec & Hcj). rewrite Ec.
    pose proof (look_lt g sts tbl SF _ Hr) as Hla. pose proof (Forall2_length _ _ _ Hv) as Hlen.
    destruct (e_kind (cell_at tbl cur (nterm_count g + look g rest))) eqn:Ek; try discriminate.
    - intros _. exists cur, ss, (cell_at tbl cur (nterm_count g + look g rest)). auto.
    - (* success: the stack holds the root's tree *)
      destruct (success_cell g sts tbl SF _ _ _ _ Hst Hla Ek) as (_ & _ & x & -> & _).
      destruct trs as [|v [|? ?]]; discriminate.
    - (* shift *)
      destruct (cj_shift _ _ _ _ _ Hcj (or_introl Ek)) as (s' & -> & _). discriminate.
    - (* reduce *)
      destruct (LRSound.reduce_cell g sts tbl SF _ _ _ _ Hst Hla Ek)
        as (r & -> & Hrlt & Hrnr & Hnle & i & top & below & _ & _ & _ & _ & Esk & Htop & Hin0 & _).
      destruct (sf_ri _ _ _ SF r Hrlt) as (_ & Hrl & _).
      unfold mreduce. rewrite (nth_error_get_ri _ _ _ SF r Hrlt). cbv zeta. rewrite Esk.
      pose proof (stk_len _ _ _ _ Hst) as Hsl.
      destruct (Nat.ltb (length (cur :: ss)) (ri_n (get_ri g r))) eqn:El; [apply Nat.ltb_lt in El; lia|].
      rewrite (cell_in_range g sts tbl SF top _ Htop) by (unfold symbol_count; lia).
      (* the goto cell carries a target: the dot-0 item was put into [top] by closure *)
      assert (Hgoto : exists nst, e_arg (cell_at tbl top (ri_l (get_ri g r))) = Some nst).
      { apply In_nth_error in Hin0. destruct Hin0 as [j Hj].
        destruct (Hgen top j _ Hj eq_refl) as [[_ E]|(k & ik & _ & Hik & Hnx)].
        - exfalso. apply Hrnr. unfold root_item in E. inversion E. congruence.
        - destruct (PatternCompleteLR.goto_next (proj1 (complete_facts_x g sts tbl ne nf) CF) top ik _ Htop
                      (nth_error_In _ _ Hik) Hnx) as (s' & Hg & _).
          apply goto_NT in Hg. eauto. }
      destruct Hgoto as [nst ->].
      destruct (Nat.ltb (length trs) (ri_n (get_ri g r))) eqn:El2; [apply Nat.ltb_lt in El2; lia|]. discriminate.
  Qed.
End Progress.

Section NoCrash.
  Variable g : grammar.
  Variable sts : list items.
  Variable tbl : table.
  Variable w : list nat.
  Hypothesis Hval : validate g sts tbl = true.
  Hypothesis Hgen : closure_generated g sts.
  Hypothesis Hne : no_error_symbol g tbl = true.
  Hypothesis Hw : tokens_ok g w.

  Let CF : complete_facts g sts tbl (nterm_empty g) (nterm_first g (nterm_empty g)) := complete_facts_of _ _ _ _ _ Hval.
  Let SF : sound_facts g sts tbl := cf_sound _ _ _ _ _ CF.

  Definition clean (r : result tree) : Prop := match r with Crash _ | Throw => False | _ => True end.

  (* a run never crashes *)
  Theorem no_crash fuel : clean (tree_run g tbl w fuel).
  Proof.
    destruct (tree_run_fin g sts tbl w SF Hne Hw fuel) as [_ H].
    (* a crash or Throw would come from a reachable configuration that fails on a cell that is no error cell *)
    assert (K : forall c0, reach g tbl w c0 -> mstep g tbl c0 = Fail -> err_cell g tbl c0).
    { intros c0 Hr. exact (progress g sts tbl _ _ CF Hgen w c0 (reach_SInv g sts tbl w SF Hw _ Hr)). }
    destruct (tree_run g tbl w fuel); try exact I; destruct H as (c0 & Hr & Hf & Hn); exact (Hn (K c0 Hr Hf)).
  Qed.

  (* the three outcomes of a run, each with its meaning *)
  Theorem tree_run_outcomes fuel :
    (exists t, tree_run g tbl w fuel = Accept t /\ derives_tree g t w) \/
    (tree_run g tbl w fuel = Reject /\ ~ derives g w) \/
    tree_run g tbl w fuel = OutOfFuel.
  Proof.
    pose proof (no_crash fuel) as Hc.
    destruct (tree_run g tbl w fuel) as [t| |c| |] eqn:E; try contradiction; auto.
    - left. exists t. split; [reflexivity|].
      apply (lr_sound g sts tbl w t (validate_validate_sound _ _ _ Hval) Hne Hw). exists fuel. exact E.
    - right. left. split; [reflexivity|]. exact (reject_not_derivable g sts tbl w Hval Hw fuel E).
  Qed.

  (* on a non-sentence every run is rejected or out of fuel *)
  Corollary not_derivable_each_fuel : ~ derives g w ->
    forall fuel, tree_run g tbl w fuel = Reject \/ tree_run g tbl w fuel = OutOfFuel.
  Proof.
    intros Hnd fuel. destruct (tree_run_outcomes fuel) as [(t & _ & Hd)|[[Hr _]|Ho]]; auto.
    exfalso. apply Hnd. exists t. exact Hd.
  Qed.

  (* the equivalence for runs that halt *)
  Theorem reject_iff_not_in_language_halting :
    (exists fuel, tree_run g tbl w fuel <> OutOfFuel) ->
    ((exists fuel, tree_run g tbl w fuel = Reject) <-> ~ derives g w).
  Proof.
    intros [fuel Hh]. split.
    - intros [f Hr]. exact (reject_not_derivable g sts tbl w Hval Hw f Hr).
    - intros Hnd. destruct (not_derivable_each_fuel Hnd fuel) as [Hr|Ho]; [eauto|contradiction].
  Qed.
End NoCrash.

Print Assumptions no_crash.
Print Assumptions tree_run_outcomes.
Print Assumptions reject_iff_not_in_language_halting.
Print Assumptions not_derivable_each_fuel.
