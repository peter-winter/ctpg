(* Link between the LR driver mirror's stacks (Model/Driver.v: Coq lists, TOP AT THE HEAD, push = cons, reduce = skipn n,
   capacity test `full n = Nat.leb cap n` before every push) and the word-level mirror of stdex::cvector<T,N>
   (Model/Containers.v).  Driver.v is not imported (its `result` type also has a constructor `Throw`): drv_full repeats
   the body of Driver.full for `stack_cap = Some cap`, and no Coq statement ties the two; that they agree is seen by
   reading Model/Driver.v. *)
From Ctpg Require Import Proofs.ListFacts Model.Containers Proofs.ContainersVec.
From Coq Require Import NArith ZArith Lia List.
Import ListNotations.

Definition drv_full (cap n : nat) : bool := Nat.leb cap n.

(* l has the top at the head; cv_abs lists the elements bottom-first *)
Definition stack_rel {A} (c : cvector A) (l : list A) : Prop := cv_wf c /\ cv_abs c = rev l.

Lemma firstn_rev_skipn : forall A (l : list A) n, firstn (length l - n) (rev l) = rev (skipn n l).
Proof.
  intros A l n. rewrite firstn_rev.
  destruct (Nat.le_gt_cases n (length l)) as [H|H].
  - replace (length l - (length l - n)) with n by lia. reflexivity.
  - replace (length l - (length l - n)) with (length l) by lia.
    rewrite skipn_all. rewrite (skipn_all2 l) by lia. reflexivity.
Qed.

Theorem size_sim : forall A (c : cvector A) l, stack_rel c l -> N.to_nat (cv_size c) = length l.
Proof.
  intros A c l [Hwf Habs]. rewrite <- (cv_abs_length c Hwf), Habs. apply rev_length.
Qed.

Theorem stack_rel_new : forall A cap (d : A), stack_rel (cv_new cap d) [].
Proof.
  intros A cap d. split; [apply cv_new_wf | apply cv_new_abs].
Qed.

Theorem push_sim : forall A (c : cvector A) l x, stack_rel c l ->
  (drv_full (N.to_nat (cv_cap c)) (length l) = true -> cv_push c x = Throw) /\
  (drv_full (N.to_nat (cv_cap c)) (length l) = false ->
     exists c', cv_push c x = Ok c' /\ stack_rel c' (x :: l) /\ cv_cap c' = cv_cap c).
Proof.
  intros A c l x Hrel. pose proof (size_sim A c l Hrel) as Hsz. destruct Hrel as [Hwf Habs].
  generalize (cv_push_in_bounds c). unfold drv_full, cv_push.
  destruct (N.leb_spec (cv_cap c) (cv_size c)) as [H|H]; intros Hin; split; intros Hfull.
  - reflexivity.
  - apply Nat.leb_gt in Hfull. lia.
  - apply Nat.leb_le in Hfull. lia.
  - destruct (Hin _ x Hwf eq_refl) as (_ & Hwf' & Habs').
    eexists. split; [reflexivity|]. split; [|reflexivity]. split; [exact Hwf'|]. rewrite Habs', Habs. reflexivity.
Qed.

(* the driver model throws exactly when the real push_back throws *)
Corollary push_throw_iff : forall A (c : cvector A) l x, stack_rel c l ->
  (cv_push c x = Throw <-> drv_full (N.to_nat (cv_cap c)) (length l) = true).
Proof.
  intros A c l x Hrel. destruct (push_sim A c l x Hrel) as [Ht Hf]. split; [|exact Ht].
  intros Hp. destruct (drv_full (N.to_nat (cv_cap c)) (length l)); [reflexivity|].
  destruct (Hf eq_refl) as [c' [Hc' _]]. rewrite Hc' in Hp. discriminate Hp.
Qed.

Theorem top_sim : forall A (c : cvector A) l x, stack_rel c (x :: l) -> cv_back c = Ok x.
Proof.
  intros A c l x Hrel. pose proof (size_sim A c (x :: l) Hrel) as Hsz. destruct Hrel as [Hwf Habs].
  cbn [length] in Hsz.
  rewrite (cv_back_spec c x Hwf) by lia.
  rewrite Habs. cbn [rev]. rewrite last_last. reflexivity.
Qed.

Theorem pop_n_sim : forall A (c : cvector A) l n, stack_rel c l ->
  exists c', cv_erase c (Z.of_N (cv_size c) - Z.of_N (N.of_nat n)) (Z.of_N (cv_size c)) = Ok c' /\
             stack_rel c' (skipn n l) /\ cv_cap c' = cv_cap c.
Proof.
  intros A c l n [Hwf Habs].
  destruct (cv_erase_last_ok c (N.of_nat n)) as [c' He]. exists c'. split; [exact He|].
  destruct (cv_erase_last_spec c c' (N.of_nat n) Hwf He) as (Hwf' & Hcap & Habs').
  split; [split; [exact Hwf'|] | exact Hcap].
  rewrite Habs', Habs, rev_length, Nat2N.id. apply firstn_rev_skipn.
Qed.

Theorem arg_order_sim : forall A (c : cvector A) l n, stack_rel c l -> n <= length l ->
  skipn (length l - n) (cv_abs c) = rev (firstn n l).
Proof.
  intros A c l n [_ Habs] Hn. rewrite Habs, skipn_rev. do 2 f_equal. lia.
Qed.

(* element-wise reading: the i-th argument (i < n) is cv_get at index size - n + i *)
Corollary arg_get_sim : forall A (c : cvector A) l n i (d : A), stack_rel c l -> n <= length l -> i < n ->
  cv_get c (cv_size c - N.of_nat n + N.of_nat i) = Ok (nth i (rev (firstn n l)) d).
Proof.
  intros A c l n i d Hrel Hn Hi. pose proof (size_sim A c l Hrel) as Hsz.
  rewrite <- (arg_order_sim A c l n Hrel Hn). destruct Hrel as [Hwf Habs].
  rewrite (cv_get_spec c _ d Hwf) by lia. f_equal.
  rewrite nth_skipn. f_equal. lia.
Qed.

(* inl x = push x, inr n = pop n; a push on a full stack is ignored on both sides *)
Definition cv_exec {A} (c : cvector A) (o : A + nat) : cvector A :=
  match o with
  | inl x => keep c (cv_push c x)
  | inr n => keep c (cv_erase c (Z.of_N (cv_size c) - Z.of_N (N.of_nat n)) (Z.of_N (cv_size c)))
  end.

Definition l_exec {A} (cap : nat) (l : list A) (o : A + nat) : list A :=
  match o with
  | inl x => if drv_full cap (length l) then l else x :: l
  | inr n => skipn n l
  end.

Lemma exec_sim : forall A (c : cvector A) l o, stack_rel c l ->
  stack_rel (cv_exec c o) (l_exec (N.to_nat (cv_cap c)) l o) /\ cv_cap (cv_exec c o) = cv_cap c.
Proof.
  intros A c l [x|n] Hrel; cbn [cv_exec l_exec].
  - destruct (push_sim A c l x Hrel) as [Ht Hf].
    destruct (drv_full (N.to_nat (cv_cap c)) (length l)).
    + rewrite (Ht eq_refl). cbn [keep]. split; [exact Hrel | reflexivity].
    + destruct (Hf eq_refl) as [c' [Hp [Hrel' Hcap]]]. rewrite Hp. cbn [keep]. split; assumption.
  - destruct (pop_n_sim A c l n Hrel) as [c' [He [Hrel' Hcap]]]. rewrite He. cbn [keep]. split; assumption.
Qed.

Theorem run_sim : forall A cap (d : A) (ops : list (A + nat)),
  stack_rel (fold_left cv_exec ops (cv_new cap d)) (fold_left (l_exec (N.to_nat cap)) ops []).
Proof.
  intros A cap d ops. eapply proj1.
  apply (fold_left_sim _ _ _ (fun c l => stack_rel c l /\ cv_cap c = cap)).
  - intros c l o [Hrel <-]. apply exec_sim. exact Hrel.
  - split; [apply stack_rel_new | reflexivity].
Qed.

(* after any run the two sides have the same size and the same top *)
Corollary run_size_sim : forall A cap (d : A) (ops : list (A + nat)),
  N.to_nat (cv_size (fold_left cv_exec ops (cv_new cap d))) = length (fold_left (l_exec (N.to_nat cap)) ops []).
Proof. intros A cap d ops. apply size_sim. apply run_sim. Qed.

Corollary run_top_sim : forall A cap (d : A) (ops : list (A + nat)) x l,
  fold_left (l_exec (N.to_nat cap)) ops [] = x :: l -> cv_back (fold_left cv_exec ops (cv_new cap d)) = Ok x.
Proof.
  intros A cap d ops x l E. apply (top_sim A _ l x). rewrite <- E. apply run_sim.
Qed.

Print Assumptions push_sim.
Print Assumptions pop_n_sim.
Print Assumptions run_sim.
