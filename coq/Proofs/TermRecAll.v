(* Termination with ERROR RECOVERY, part 3: the theorems.
   For validated LR(1) tables WITH error symbol (rules that mention the error token; shift_error cells in the
   column of the error symbol) that pass the checks of Valid/LRProductive.v, the driver model halts on EVERY input:
     tree_run_halts_recovery            the tree instance on a sequence of terms (Spec/LRSpec.v);
     generic_tree_run_halts_recovery    the tree instance with any options / buffer / lexer that tokenises the buffer;
     generic_run_halts_recovery         every semantic algebra (same path as the tree instance, Proofs/DriverEval.v);
     *_checked                          the same with the boolean check [term_checks].
   No further decidable check is needed: [term_checks] (= validate, lookahead_generatedb, states_nonempty_b,
   reduce_lookaheadb, productiveb) suffices; [no_error_symbol] is NOT assumed.
   Proofs/TermRecMachine.v : the table walk between two shifts from an arbitrary stack ([finish]);
   Proofs/TermRecDriver.v  : the driver's three modes against it ([halts_all]). *)
Require Import Ctpg.Base.Prelude Ctpg.Model.Grammar Ctpg.Model.LRGen Ctpg.Model.Driver Ctpg.Spec.Cfg Ctpg.Spec.LRSpec
               Ctpg.Spec.Eval Ctpg.Valid.LRValid Ctpg.Valid.LRProductive Ctpg.Proofs.LRMachine
               Ctpg.Proofs.LRValidFacts Ctpg.Proofs.LRSound Ctpg.Proofs.LRComplete Ctpg.Proofs.DriverEval
               Ctpg.Proofs.SafeDriver Ctpg.Proofs.SafeTerm Ctpg.Proofs.ReportLang Ctpg.Proofs.ReportViable
               Ctpg.Proofs.TermViable Ctpg.Proofs.DriverStream Ctpg.Proofs.TermRecMachine Ctpg.Proofs.TermRecDriver.

(* the lexer tokenises the buffer at hand: on every suffix of buf it answers with a proper term (not <eof>, not the
   error token) and a lexeme of positive length inside the remaining input: [SafeDriver.lexer_ok_on] with [0 < len],
   the premise of [DriverStream.stream_exists] at the proper terms *)
Definition lexer_tokenises (g : grammar) (buf : list nat)
  (lexer : bool -> spoint -> list nat -> list lex_event * option (nat * nat)) : Prop :=
  forall v p k t len, snd (lexer v p (skipn k buf)) = Some (t, len) ->
    t < eof_idx g /\ 0 < len /\ len <= length (skipn k buf).

Lemma lexer_ok_tokenises g buf lexer : lexer_ok_for g lexer -> lexer_in_range lexer -> lexer_tokenises g buf lexer.
Proof.
  intros H1 H2 v p k t len E. destruct (H1 _ _ _ _ _ E) as [Ht Hl]. destruct (H2 _ _ _ _ _ E) as [Hp _]. auto.
Qed.

(* the identity lexer of the tree instance, on an input made of proper terms *)
Lemma id_lexer_tokenises g w : tokens_ok g w -> lexer_tokenises g w id_lexer.
Proof.
  intros Hw v p k t len E. destruct (id_lexer_ok_on g w Hw v p k t len E) as [Ht Hl]. split; [exact Ht|split; [|exact Hl]].
  destruct (skipn k w); cbn in E; [discriminate|]. inversion E. lia.
Qed.

Theorem generic_tree_run_halts_recovery : forall g sts tbl opts buf lexer,
  validate g sts tbl = true -> lookahead_generated g sts -> states_nonempty sts -> reduce_lookahead g sts tbl ->
  productive g -> lexer_tokenises g buf lexer ->
  exists fuel, fst (fst (run tree unit g tbl opts buf None lexer tf (ef g) rlf fuel tt)) <> OutOfFuel.
Proof.
  intros g sts tbl opts buf lexer Hval Hgen Hne Hred Hprod Hlex.
  destruct (stream_exists opts buf lexer (fun t => t < eof_idx g) Hlex (length buf) sp0 0 ltac:(lia) ltac:(lia))
    as (toks & fl & Hst & Hw).
  destruct (halts_init g sts tbl opts buf lexer Hval Hgen Hne Hred Hprod toks fl Hst Hw) as (fuel & Hf).
  exists fuel. apply Hf.
Qed.

Theorem generic_run_halts_recovery : forall (V C : Type) g sts tbl opts buf lexer
    (term_f : nat -> nat -> nat -> spoint -> V) (err_f : spoint -> V) (rule_f : nat -> C -> list V -> C * V) (c0 : C),
  validate g sts tbl = true -> lookahead_generated g sts -> states_nonempty sts -> reduce_lookahead g sts tbl ->
  productive g -> lexer_tokenises g buf lexer ->
  exists fuel, forall fuel', fuel <= fuel' ->
    fst (fst (run V C g tbl opts buf None lexer term_f err_f rule_f fuel' c0)) =
    fst (fst (run V C g tbl opts buf None lexer term_f err_f rule_f fuel c0)) /\
    fst (fst (run V C g tbl opts buf None lexer term_f err_f rule_f fuel c0)) <> OutOfFuel.
Proof.
  intros V C g sts tbl opts buf lexer term_f err_f rule_f c0 Hval Hgen Hnonempty Hred Hprod Hlex.
  destruct (generic_tree_run_halts_recovery g sts tbl opts buf lexer Hval Hgen Hnonempty Hred Hprod Hlex) as (fuel & Hf).
  exists fuel.
  assert (Hnoof : fst (fst (run V C g tbl opts buf None lexer term_f err_f rule_f fuel c0)) <> OutOfFuel).
  { pose proof (run_same_path tree unit g tbl opts buf None lexer tf (ef g) rlf tt fuel) as H1.
    pose proof (run_same_path V C g tbl opts buf None lexer term_f err_f rule_f c0 fuel) as H2.
    destruct (run ptree (list (nat * list ptree)) g tbl opts buf None lexer tree_term_f tree_err_f tree_rule_f fuel [])
      as [[rT sT] oT].
    destruct (run tree unit g tbl opts buf None lexer tf (ef g) rlf fuel tt) as [[r1 s1] o1].
    destruct (run V C g tbl opts buf None lexer term_f err_f rule_f fuel c0) as [[r2 s2] o2].
    cbn [fst] in *. destruct H1 as [H1 _]. destruct H2 as [H2 _].
    intros E. subst r2. apply Hf. destruct rT, r1; cbn in *; congruence. }
  intros fuel' Hle. split; [|exact Hnoof].
  unfold run in *. now rewrite (run_from_stable _ _ _ _ _ _ _ _ _ _ _ _ _ _ _ Hnoof Hle).
Qed.

Theorem tree_run_halts_recovery : forall g sts tbl w,
  validate g sts tbl = true -> lookahead_generated g sts -> states_nonempty sts -> reduce_lookahead g sts tbl ->
  productive g -> tokens_ok g w ->
  exists fuel, forall fuel', fuel <= fuel' ->
    tree_run g tbl w fuel' = tree_run g tbl w fuel /\ tree_run g tbl w fuel <> OutOfFuel.
Proof.
  intros g sts tbl w Hval Hgen Hne Hred Hprod Hw.
  destruct (generic_tree_run_halts_recovery g sts tbl tree_opts w id_lexer Hval Hgen Hne Hred Hprod
              (id_lexer_tokenises g w Hw)) as (fuel & Hf).
  exists fuel. intros fuel' Hle.
  assert (Hn : tree_run g tbl w fuel <> OutOfFuel) by exact Hf.
  split; [|exact Hn]. apply tree_run_mono; assumption.
Qed.

Theorem tree_run_halts_recovery_checked : forall g sts tbl w,
  term_checks g sts tbl = true -> tokens_ok g w ->
  exists fuel, forall fuel', fuel <= fuel' ->
    tree_run g tbl w fuel' = tree_run g tbl w fuel /\ tree_run g tbl w fuel <> OutOfFuel.
Proof.
  intros g sts tbl w Hc Hw. destruct (term_checks_facts _ _ _ Hc) as (H1 & H2 & H3 & H4 & H5).
  apply (tree_run_halts_recovery g sts tbl w); assumption.
Qed.

Theorem generic_run_halts_recovery_checked : forall (V C : Type) g sts tbl opts buf lexer
    (term_f : nat -> nat -> nat -> spoint -> V) (err_f : spoint -> V) (rule_f : nat -> C -> list V -> C * V) (c0 : C),
  term_checks g sts tbl = true -> lexer_ok_for g lexer -> lexer_in_range lexer ->
  exists fuel, forall fuel', fuel <= fuel' ->
    fst (fst (run V C g tbl opts buf None lexer term_f err_f rule_f fuel' c0)) =
    fst (fst (run V C g tbl opts buf None lexer term_f err_f rule_f fuel c0)) /\
    fst (fst (run V C g tbl opts buf None lexer term_f err_f rule_f fuel c0)) <> OutOfFuel.
Proof.
  intros V C g sts tbl opts buf lexer term_f err_f rule_f c0 Hc Hlex Hpos.
  destruct (term_checks_facts _ _ _ Hc) as (H1 & H2 & H3 & H4 & H5).
  apply (generic_run_halts_recovery V C g sts tbl); try assumption. apply lexer_ok_tokenises; assumption.
Qed.

(* One recovery cycle consumes a term (machine level; the driver-level form is inside [halts_all]).
   After recovery has shifted the error token (from ANY stack that satisfies the invariant, e.g. one obtained by
   popping), let a be the first term that is not discarded, i.e. whose cell in the new top state is not an error
   cell.  Then a is SHIFTED after finitely many reductions: no error cell is met (no further syntax error is
   reported) before a has been consumed. *)
Theorem recovery_cycle_progress : forall g sts tbl cur ss trs a v cur1 ss1 trs1 e,
  validate g sts tbl = true -> lookahead_generated g sts -> states_nonempty sts -> reduce_lookahead g sts tbl ->
  productive g ->
  MInv g sts (cur :: ss) trs ->
  mshift g tbl (cur :: ss, trs, err_idx g :: a :: v) = Some (cur1 :: ss1, trs1, a :: v) ->
  a < eof_idx g -> cell tbl cur1 (nterm_count g + a) = inl e -> e_kind e <> KError ->
  exists n c1 c2, rsteps g tbl n (cur1 :: ss1, trs1, a :: v) c1 /\ mshift g tbl c1 = Some c2 /\ snd c2 = v.
Proof.
  intros g sts tbl cur ss trs a v cur1 ss1 trs1 e Hval Hgen Hne Hred Hprod HM Hsh Ha Hc Hk.
  pose proof (validate_facts g sts tbl Hval) as SF.
  pose proof (sf_tc _ _ _ SF) as Htc. pose proof (eof_lt_tc _ _ _ SF) as Heof.
  assert (HM1 : MInv g sts (cur1 :: ss1) trs1).
  { eapply (MInv_mshift g sts tbl SF); [exact HM| |exact Hsh]. cbn. unfold err_idx. lia. }
  assert (Hla : look g (a :: v) < term_count g) by (cbn; lia).
  destruct (finish g sts tbl Hval Hgen Hne Hred Hprod cur1 ss1 trs1 (a :: v) e HM1 Hla Hc Hk)
    as (n & c1 & Hr & [(c2 & Hs2 & _)|Hsucc]).
  - exists n, c1, c2. split; [exact Hr|]. split; [exact Hs2|].
    rewrite (mshift_rest g tbl _ _ Hs2), (rsteps_rest g tbl _ _ _ Hr). reflexivity.
  - exfalso. destruct c1 as [[ss2 trs2] rest2].
    destruct (MInv_rsteps g sts tbl SF n _ _ _ _ _ _ HM1 Hla Hr) as [-> (syms & Hst & _)].
    destruct Hsucc as (cur2 & ss2' & e2 & -> & Hc2 & Hk2). rewrite (cell_cell_at _ _ _ _ Hc2) in Hk2.
    (* an accept cell stands in the column of <eof> *)
    destruct (success_cell g sts tbl SF _ _ _ _ Hst Hla Hk2) as [Hl _]. cbn in Hl. lia.
Qed.

Print Assumptions finish.
Print Assumptions recovery_cycle_progress.
Print Assumptions halts_all.
Print Assumptions generic_tree_run_halts_recovery.
Print Assumptions generic_run_halts_recovery.
Print Assumptions tree_run_halts_recovery.
Print Assumptions tree_run_halts_recovery_checked.
Print Assumptions generic_run_halts_recovery_checked.

(* Non-vacuity: a conflict-free grammar with error rules whose generated table passes all checks.
     stmts -> (empty) | stmts stmt ';' | stmts error ';'          stmt -> '(' stmt ')' | '(' error ')' | num
     terms: num = 0, ';' = 1, '(' = 2, ')' = 3, <eof> = 4, <error_recovery_token> = 5 *)
Module RecEx.
  Definition id_num := [110]. Definition id_semi := [59]. Definition id_lp := [40]. Definition id_rp := [41].
  Definition id_stmts := [115;115]. Definition id_stmt := [115].
  Definition raw : raw_grammar :=
    mkRG id_stmts
      [mkRT id_num 0%Z NoAssoc; mkRT id_semi 0%Z NoAssoc; mkRT id_lp 0%Z NoAssoc; mkRT id_rp 0%Z NoAssoc]
      [id_stmts; id_stmt]
      [mkRR id_stmts [] None;
       mkRR id_stmts [RNterm id_stmts; RNterm id_stmt; RTerm id_semi] None;
       mkRR id_stmts [RNterm id_stmts; RTerm id_error; RTerm id_semi] None;
       mkRR id_stmt [RTerm id_lp; RNterm id_stmt; RTerm id_rp] None;
       mkRR id_stmt [RTerm id_lp; RTerm id_error; RTerm id_rp] None;
       mkRR id_stmt [RTerm id_num] None].
  Definition dummy_g : grammar := mkG 0 0 0 0 [] [] [] [] [] [] [] [].
  Definition g : grammar := match analyze raw with Some g => g | None => dummy_g end.
  Definition tbl : table := match gen g with inl (sts, tbl) => firstn (length sts) tbl | inr _ => [] end.
  Definition sts : list items := match gen g with inl (sts, tbl) => map st_all sts | inr _ => [] end.

  Example checks_pass : term_checks g sts tbl = true /\ no_error_symbol g tbl = false /\ err_idx g = 5.
  Proof. vm_compute. repeat split. Qed.

  (* runs that go through recovery:  num ; ; num ;   and   ( ; ) ;   are repaired,  ) ) )  and  num num  are given up *)
  Example runs :
    (exists t, tree_run g tbl [0;1;1;0;1] 100 = Accept t) /\ (exists t, tree_run g tbl [2;1;3;1] 100 = Accept t) /\
    tree_run g tbl [3;3;3] 100 = Reject /\ tree_run g tbl [0;0] 100 = Reject.
  Proof. vm_compute. repeat split; eexists; reflexivity. Qed.

  (* the theorem applies to this table: every input of proper terms *)
  Example halts_on_every_input : forall w, tokens_ok g w ->
    exists fuel, forall fuel', fuel <= fuel' ->
      tree_run g tbl w fuel' = tree_run g tbl w fuel /\ tree_run g tbl w fuel <> OutOfFuel.
  Proof. intros w Hw. exact (tree_run_halts_recovery_checked g sts tbl w (proj1 checks_pass) Hw). Qed.
End RecEx.
