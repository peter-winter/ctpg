(* cbitset<N> (Model/Containers.v: 64-bit words, shifts and masks) refines the set-of-indices specification and the
   Prelude.bset abstraction, for every size and every operation sequence; checked accesses never leave the word array;
   operator== (cb_eqb) agrees with set equality when the padding bits of the last word are clean on both sides, and not
   in general: the whole-set operations set()/flip() do not keep them clean (cb_eqb_padding_refuted).
   Everything goes through cb_bitat, the bit at (word j / 64, position j mod 64): each operation is described by what
   it does to cb_bitat, and cb_mem / cb_abs / cb_clean are read off from it. *)
From Ctpg Require Import Base.Prelude Proofs.ListFacts Model.Containers Proofs.ContainersVec.
From Coq Require Import NArith Lia List Bool.
Local Open Scope N_scope.

Definition cb_wf (b : cbitset) : Prop :=
  length (cb_data b) = N.to_nat (word_count (cb_n b)) /\ Forall (fun w => w < 2 ^ 64) (cb_data b).

Definition cb_clean (b : cbitset) : Prop :=
  forall i, cb_n b <= i -> N.testbit (nth (N.to_nat (i / 64)) (cb_data b) 0) (i mod 64) = false.

(* the specification: a bitset of n bits as the set of its members.  An out-of-range index throws in the code and
   leaves the set alone; BAddSelfShift k (add a fresh bitset holding only k) reads as set(k) *)
Definition sb_step (n : N) (s : N -> bool) (o : cb_op) : N -> bool :=
  match o with
  | BSet i => if i <? n then (fun j => (j =? i) || s j) else s
  | BSetVal i v => if i <? n then (fun j => if j =? i then v else s j) else s
  | BReset i => if i <? n then (fun j => if j =? i then false else s j) else s
  | BFlip i => if i <? n then (fun j => if j =? i then negb (s j) else s j) else s
  | BFlipAll => fun j => negb (s j)
  | BSetAll => fun _ => true
  | BResetAll => fun _ => false
  | BAddSelfShift k => if k <? n then (fun j => (j =? k) || s j) else s
  end.

(* set() and flip() without an index are the two operations that write the padding bits of the last word *)
Definition whole_free (o : cb_op) : bool := match o with BFlipAll | BSetAll => false | _ => true end.

(* cb_clean b unfolds to forall i, cb_n b <= i -> cb_bitat b i = false *)
Definition cb_bitat (b : cbitset) (j : N) : bool := N.testbit (nth (N.to_nat (j / 64)) (cb_data b) 0) (j mod 64).

(* the only places where division by 64 is reasoned about *)
Lemma mod64_lt : forall i, i mod 64 < 64.
Proof. intros i. apply N.mod_lt. discriminate. Qed.

Lemma idx_split_inj : forall i j, j / 64 = i / 64 -> j mod 64 = i mod 64 -> j = i.
Proof. intros i j Hd Hm. rewrite (N.div_mod' j 64), Hd, Hm. symmetry. apply N.div_mod'. Qed.

Lemma idx_split_join : forall k m, m < 64 -> (64 * k + m) / 64 = k /\ (64 * k + m) mod 64 = m.
Proof.
  intros k m Hm. rewrite (N.mul_comm 64 k), N.add_comm. split.
  - rewrite N.div_add by discriminate. rewrite N.div_small by exact Hm. reflexivity.
  - rewrite N.mod_add by discriminate. apply N.mod_small. exact Hm.
Qed.

Lemma wi_lt_count : forall n idx, idx < n -> idx / 64 < word_count n.
Proof.
  intros n idx Hi. unfold word_count, word_bits. apply N.div_lt_upper_bound; [discriminate |].
  pose proof (N.div_mod' n 64) as Hn. pose proof (mod64_lt n) as Hm.
  destruct (N.eqb_spec (n mod 64) 0) as [Hr | Hr]; lia.
Qed.

Lemma count_le_wi : forall n i, n mod 64 = 0 -> n <= i -> word_count n <= i / 64.
Proof.
  intros n i Hr Hi. unfold word_count, word_bits. rewrite Hr, N.eqb_refl, N.add_0_r.
  apply N.div_le_mono; [discriminate | exact Hi].
Qed.

(* (w >> k) & 1 != 0 is bit k of w *)
Lemma shr_and1 : forall w k, negb (N.land (N.shiftr w k) 1 =? 0) = N.testbit w k.
Proof.
  intros w k. change 1 with (N.ones 1) at 1. rewrite N.land_ones, N.shiftr_div_pow2.
  change (2 ^ 1) with 2. rewrite <- N.testbit_spec'. destruct (N.testbit w k); reflexivity.
Qed.

Lemma mask_bits : forall m, N.testbit word_mask m = (m <? 64).
Proof.
  intros m. unfold word_mask. destruct (N.ltb_spec m 64) as [Hm | Hm].
  - apply N.ones_spec_low. exact Hm.
  - apply N.ones_spec_high. exact Hm.
Qed.

Lemma bit_bits : forall i m, N.testbit (cb_bit i) m = (i mod 64 =? m).
Proof. intros i m. unfold cb_bit, word_bits. rewrite N.shiftl_1_l. apply N.pow2_bits_eqb. Qed.

(* fitting in 64 bits, the word half of cb_wf, read on the bits *)
Definition word_small (w : N) : Prop := w < 2 ^ 64.

Lemma small_bits : forall w m, word_small w -> 64 <= m -> N.testbit w m = false.
Proof.
  intros w m Hlt Hm. rewrite <- (N.mod_small w (2 ^ 64)) by exact Hlt. apply N.mod_pow2_bits_high. exact Hm.
Qed.

Lemma bits_small : forall w, (forall m, 64 <= m -> N.testbit w m = false) -> word_small w.
Proof.
  intros w Hs. assert (He : w = w mod 2 ^ 64).
  { apply N.bits_inj. intros m. destruct (N.lt_ge_cases m 64) as [Hm | Hm].
    - rewrite N.mod_pow2_bits_low by exact Hm. reflexivity.
    - rewrite N.mod_pow2_bits_high by exact Hm. apply Hs. exact Hm. }
  unfold word_small. rewrite He. apply N.mod_lt. apply N.pow_nonzero. discriminate.
Qed.

Lemma word_small_0 : word_small 0.
Proof. reflexivity. Qed.

Lemma word_small_mask : word_small word_mask.
Proof. reflexivity. Qed.

Lemma word_small_lor : forall x y, word_small x -> word_small y -> word_small (N.lor x y).
Proof. intros x y Hx Hy. apply bits_small. intros m Hm. rewrite N.lor_spec, !small_bits by assumption. reflexivity. Qed.

Lemma word_small_lxor : forall x y, word_small x -> word_small y -> word_small (N.lxor x y).
Proof. intros x y Hx Hy. apply bits_small. intros m Hm. rewrite N.lxor_spec, !small_bits by assumption. reflexivity. Qed.

(* what set(i), set(i, v), reset(i) and flip(i) do to the word they update: position i mod 64 changes by g, every other
   position stays, those from 64 on included; so the word still fits.  Only reset needs w to fit (its complement is
   taken against the 64-bit mask) *)
Definition acts_at (i : N) (f : N -> N) (g : bool -> bool) : Prop :=
  forall w m, word_small w -> N.testbit (f w) m = if m =? i mod 64 then g (N.testbit w m) else N.testbit w m.

Lemma acts_at_small : forall i f g w, acts_at i f g -> word_small w -> word_small (f w).
Proof.
  intros i f g w Hf Hw. apply bits_small. intros m Hm. rewrite Hf by exact Hw. pose proof (mod64_lt i).
  destruct (N.eqb_spec m (i mod 64)); [lia | apply small_bits; assumption].
Qed.

(* From here on cbn / simpl must not turn N arithmetic into binary positives. The proofs by reflexivity on concrete
   words (word_small_0, word_small_mask) stand above this line for that reason. *)
Local Opaque N.pow N.ones N.shiftl N.shiftr N.testbit N.div N.modulo N.lor N.land N.lxor.

Lemma length_words_or : forall a b, length (words_or a b) = length a.
Proof.
  intros a. induction a as [| x a IH]; intros b.
  - reflexivity.
  - destruct b as [| y b]; simpl; [reflexivity | rewrite IH; reflexivity].
Qed.

Lemma nth_words_or : forall a b m, length a = length b ->
  nth m (words_or a b) 0 = N.lor (nth m a 0) (nth m b 0).
Proof.
  intros a. induction a as [| x a IH]; intros b m Hl.
  - destruct b as [| y b]; [| discriminate Hl]. destruct m; reflexivity.
  - destruct b as [| y b]; [discriminate Hl |]. destruct m as [| m]; simpl.
    + reflexivity.
    + apply IH. simpl in Hl. lia.
Qed.

Lemma Forall_words_or : forall (P : N -> Prop) a b,
  (forall x y, P x -> P y -> P (N.lor x y)) -> Forall P a -> Forall P b -> Forall P (words_or a b).
Proof.
  intros P a. induction a as [| x a IH]; intros b HP Ha Hb.
  - constructor.
  - destruct b as [| y b]; simpl; [exact Ha |].
    inversion Ha as [| x' a' Hx Ha']; subst. inversion Hb as [| y' b' Hy Hb']; subst.
    constructor; [apply HP; assumption | apply IH; assumption].
Qed.

Theorem cb_word_index_in_bounds : forall b idx, cb_wf b -> idx < cb_n b -> (cb_wi idx < length (cb_data b))%nat.
Proof.
  intros b idx [Hl _] Hi. rewrite Hl. unfold cb_wi, word_bits.
  pose proof (wi_lt_count (cb_n b) idx Hi) as Hlt. lia.
Qed.

Lemma cb_new_wf : forall n, cb_wf (cb_new n).
Proof.
  intros n. unfold cb_new. split; cbn [cb_n cb_data].
  - apply repeat_length.
  - apply Forall_repeat, word_small_0.
Qed.

Lemma cb_word_small : forall b k, cb_wf b -> word_small (nth k (cb_data b) 0).
Proof. intros b k Hwf. apply Forall_nth_d; [apply Hwf | apply word_small_0]. Qed.

Lemma cb_upd_ok : forall b i f, i < cb_n b ->
  cb_upd b i f = Ok {| cb_n := cb_n b; cb_data := update (cb_data b) (cb_wi i) (f (cb_word b i)) |}.
Proof. intros b i f Hi. unfold cb_upd. rewrite (proj2 (N.ltb_lt _ _) Hi). reflexivity. Qed.

Lemma cb_upd_throws_iff : forall b i f, cb_upd b i f = Throw <-> cb_n b <= i.
Proof.
  intros b i f. unfold cb_upd. destruct (N.ltb_spec i (cb_n b)) as [Hi | Hi]; split; intros H.
  - discriminate H.
  - lia.
  - exact Hi.
  - reflexivity.
Qed.

Lemma cb_upd_throw : forall b i f, cb_n b <= i -> cb_upd b i f = Throw.
Proof. intros b i f. apply cb_upd_throws_iff. Qed.

Lemma cb_set_in_range : forall b i, i < cb_n b -> cb_set b i = Ok (cb_step b (BSet i)).
Proof. intros b i Hi. unfold cb_step. cbn [cb_apply]. unfold cb_set. rewrite cb_upd_ok by exact Hi. reflexivity. Qed.

Lemma cb_test_ok : forall b i, i < cb_n b -> cb_test b i = Ok (cb_mem b i).
Proof. intros b i Hi. unfold cb_mem, cb_test. rewrite (proj2 (N.ltb_lt _ _) Hi). reflexivity. Qed.

Lemma cb_map_wf : forall b g, cb_wf b -> (forall w, word_small w -> word_small (g w)) ->
  cb_wf {| cb_n := cb_n b; cb_data := map g (cb_data b) |}.
Proof.
  intros b g Hwf Hg. split; cbn [cb_n cb_data].
  - rewrite map_length. apply Hwf.
  - apply Forall_map. eapply Forall_impl; [exact Hg | apply Hwf].
Qed.

Lemma cb_add_wf : forall a b, cb_wf a -> cb_wf b -> cb_wf (cb_add a b).
Proof.
  intros a b Ha Hb. unfold cb_add. split; cbn [cb_n cb_data].
  - rewrite length_words_or. apply Ha.
  - apply Forall_words_or; [exact word_small_lor | apply Ha | apply Hb].
Qed.

Lemma cb_mem_bitat : forall b j, cb_mem b j = if j <? cb_n b then cb_bitat b j else false.
Proof.
  intros b j. unfold cb_mem, cb_test. destruct (j <? cb_n b); [apply shr_and1 | reflexivity].
Qed.

(* an update of word i / 64 that acts as g on position i mod 64 acts as g on index i and leaves the other indices alone *)
Lemma upd_bitat : forall b i f (g : bool -> bool), cb_wf b -> i < cb_n b -> acts_at i f g ->
  forall j, cb_bitat {| cb_n := cb_n b; cb_data := update (cb_data b) (cb_wi i) (f (cb_word b i)) |} j
            = if j =? i then g (cb_bitat b j) else cb_bitat b j.
Proof.
  intros b i f g Hwf Hi Hf j. unfold cb_bitat. cbn [cb_data].
  rewrite nth_update, (proj2 (Nat.ltb_lt _ _)), andb_true_r by (apply cb_word_index_in_bounds; assumption).
  pose proof (Hf _ (j mod 64) (cb_word_small b (cb_wi i) Hwf)) as Hfj. unfold cb_wi, cb_word, cb_wi, word_bits in *.
  destruct (N.eqb_spec j i) as [-> | Hji].
  - rewrite Nat.eqb_refl, Hfj, N.eqb_refl. reflexivity.
  - destruct (Nat.eqb_spec (N.to_nat (j / 64)) (N.to_nat (i / 64))) as [Hw | Hw]; [| reflexivity].
    rewrite Hfj, Hw.
    destruct (N.eqb_spec (j mod 64) (i mod 64)) as [Hm | Hm]; [| reflexivity].
    contradiction Hji. apply idx_split_inj; [apply N2Nat.inj; exact Hw | exact Hm].
Qed.

Lemma upd_step_spec : forall b i f (g : bool -> bool), cb_wf b -> acts_at i f g ->
  cb_wf (keep b (cb_upd b i f)) /\ cb_n (keep b (cb_upd b i f)) = cb_n b /\
  forall j, cb_bitat (keep b (cb_upd b i f)) j
            = if i <? cb_n b then (if j =? i then g (cb_bitat b j) else cb_bitat b j) else cb_bitat b j.
Proof.
  intros b i f g Hwf Hf. destruct (N.ltb_spec i (cb_n b)) as [Hi | Hi].
  - rewrite cb_upd_ok by exact Hi. cbn [keep]. split; [| split; [reflexivity | apply upd_bitat; assumption]].
    split; cbn [cb_n cb_data]; [rewrite update_length; apply Hwf |].
    apply Forall_update; [apply Hwf |].
    apply (acts_at_small i f g); [exact Hf | apply cb_word_small; exact Hwf].
  - rewrite cb_upd_throw by exact Hi. split; [exact Hwf | split; reflexivity].
Qed.

(* the f_ lemmas: what the word function that cb_set, cb_set_val, cb_reset, cb_flip hand to cb_upd does to the bits *)
Lemma f_set_bits : forall i, acts_at i (fun w => N.lor w (cb_bit i)) (fun _ => true).
Proof.
  intros i w m _. rewrite N.lor_spec, bit_bits, (N.eqb_sym (i mod 64) m).
  destruct (m =? i mod 64); [apply orb_true_r | apply orb_false_r].
Qed.

Lemma f_set_val_bits : forall i (v : bool),
  acts_at i (fun w => N.lxor w (N.land (N.lxor (if v then word_mask else 0) w) (cb_bit i))) (fun _ => v).
Proof.
  intros i v w m _. rewrite N.lxor_spec, N.land_spec, N.lxor_spec, bit_bits, (N.eqb_sym (i mod 64) m).
  destruct (N.eqb_spec m (i mod 64)) as [-> | _]; [| rewrite andb_false_r; apply xorb_false_r].
  assert (Hv : N.testbit (if v then word_mask else 0) (i mod 64) = v).
  { destruct v; [rewrite mask_bits; apply N.ltb_lt, mod64_lt | apply N.bits_0]. }
  rewrite Hv. destruct v; destruct (N.testbit w (i mod 64)); reflexivity.
Qed.

Lemma f_reset_bits : forall i, acts_at i (fun w => N.land w (N.lxor (cb_bit i) word_mask)) (fun _ => false).
Proof.
  intros i w m Hw. rewrite N.land_spec, N.lxor_spec, bit_bits, mask_bits, (N.eqb_sym (i mod 64) m).
  destruct (N.eqb_spec m (i mod 64)) as [-> | _].
  - rewrite (proj2 (N.ltb_lt _ _) (mod64_lt i)). apply andb_false_r.
  - destruct (N.ltb_spec m 64) as [_ | Hm]; [apply andb_true_r | rewrite (small_bits w m Hw Hm); reflexivity].
Qed.

Lemma f_flip_bits : forall i, acts_at i (fun w => N.lxor w (cb_bit i)) negb.
Proof.
  intros i w m _. rewrite N.lxor_spec, bit_bits, (N.eqb_sym (i mod 64) m).
  destruct (m =? i mod 64); destruct (N.testbit w m); reflexivity.
Qed.

Lemma new_bitat : forall n j, cb_bitat (cb_new n) j = false.
Proof. intros n j. unfold cb_bitat, cb_new. cbn [cb_data]. rewrite nth_repeat. apply N.bits_0. Qed.

Lemma add_bitat : forall a b j, cb_wf a -> cb_wf b -> cb_n a = cb_n b ->
  cb_bitat (cb_add a b) j = cb_bitat a j || cb_bitat b j.
Proof.
  intros a b j Ha Hb Hn. unfold cb_bitat, cb_add. cbn [cb_data].
  rewrite nth_words_or by (rewrite (proj1 Ha), (proj1 Hb), Hn; reflexivity). apply N.lor_spec.
Qed.

Lemma map_bitat : forall b g j, cb_wf b -> j < cb_n b ->
  cb_bitat {| cb_n := cb_n b; cb_data := map g (cb_data b) |} j = N.testbit (g (cb_word b j)) (j mod 64).
Proof.
  intros b g j Hwf Hj. unfold cb_bitat. cbn [cb_data].
  rewrite (nth_indep _ 0 (g 0)), map_nth by (rewrite map_length; apply (cb_word_index_in_bounds b j Hwf Hj)).
  reflexivity.
Qed.

(* every operation keeps the invariant and the size and acts on the bits as the specification says; for the operations
   other than set()/flip() this also holds for the padding positions j >= n *)
Lemma cb_step_spec : forall b o, cb_wf b ->
  cb_wf (cb_step b o) /\ cb_n (cb_step b o) = cb_n b /\
  forall j, j < cb_n b \/ whole_free o = true -> cb_bitat (cb_step b o) j = sb_step (cb_n b) (cb_bitat b) o j.
Proof.
  intros b o Hwf. unfold cb_step.
  destruct o as [i | i v | i | i | | | | k]; cbn [cb_apply sb_step keep].
  - destruct (upd_step_spec b i _ _ Hwf (f_set_bits i)) as (Hw & Hn & Hb). split; [exact Hw | split; [exact Hn |]].
    intros j _. unfold cb_set. rewrite Hb. destruct (i <? cb_n b); [destruct (j =? i) |]; reflexivity.
  - destruct (upd_step_spec b i _ _ Hwf (f_set_val_bits i v)) as (Hw & Hn & Hb). split; [exact Hw | split; [exact Hn |]].
    intros j _. unfold cb_set_val. rewrite Hb. destruct (i <? cb_n b); reflexivity.
  - destruct (upd_step_spec b i _ _ Hwf (f_reset_bits i)) as (Hw & Hn & Hb). split; [exact Hw | split; [exact Hn |]].
    intros j _. unfold cb_reset. rewrite Hb. destruct (i <? cb_n b); reflexivity.
  - destruct (upd_step_spec b i _ _ Hwf (f_flip_bits i)) as (Hw & Hn & Hb). split; [exact Hw | split; [exact Hn |]].
    intros j _. unfold cb_flip. rewrite Hb. destruct (i <? cb_n b); reflexivity.
  - split; [apply cb_map_wf; [exact Hwf | intros w Hw; apply word_small_lxor; [exact Hw | exact word_small_mask]] |].
    split; [reflexivity |]. intros j [Hj | Hj]; [| discriminate Hj]. unfold cb_flip_all. rewrite map_bitat by assumption.
    rewrite N.lxor_spec, mask_bits, (proj2 (N.ltb_lt _ _) (mod64_lt j)). apply xorb_true_r.
  - split; [apply cb_map_wf; [exact Hwf | intros w _; exact word_small_mask] |].
    split; [reflexivity |]. intros j [Hj | Hj]; [| discriminate Hj]. unfold cb_set_all. rewrite map_bitat by assumption.
    rewrite mask_bits. apply N.ltb_lt. apply mod64_lt.
  - split; [apply cb_map_wf; [exact Hwf | intros w _; exact word_small_0] |].
    split; [reflexivity |]. intros j _. unfold cb_bitat, cb_reset_all. cbn [cb_data].
    pose proof (map_nth (fun _ : N => 0) (cb_data b) 0 (N.to_nat (j / 64))) as E. cbv beta in E.
    rewrite E. apply N.bits_0.
  - destruct (upd_step_spec (cb_new (cb_n b)) k _ _ (cb_new_wf _) (f_set_bits k)) as (Hw & _ & Hb).
    change (cb_n (cb_new (cb_n b))) with (cb_n b) in Hb. unfold cb_set.
    destruct (N.ltb_spec k (cb_n b)) as [Hk | Hk].
    + rewrite cb_upd_ok in * by exact Hk. cbn [keep] in *.
      split; [apply cb_add_wf; assumption | split; [reflexivity |]]. intros j _.
      rewrite (add_bitat _ _ j Hwf Hw eq_refl).
      rewrite Hb, new_bitat, orb_comm. destruct (j =? k); reflexivity.
    + rewrite cb_upd_throw by exact Hk. split; [exact Hwf | split; reflexivity].
Qed.

Lemma sb_step_ext : forall n s s' o j, s j = s' j -> sb_step n s o j = sb_step n s' o j.
Proof.
  intros n s s' o j Hs. destruct o as [i | i v | i | i | | | | k]; cbn [sb_step];
    try destruct (i <? n); try destruct (k <? n); try rewrite Hs; try reflexivity; exact Hs.
Qed.

Lemma cb_step_mem : forall b o j, cb_wf b -> j < cb_n b ->
  cb_mem (cb_step b o) j = sb_step (cb_n b) (cb_mem b) o j.
Proof.
  intros b o j Hwf Hj. destruct (cb_step_spec b o Hwf) as (_ & Hn & Hb).
  rewrite cb_mem_bitat, Hn, (proj2 (N.ltb_lt _ _) Hj), Hb by (left; exact Hj).
  apply sb_step_ext. rewrite cb_mem_bitat, (proj2 (N.ltb_lt _ _) Hj). reflexivity.
Qed.

Lemma new_mem : forall n j, cb_mem (cb_new n) j = false.
Proof. intros n j. rewrite cb_mem_bitat, new_bitat. destruct (j <? cb_n (cb_new n)); reflexivity. Qed.

(* what a run preserves: the invariant, the size, and the tests as the specification computes them *)
Definition cb_sim (n : N) (b : cbitset) (s : N -> bool) : Prop :=
  cb_wf b /\ cb_n b = n /\ forall j, j < n -> cb_mem b j = s j.

Lemma cb_run_sim : forall n ops, cb_sim n (cb_run n ops) (fold_left (sb_step n) ops (fun _ => false)).
Proof.
  intros n ops. apply (fold_left_sim _ _ _ (cb_sim n)).
  - intros b s o (Hwf & <- & Hs). destruct (cb_step_spec b o Hwf) as (Hwf' & Hn & _).
    split; [exact Hwf' | split; [exact Hn |]].
    intros j Hj. rewrite cb_step_mem by assumption. apply sb_step_ext, Hs, Hj.
  - split; [apply cb_new_wf | split; [reflexivity |]]. intros j _. apply new_mem.
Qed.

Theorem cb_run_wf : forall n ops, cb_wf (cb_run n ops).
Proof. intros n ops. apply (cb_run_sim n ops). Qed.

Theorem cb_run_refines : forall n ops j, j < n ->
  cb_mem (cb_run n ops) j = fold_left (sb_step n) ops (fun _ => false) j.
Proof. intros n ops. apply (cb_run_sim n ops). Qed.

Theorem cb_test_throws_iff_out_of_range : forall b j, cb_test b j = Throw <-> cb_n b <= j.
Proof.
  intros b j. unfold cb_test. destruct (N.ltb_spec j (cb_n b)) as [Hj | Hj]; split; intros H.
  - discriminate H.
  - lia.
  - exact Hj.
  - reflexivity.
Qed.

Theorem cb_test_never_undef : forall b j, cb_test b j <> Undef.
Proof. intros b j. unfold cb_test. destruct (j <? cb_n b); discriminate. Qed.

Lemma cb_upd_never_undef : forall b i f, cb_upd b i f <> Undef.
Proof. intros b i f. unfold cb_upd. destruct (i <? cb_n b); discriminate. Qed.

(* no hypothesis on the words of b: the checked set either succeeds and keeps the size, or throws *)
Lemma cb_set_cases : forall b i,
  (exists b', cb_set b i = Ok b' /\ cb_n b' = cb_n b /\ i < cb_n b) \/ (cb_set b i = Throw /\ cb_n b <= i).
Proof.
  intros b i. unfold cb_set, cb_upd. destruct (N.ltb_spec i (cb_n b)) as [H | H].
  - left. eexists. split; [reflexivity |]. split; [reflexivity | exact H].
  - right. split; [reflexivity | exact H].
Qed.

(* [cb_upd_throws_iff] at the four checked single-bit operations, in one statement for property C06 *)
Theorem cb_upd_throws_iff_out_of_range : forall b i,
  (cb_set b i = Throw <-> cb_n b <= i) /\ (cb_reset b i = Throw <-> cb_n b <= i) /\
  (cb_flip b i = Throw <-> cb_n b <= i) /\ (forall v, cb_set_val b i v = Throw <-> cb_n b <= i).
Proof. intros b i. split; [| split; [| split; [| intros v]]]; apply cb_upd_throws_iff. Qed.

Theorem cb_upd_ops_never_undef : forall b i,
  cb_set b i <> Undef /\ cb_reset b i <> Undef /\ cb_flip b i <> Undef /\ (forall v, cb_set_val b i v <> Undef).
Proof. intros b i. split; [| split; [| split; [| intros v]]]; apply cb_upd_never_undef. Qed.

Theorem cb_apply_never_undef : forall b o, cb_apply b o <> Undef.
Proof.
  intros b o. destruct o as [i | i v | i | i | | | | k]; cbn [cb_apply]; try apply cb_upd_never_undef; try discriminate.
  pose proof (cb_upd_never_undef (cb_new (cb_n b)) k (fun w => N.lor w (cb_bit k))) as Hu.
  unfold cb_set. destruct (cb_upd (cb_new (cb_n b)) k (fun w => N.lor w (cb_bit k))); [discriminate | discriminate | exact Hu].
Qed.

Theorem cb_step_throw_unchanged : forall b o, cb_apply b o = Throw -> cb_step b o = b.
Proof. intros b o H. unfold cb_step. rewrite H. reflexivity. Qed.

Lemma cb_step_clean : forall b o, cb_wf b -> cb_clean b -> whole_free o = true -> cb_clean (cb_step b o).
Proof.
  intros b o Hwf Hc Ho i Hi. destruct (cb_step_spec b o Hwf) as (_ & Hn & Hbit). rewrite Hn in Hi.
  change (cb_bitat (cb_step b o) i = false). rewrite Hbit by (right; exact Ho).
  pose proof (Hc i Hi) as Hb. change (cb_bitat b i = false) in Hb.
  (* an operation at an index i0 < n leaves the padding position i >= n as it was *)
  assert (Hne : forall i0, i0 < cb_n b -> (i =? i0) = false) by (intros i0 H0; apply N.eqb_neq; lia).
  destruct o as [i0 | i0 v | i0 | i0 | | | | i0]; cbn [sb_step]; try discriminate Ho; try reflexivity;
    (destruct (N.ltb_spec i0 (cb_n b)) as [Hlt | Hge]; [rewrite (Hne i0 Hlt) |]; exact Hb).
Qed.

Lemma cb_new_clean : forall n, cb_clean (cb_new n).
Proof. intros n i _. apply (new_bitat n i). Qed.

Lemma cb_fold_clean : forall ops b, cb_wf b -> cb_clean b -> forallb whole_free ops = true ->
  cb_clean (fold_left cb_step ops b).
Proof.
  intros ops. induction ops as [| o ops IH]; intros b Hwf Hc Hf; simpl.
  - exact Hc.
  - simpl in Hf. apply andb_true_iff in Hf. destruct Hf as [Ho Hf]. apply IH.
    + apply cb_step_spec. exact Hwf.
    + apply cb_step_clean; assumption.
    + exact Hf.
Qed.

Theorem cb_run_clean_without_whole_set_ops : forall n ops, forallb whole_free ops = true -> cb_clean (cb_run n ops).
Proof. intros n ops Hf. apply cb_fold_clean; [apply cb_new_wf | apply cb_new_clean | exact Hf]. Qed.

(* with no padding positions every index >= n lies beyond the last word *)
Theorem cb_run_clean_multiple_of_64 : forall n ops, n mod 64 = 0 -> cb_clean (cb_run n ops).
Proof.
  intros n ops Hm i Hi. destruct (cb_run_sim n ops) as ([Hl _] & Hn & _). rewrite Hn in Hi, Hl.
  rewrite nth_overflow; [apply N.bits_0 |]. rewrite Hl. pose proof (count_le_wi n i Hm Hi). lia.
Qed.

(* set()/flip() write the padding bits of the last word and operator== compares them: two bitsets with the same
   members that compare different *)
Theorem cb_eqb_padding_refuted : exists n ops ops',
  cb_abs (cb_run n ops) = cb_abs (cb_run n ops') /\ cb_eqb (cb_run n ops) (cb_run n ops') = false.
Proof. exists 3, [BSetAll], [BSet 0; BSet 1; BSet 2]. split; vm_compute; reflexivity. Qed.

Theorem cb_abs_length : forall b, length (cb_abs b) = N.to_nat (cb_n b).
Proof. intros b. unfold cb_abs. rewrite map_length, seq_length. reflexivity. Qed.

Lemma abs_nth : forall b k, (k < N.to_nat (cb_n b))%nat -> nth k (cb_abs b) false = cb_mem b (N.of_nat k).
Proof.
  intros b k Hk. unfold cb_abs.
  rewrite (nth_indep _ false (cb_mem b (N.of_nat 0))) by (rewrite map_length, seq_length; exact Hk).
  rewrite (map_nth (fun i => cb_mem b (N.of_nat i))), seq_nth by exact Hk. reflexivity.
Qed.

(* cb_abs b is the list of cb_n b booleans whose k-th is test(k) *)
Lemma cb_abs_ext : forall b (l : bset), length l = N.to_nat (cb_n b) ->
  (forall k, (k < N.to_nat (cb_n b))%nat -> cb_mem b (N.of_nat k) = nth k l false) -> cb_abs b = l.
Proof.
  intros b l Hl Hk. apply (nth_ext _ _ false false).
  - rewrite cb_abs_length, Hl. reflexivity.
  - intros k Hlt. rewrite cb_abs_length in Hlt. rewrite abs_nth by exact Hlt. apply Hk. exact Hlt.
Qed.

Lemma abs_eq_iff_mem : forall a b n, cb_n a = N.of_nat n -> cb_n b = N.of_nat n ->
  (cb_abs a = cb_abs b <-> forall j, (j < n)%nat -> cb_mem a (N.of_nat j) = cb_mem b (N.of_nat j)).
Proof.
  intros a b n Ha Hb. split.
  - intros E j Hj. rewrite <- (abs_nth a j) by lia. rewrite <- (abs_nth b j) by lia. rewrite E. reflexivity.
  - intros H. unfold cb_abs. rewrite Ha, Hb, Nat2N.id. apply map_ext_in. intros j Hj. apply in_seq in Hj.
    apply H. lia.
Qed.

Theorem cb_abs_new : forall n, cb_abs (cb_new n) = bset_empty (N.to_nat n).
Proof.
  intros n. apply cb_abs_ext.
  - apply repeat_length.
  - intros k _. rewrite new_mem. symmetry. apply nth_repeat.
Qed.

Theorem cb_abs_test : forall b i, i < cb_n b -> bset_test (cb_abs b) (N.to_nat i) = cb_mem b i.
Proof.
  intros b i Hi. unfold bset_test. rewrite abs_nth by lia. rewrite N2Nat.id. reflexivity.
Qed.

(* the checked test() and set() at an index given as a nat below the size, as the users of a bitset of n bits see
   them: set() stays inside the invariants and adds k, in the membership reading and in the bset reading *)
Lemma cb_test_nat : forall b k n, cb_n b = N.of_nat n -> (k < n)%nat ->
  cb_test b (N.of_nat k) = Ok (bset_test (cb_abs b) k).
Proof.
  intros b k n Hn Hk. assert (Hi : N.of_nat k < cb_n b) by lia.
  rewrite cb_test_ok, <- (cb_abs_test b _ Hi), Nat2N.id by exact Hi. reflexivity.
Qed.

Lemma cb_set_nat : forall b k n, cb_wf b -> cb_n b = N.of_nat n -> (k < n)%nat ->
  exists b', cb_set b (N.of_nat k) = Ok b' /\ cb_wf b' /\ cb_n b' = N.of_nat n /\ (cb_clean b -> cb_clean b') /\
             (forall j, (j < n)%nat -> cb_mem b' (N.of_nat j) = Nat.eqb j k || cb_mem b (N.of_nat j)) /\
             cb_abs b' = bset_set (cb_abs b) k.
Proof.
  intros b k n Hwf Hn Hk. exists (cb_step b (BSet (N.of_nat k))).
  destruct (cb_step_spec b (BSet (N.of_nat k)) Hwf) as (Hwf' & Hn' & _). rewrite Hn in Hn'.
  assert (Hm : forall j, (j < n)%nat ->
            cb_mem (cb_step b (BSet (N.of_nat k))) (N.of_nat j) = Nat.eqb j k || cb_mem b (N.of_nat j)).
  { intros j Hj. rewrite cb_step_mem by (try exact Hwf; lia). cbn [sb_step]. rewrite (proj2 (N.ltb_lt _ _)) by lia.
    f_equal. apply eq_true_iff_eq. rewrite N.eqb_eq, Nat.eqb_eq. lia. }
  split; [apply cb_set_in_range; lia |]. split; [exact Hwf' |]. split; [exact Hn' |].
  split; [intros Hc; apply cb_step_clean; [exact Hwf | exact Hc | reflexivity] |]. split; [exact Hm |].
  unfold bset_set. apply cb_abs_ext; rewrite Hn', Nat2N.id.
  - rewrite update_length, cb_abs_length, Hn, Nat2N.id. reflexivity.
  - intros j Hj. rewrite (Hm j Hj), nth_update, (proj2 (Nat.ltb_lt k _)), andb_true_r, abs_nth by (rewrite ?cb_abs_length; lia).
    destruct (Nat.eqb j k); reflexivity.
Qed.

Theorem cb_abs_set : forall b b' i, cb_wf b -> cb_set b i = Ok b' -> cb_abs b' = bset_set (cb_abs b) (N.to_nat i).
Proof.
  intros b b' i Hwf Hs. destruct (N.lt_ge_cases i (cb_n b)) as [Hi | Hi].
  - destruct (cb_set_nat b (N.to_nat i) (N.to_nat (cb_n b)) Hwf) as (c & Hc & _ & _ & _ & _ & Ha);
      [symmetry; apply N2Nat.id | lia |].
    rewrite N2Nat.id, Hs in Hc. injection Hc as <-. exact Ha.
  - unfold cb_set in Hs. rewrite cb_upd_throw in Hs by exact Hi. discriminate Hs.
Qed.

Lemma bset_or_map : forall (X : Type) (f g : X -> bool) l,
  bset_or (map f l) (map g l) = map (fun i => f i || g i) l.
Proof.
  intros X f g l. induction l as [| x l IH]; [reflexivity |]. cbn [map bset_or]. rewrite IH. reflexivity.
Qed.

Theorem cb_abs_add : forall a b, cb_wf a -> cb_wf b -> cb_n a = cb_n b ->
  cb_abs (cb_add a b) = bset_or (cb_abs a) (cb_abs b).
Proof.
  intros a b Ha Hb Hn. unfold cb_abs. change (cb_n (cb_add a b)) with (cb_n a).
  rewrite <- Hn, bset_or_map. apply map_ext. intros k.
  rewrite !cb_mem_bitat. change (cb_n (cb_add a b)) with (cb_n a). rewrite <- Hn.
  destruct (N.of_nat k <? cb_n a); [| reflexivity].
  apply add_bitat; assumption.
Qed.

(* cb_flip_all b is the step cb_step b BFlipAll, by computation *)
Theorem cb_abs_flip_all : forall b, cb_wf b -> cb_abs (cb_flip_all b) = map negb (cb_abs b).
Proof.
  intros b Hwf. unfold cb_abs. cbn [cb_flip_all cb_n]. rewrite map_map. apply map_ext_in.
  intros k Hk. apply in_seq in Hk. apply (cb_step_mem b BFlipAll); [exact Hwf | lia].
Qed.

(* without cleanliness: equal words still give equal sets *)
Theorem cb_eqb_same_set : forall a b, cb_n a = cb_n b -> cb_eqb a b = true -> cb_abs a = cb_abs b.
Proof.
  intros a b Hn He. unfold cb_eqb in He. rewrite (list_eqb_spec N N.eqb N.eqb_eq) in He.
  destruct a as [na da]; destruct b as [nb db]. cbn [cb_n cb_data] in *. subst. reflexivity.
Qed.

Theorem cb_eqb_iff_same_set : forall a b, cb_wf a -> cb_wf b -> cb_n a = cb_n b -> cb_clean a -> cb_clean b ->
  (cb_eqb a b = true <-> cb_abs a = cb_abs b).
Proof.
  intros a b Ha Hb Hn Hca Hcb. split; [apply cb_eqb_same_set; exact Hn |].
  intros Habs. unfold cb_eqb. rewrite (list_eqb_spec N N.eqb N.eqb_eq).
  (* equal sets and clean padding: every position of every word agrees *)
  assert (Hbit : forall i, cb_bitat a i = cb_bitat b i).
  { intros i. destruct (N.lt_ge_cases i (cb_n a)) as [Hi | Hi].
    - pose proof (cb_abs_test a i Hi) as Hta. rewrite Habs, cb_abs_test in Hta by (rewrite <- Hn; exact Hi).
      rewrite !cb_mem_bitat, <- Hn, (proj2 (N.ltb_lt _ _) Hi) in Hta. symmetry. exact Hta.
    - pose proof (Hca i Hi) as H1. rewrite Hn in Hi. pose proof (Hcb i Hi) as H2.
      unfold cb_bitat. rewrite H1, H2. reflexivity. }
  apply (nth_ext _ _ 0 0).
  - rewrite (proj1 Ha), (proj1 Hb), Hn. reflexivity.
  - intros k Hk. apply N.bits_inj. intros m. destruct (N.lt_ge_cases m 64) as [Hm | Hm].
    + specialize (Hbit (64 * N.of_nat k + m)). unfold cb_bitat in Hbit.
      destruct (idx_split_join (N.of_nat k) m Hm) as [Hd Hr]. rewrite Hd, Hr, Nat2N.id in Hbit. exact Hbit.
    + rewrite (small_bits _ m (cb_word_small a k Ha) Hm), (small_bits _ m (cb_word_small b k Hb) Hm). reflexivity.
Qed.

Print Assumptions cb_run_wf.
Print Assumptions cb_run_refines.
Print Assumptions cb_word_index_in_bounds.
Print Assumptions cb_run_clean_without_whole_set_ops.
Print Assumptions cb_run_clean_multiple_of_64.
Print Assumptions cb_abs_add.
Print Assumptions cb_abs_set.
Print Assumptions cb_eqb_iff_same_set.
