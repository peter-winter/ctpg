(* The nullable / FIRST iteration of the generator reaches a fixed point within its fuel, and the resulting tables
   pass the validator's tables_closed check. Both passes are flagged passes (Proofs/GenLists.v): [estep] / [fstep]
   say what a pass does with one rule, [echanged] / [fchanged] whether it raises the flag. A step that raises it
   has set at least one more bit, and the size of the table bounds the number of set bits. *)
Require Import Ctpg.Base.Prelude Ctpg.Proofs.ListFacts Ctpg.Model.Grammar Ctpg.Model.LRGen Ctpg.Valid.LRValid
               Ctpg.Proofs.LRReflect Ctpg.Proofs.GenLists Ctpg.Proofs.GenWf.

(* bit by bit, so that the operations are read off the equations of Proofs/LRReflect.v; counting goes by [ble_cons] *)
Definition ble (a b : bset) : Prop := length a = length b /\ forall j, bset_test a j = true -> bset_test b j = true.
Definition bcount (s : bset) : nat := length (filter (fun b => b) s).

Lemma ble_set s i : ble s (bset_set s i).
Proof. split; [symmetry; apply bset_set_length|intros j; apply bset_set_mono]. Qed.

Lemma ble_set_both a b i : ble a b -> ble (bset_set a i) (bset_set b i).
Proof.
  intros [L H]. split; [rewrite !bset_set_length; exact L|]. intros j. rewrite !bset_test_set_eq, L.
  intros [->|Hj%H]%orb_prop; [reflexivity|rewrite Hj; apply orb_true_r].
Qed.

Lemma ble_or_both a b c : ble a b -> ble (bset_or a c) (bset_or b c).
Proof.
  intros [L H]. split; [rewrite !bset_or_length; exact L|]. intros j. rewrite !bset_test_or, L.
  intros [Hj%H| ->]%orb_prop; [rewrite Hj; reflexivity|apply orb_true_r].
Qed.

Lemma ble_empty s : ble (bset_empty (length s)) s.
Proof. split; [apply bset_empty_length|]. intros j. rewrite bset_test_empty. discriminate. Qed.

Lemma ble_cons x a y b : ble (x :: a) (y :: b) -> (x = true -> y = true) /\ ble a b.
Proof. intros [[= L] H]. split; [exact (H 0)|]. split; [exact L|exact (fun j => H (S j))]. Qed.

Lemma bcount_le_length s : bcount s <= length s.
Proof. unfold bcount. induction s as [|[|] s IH]; cbn; lia. Qed.

Lemma ble_count a : forall b, ble a b -> bcount a <= bcount b.
Proof.
  unfold bcount. induction a as [|x a IH]; intros [|y b] H; try (destruct H; discriminate); [cbn; lia|].
  apply ble_cons in H as [Hxy H]. specialize (IH b H). destruct x, y; try discriminate (Hxy eq_refl); cbn; lia.
Qed.

Lemma bset_eqb_eq a b : bset_eqb a b = true -> a = b.
Proof. apply (list_eqb_spec bool Bool.eqb Bool.eqb_true_iff). Qed.

Lemma ble_count_lt a : forall b, ble a b -> bset_eqb a b = false -> bcount a < bcount b.
Proof.
  unfold bcount, bset_eqb. induction a as [|x a IH]; intros [|y b] H E; try (destruct H; discriminate).
  apply ble_cons in H as [Hxy H]. pose proof (ble_count _ _ H) as Hle. unfold bcount in Hle. specialize (IH b H).
  destruct x, y; try discriminate (Hxy eq_refl); cbn in *; try specialize (IH E); lia.
Qed.

Lemma bcount_empty n : bcount (bset_empty n) = 0.
Proof. unfold bcount, bset_empty. induction n; cbn; auto. Qed.

Lemma bset_set_changes s i : i < length s -> bset_test s i = false -> bset_eqb s (bset_set s i) = false.
Proof.
  unfold bset_test, bset_set, bset_eqb. revert i; induction s as [|b s IH]; intros [|i] H E; cbn in *; try lia.
  - subst. reflexivity.
  - rewrite IH; [apply andb_false_r|lia|assumption].
Qed.

Definition rhs_n (g : grammar) (ri : rule_info) : list symbol := firstn (ri_n ri) (get_rhs g (ri_r ri)).

(* what empty_pass does with one rule, and whether it raises the flag *)
Definition estep (g : grammar) (ri : rule_info) (ne : bset) : bset :=
  if bset_test ne (ri_l ri) then ne else if all_nullable ne (rhs_n g ri) then bset_set ne (ri_l ri) else ne.
Definition echanged (g : grammar) (ri : rule_info) (ne : bset) : bool :=
  negb (bset_test ne (ri_l ri)) && all_nullable ne (rhs_n g ri).

Lemma empty_pass_cons g ri t ne ch :
  empty_pass g (ri :: t) ne ch = empty_pass g t (estep g ri ne) (ch || echanged g ri ne).
Proof.
  cbn [empty_pass]. unfold estep, echanged, rhs_n. destruct (bset_test ne (ri_l ri)); [|destruct (all_nullable _ _)];
    cbn [negb andb]; rewrite ?orb_false_r, ?orb_true_r; reflexivity.
Qed.

Definition empty_closed (g : grammar) (ne : bset) : Prop :=
  forall ri, In ri (rule_infos g) -> echanged g ri ne = false.

Section Empty.
  Variable g : grammar.
  Hypothesis WF : wf_facts g.

  Lemma nterm_empty_spec :
    length (nterm_empty g) = nterm_count g /\ empty_closed g (nterm_empty g).
  Proof.
    apply (fix_closed (estep g) (echanged g) (empty_pass g) (fun f => empty_iter f g) (rule_infos g)
             (fun _ _ => eq_refl) (empty_pass_cons g) (fun _ _ => eq_refl)
             (fun ne => length ne = nterm_count g) bcount (nterm_count g)).
    - intros ne L. rewrite <- L. apply bcount_le_length.
    - (* a rule sets the bit of its left side when that is clear and the right side is nullable *)
      intros ri ne Hri L. unfold estep, echanged. destruct (bset_test ne (ri_l ri)) eqn:E1; [cbn [negb andb]; auto|].
      destruct (all_nullable ne (rhs_n g ri)); cbn [negb andb]; [|auto]. split; [rewrite bset_set_length; exact L|].
      apply (ri_l_lt g WF) in Hri. rewrite <- L in Hri.
      pose proof (ble_count_lt _ _ (ble_set ne (ri_l ri)) (bset_set_changes _ _ Hri E1)). lia.
    - apply bset_empty_length.
    - lia.
  Qed.
End Empty.

Definition total (nf : list bset) : nat := list_sum (map bcount nf).

Lemma total_update nf l d after : l < length nf ->
  total (update nf l after) + bcount (nth l nf d) = total nf + bcount after.
Proof.
  intros Hl. unfold total. rewrite map_update.
  rewrite <- (list_sum_update (map bcount nf) l (bcount after)) by (rewrite map_length; assumption).
  f_equal. rewrite (nth_indep _ 0 (bcount d)) by (rewrite map_length; assumption).
  rewrite map_nth. reflexivity.
Qed.

Lemma total_bound n nf : Forall (fun r => length r = n) nf -> total nf <= length nf * n.
Proof.
  intros H. unfold total. pose proof (list_sum_bound (map bcount nf) n) as HB. rewrite map_length in HB. apply HB.
  apply Forall_forall. intros x Hx. apply in_map_iff in Hx. destruct Hx as (r & <- & Hr).
  rewrite Forall_forall in H. rewrite <- (H r Hr). apply bcount_le_length.
Qed.

Lemma first_of_syms_ble g ne nf acc r : ble acc (first_of_syms g ne nf acc r).
Proof. split; [symmetry; apply first_of_syms_length|intros j; apply first_of_syms_mono]. Qed.

Lemma first_of_syms_mono_acc g ne nf acc acc' r :
  ble acc acc' -> ble (first_of_syms g ne nf acc r) (first_of_syms g ne nf acc' r).
Proof.
  revert acc acc'; induction r as [|[i|n] r IH]; intros acc acc' H; cbn.
  - assumption.
  - apply ble_set_both; assumption.
  - destruct (bset_test ne n); [apply IH|]; apply ble_or_both; assumption.
Qed.

(* what first_pass does with one rule, and whether it raises the flag *)
Definition fafter (g : grammar) (ne : bset) (ri : rule_info) (nf : list bset) : bset :=
  first_of_syms g ne nf (nth (ri_l ri) nf (bset_empty (term_count g))) (rhs_n g ri).
Definition fstep (g : grammar) (ne : bset) (ri : rule_info) (nf : list bset) : list bset :=
  update nf (ri_l ri) (fafter g ne ri nf).
Definition fchanged (g : grammar) (ne : bset) (ri : rule_info) (nf : list bset) : bool :=
  negb (bset_eqb (nth (ri_l ri) nf (bset_empty (term_count g))) (fafter g ne ri nf)).

Definition first_closed (g : grammar) (ne : bset) (nf : list bset) : Prop :=
  forall ri, In ri (rule_infos g) -> fchanged g ne ri nf = false.

Section First.
  Variable g : grammar.
  Hypothesis WF : wf_facts g.
  Variable ne : bset.

  Lemma nterm_first_spec :
    (length (nterm_first g ne) = nterm_count g /\
     Forall (fun r => length r = term_count g) (nterm_first g ne)) /\
    first_closed g ne (nterm_first g ne).
  Proof.
    apply (fix_closed (fstep g ne) (fchanged g ne) (first_pass g ne) (fun f => first_iter f g ne) (rule_infos g)
             (fun _ _ => eq_refl) (fun _ _ _ _ => eq_refl) (fun _ _ => eq_refl)
             (fun nf => length nf = nterm_count g /\ Forall (fun r => length r = term_count g) nf)
             total (nterm_count g * term_count g)).
    - intros nf (L & R). rewrite <- L. apply total_bound. exact R.
    - (* a rule adds FIRST of its right side to the row of its left side *)
      intros ri nf Hri (L & R). unfold fstep, fchanged.
      set (before := nth (ri_l ri) nf (bset_empty (term_count g))). set (after := fafter g ne ri nf).
      assert (ri_l ri < length nf) as Hlt by (rewrite L; apply (ri_l_lt g WF); exact Hri).
      assert (ble before after) as Hba by apply first_of_syms_ble.
      pose proof (total_update nf (ri_l ri) (bset_empty (term_count g)) after Hlt) as Ht. fold before in Ht.
      split; [split; [rewrite update_length; exact L|]|].
      + apply Forall_update; [exact R|]. rewrite <- (proj1 Hba). rewrite Forall_forall in R. apply R, nth_In, Hlt.
      + pose proof (ble_count _ _ Hba). split; [lia|]. destruct (bset_eqb before after) eqn:E; cbn [negb].
        * apply bset_eqb_eq in E. rewrite <- E. apply update_nth_same.
        * pose proof (ble_count_lt _ _ Hba E). lia.
    - split; [apply repeat_length|]. apply Forall_forall. intros x Hx. apply repeat_spec in Hx. subst. apply bset_empty_length.
    - lia.
  Qed.
End First.

Theorem gen_tables_closed g : grammar_wf g = true ->
  tables_closed g (nterm_empty g) (nterm_first g (nterm_empty g)) = true.
Proof.
  intros Hwf. pose proof (wf_facts_of _ Hwf) as WF.
  destruct (nterm_empty_spec g WF) as (Lne & Cne).
  destruct (nterm_first_spec g WF (nterm_empty g)) as ((Lnf & Rnf) & Cnf).
  set (ne := nterm_empty g) in *. set (nf := nterm_first g ne) in *.
  unfold tables_closed. rewrite Lne, Lnf, !Nat.eqb_refl. cbn [andb].
  apply andb_true_iff. split.
  - apply forallb_forall. intros f Hf. rewrite Forall_forall in Rnf. rewrite (Rnf f Hf). apply Nat.eqb_refl.
  - apply forallb_forall. intros ri Hri.
    destruct (wf_in_rule_infos _ WF _ Hri) as (i & Hi & Eri).
    assert (rhs_n g ri = get_rhs g (ri_r ri)) as Erhs by (subst ri; apply wf_firstn_rhs; assumption).
    apply andb_true_iff. split.
    + specialize (Cne ri Hri). unfold echanged in Cne. rewrite Erhs in Cne.
      destruct (bset_test ne (ri_l ri)); [apply orb_true_r|]. cbn [negb andb] in Cne. rewrite Cne. reflexivity.
    + apply forallb_forall. intros t _.
      destruct (bset_test (first_of_syms g ne nf (bset_empty (term_count g)) (get_rhs g (ri_r ri))) t) eqn:Et;
        [|reflexivity]. cbn [negb orb].
      pose proof (Cnf ri Hri) as Hc. apply negb_false_iff, bset_eqb_eq in Hc. unfold fafter in Hc. rewrite Erhs in Hc.
      assert (ri_l ri < length nf) as Hl by (rewrite Lnf; apply ri_l_lt; assumption).
      rewrite (nth_indep nf [] (bset_empty (term_count g)) Hl).
      set (before := nth (ri_l ri) nf (bset_empty (term_count g))) in *.
      assert (length before = term_count g) as Lb.
      { rewrite Forall_forall in Rnf. apply Rnf. apply nth_In. assumption. }
      rewrite Hc. refine (proj2 (first_of_syms_mono_acc g ne nf _ _ _ _) t Et). rewrite <- Lb. apply ble_empty.
Qed.

Lemma gen_tables_lengths g : grammar_wf g = true ->
  length (nterm_empty g) = nterm_count g /\
  length (nterm_first g (nterm_empty g)) = nterm_count g /\
  Forall (fun r => length r = term_count g) (nterm_first g (nterm_empty g)).
Proof.
  intros Hwf. pose proof (wf_facts_of _ Hwf) as WF.
  destruct (nterm_empty_spec g WF) as (Lne & _).
  destruct (nterm_first_spec g WF (nterm_empty g)) as ((Lnf & Rnf) & _). auto.
Qed.
