(* State identification on words.  ctpg.hpp keeps an LR state's kernel as a cbitset over item indices
   (kernel.set(make_situation_idx(info))) and identifies states with states[i].kernel == kernel, i.e. cbitset::operator==
   on whole 64-bit words.  The generator mirror Model/LRGen.v keeps the kernel as a list of items and compares with
   same_items (mutual inclusion).  Here: for every grammar with [wfx_facts] (Proofs/GenWf.v, the Prop reading of
   grammar_wf_extra: arities at most max_elems, which makes item_idx injective on well-formed items and below
   address_space) and every kernel of well-formed items the word-level kernel is built without a throw, is well-formed
   and clean, its members are exactly the item indices of the list, and the word comparison of two such kernels is
   same_items of the lists.  Outside the address space the set throws. *)
From Ctpg Require Import Base.Prelude Model.Grammar Model.LRGen Model.Containers Proofs.ContainersBits
                         Proofs.LRGenWordsRefine Proofs.LRReflect Proofs.CellBasics Proofs.GenWf Proofs.GenClosure.
From Coq Require Import NArith Lia List Bool.
Import ListNotations.

Definition w_kernel (g : grammar) (k : list item) : res cbitset :=
  fold_left (fun acc i => match acc with Ok b => cb_set b (N.of_nat (item_idx g i)) | r => r end) k
            (Ok (cb_new (N.of_nat (address_space g)))).

(* w_kernel by its equations: on [] the empty set, on k ++ [i] one more checked set *)
Lemma w_kernel_snoc : forall g k i,
  w_kernel g (k ++ [i]) = match w_kernel g k with Ok b => cb_set b (N.of_nat (item_idx g i)) | r => r end.
Proof. intros g k i. unfold w_kernel. rewrite fold_left_app. cbn [fold_left]. destruct (fold_left _ k _); reflexivity. Qed.

Section Kernel.
  Variable g : grammar.
  Hypothesis WFX : wfx_facts g.

  (* the members of the kernel bitset are the indices of the items *)
  Lemma w_kernel_mem : forall k, Forall (item_okP g) k ->
    exists b, w_kernel g k = Ok b /\ cb_wf b /\ cb_clean b /\ cb_n b = N.of_nat (address_space g) /\
      forall j, j < address_space g -> cb_mem b (N.of_nat j) = existsb (fun i => Nat.eqb j (item_idx g i)) k.
  Proof.
    intros k. induction k as [| i k IH] using rev_ind; intros Hok.
    - exists (cb_new (N.of_nat (address_space g))). split; [reflexivity |]. split; [apply cb_new_wf |].
      split; [apply cb_new_clean |]. split; [reflexivity |]. intros j _. apply new_mem.
    - apply Forall_app in Hok. destruct Hok as [Hk Hi]. apply Forall_inv in Hi.
      destruct (IH Hk) as (b & Hb & Hwf & Hcl & Hn & Hm).
      destruct (cb_set_nat b (item_idx g i) _ Hwf Hn (item_idx_lt g WFX i Hi)) as (b' & Hs & Hwf' & Hn' & Hcl' & Hm' & _).
      exists b'. rewrite w_kernel_snoc, Hb.
      split; [exact Hs |]. split; [exact Hwf' |]. split; [exact (Hcl' Hcl) |]. split; [exact Hn' |].
      intros j Hj. rewrite (Hm' j Hj), (Hm j Hj), existsb_app. cbn [existsb]. rewrite orb_false_r. apply orb_comm.
  Qed.

  Lemma existsb_idx_mem_item : forall k i, Forall (item_okP g) k -> item_okP g i ->
    existsb (fun i' => Nat.eqb (item_idx g i) (item_idx g i')) k = mem_item i k.
  Proof.
    intros k i Hok Hi. induction k as [| y k IH]; [reflexivity |].
    inversion Hok as [| y' k' Hy Hk]; subst y' k'. cbn [existsb mem_item]. rewrite (IH Hk).
    destruct (item_eqb i y) eqn:E.
    - apply item_eqb_eq in E. subst y. rewrite Nat.eqb_refl. reflexivity.
    - destruct (Nat.eqb_spec (item_idx g i) (item_idx g y)) as [He | He]; [| reflexivity].
      exfalso. apply item_eqb_neq in E. apply E. apply (item_idx_inj g WFX i y Hi Hy He).
  Qed.

  Theorem w_kernel_ok : forall k, Forall (item_okP g) k ->
    exists b, w_kernel g k = Ok b /\ cb_wf b /\ cb_clean b /\ cb_n b = N.of_nat (address_space g)
      /\ (forall i, item_okP g i -> cb_mem b (N.of_nat (item_idx g i)) = mem_item i k)
      /\ (forall j, j < address_space g -> cb_mem b (N.of_nat j) = true -> exists i, In i k /\ item_idx g i = j).
  Proof.
    intros k Hok. destruct (w_kernel_mem k Hok) as (b & Hf & Hwf & Hcl & Hn & Hm).
    exists b. split; [exact Hf |]. split; [exact Hwf |]. split; [exact Hcl |]. split; [exact Hn |]. split.
    - intros i Hi. rewrite (Hm _ (item_idx_lt g WFX i Hi)). apply existsb_idx_mem_item; assumption.
    - intros j Hj Hmem. rewrite (Hm j Hj) in Hmem.
      apply existsb_exists in Hmem. destruct Hmem as (i & Hin & He). apply Nat.eqb_eq in He.
      exists i. split; [exact Hin | symmetry; exact He].
  Qed.

  Theorem kernel_equality_is_same_items : forall k1 k2 b1 b2,
    Forall (item_okP g) k1 -> Forall (item_okP g) k2 ->
    w_kernel g k1 = Ok b1 -> w_kernel g k2 = Ok b2 ->
    cb_eqb b1 b2 = same_items k1 k2.
  Proof.
    intros k1 k2 b1 b2 Hok1 Hok2 Hw1 Hw2.
    destruct (w_kernel_ok k1 Hok1) as (c1 & Hc1 & Hwf1 & Hcl1 & Hn1 & Hm1 & Hx1).
    destruct (w_kernel_ok k2 Hok2) as (c2 & Hc2 & Hwf2 & Hcl2 & Hn2 & Hm2 & Hx2).
    rewrite Hw1 in Hc1. injection Hc1 as <-. rewrite Hw2 in Hc2. injection Hc2 as <-.
    apply eq_iff_eq_true.
    rewrite (cb_eqb_iff_same_set b1 b2 Hwf1 Hwf2 (eq_trans Hn1 (eq_sym Hn2)) Hcl1 Hcl2).
    rewrite (abs_eq_iff_mem b1 b2 _ Hn1 Hn2). rewrite same_items_iff.
    rewrite Forall_forall in Hok1, Hok2. split.
    - intros H x. split; intros Hx.
      + apply mem_item_In. rewrite <- (Hm2 x (Hok1 x Hx)). rewrite <- (H _ (item_idx_lt g WFX x (Hok1 x Hx))).
        rewrite (Hm1 x (Hok1 x Hx)). apply mem_item_In. exact Hx.
      + apply mem_item_In. rewrite <- (Hm1 x (Hok2 x Hx)). rewrite (H _ (item_idx_lt g WFX x (Hok2 x Hx))).
        rewrite (Hm2 x (Hok2 x Hx)). apply mem_item_In. exact Hx.
    - intros H j Hj. apply eq_iff_eq_true. split; intros Hmem.
      + destruct (Hx1 j Hj Hmem) as (i & Hin & <-). rewrite (Hm2 i (Hok1 i Hin)). apply mem_item_In. apply H. exact Hin.
      + destruct (Hx2 j Hj Hmem) as (i & Hin & <-). rewrite (Hm1 i (Hok2 i Hin)). apply mem_item_In. apply H. exact Hin.
  Qed.

  (* the set read back through the abstraction: the kernel bitset is the characteristic list of the item indices *)
  Corollary w_kernel_abs : forall k b, Forall (item_okP g) k -> w_kernel g k = Ok b ->
    cb_abs b = map (fun j => existsb (fun i => Nat.eqb j (item_idx g i)) k) (seq 0 (address_space g)).
  Proof.
    intros k b Hok Hw. destruct (w_kernel_mem k Hok) as (c & Hf & _ & _ & Hn & Hm).
    rewrite Hw in Hf. injection Hf as <-.
    unfold cb_abs. rewrite Hn, Nat2N.id. apply map_ext_in. intros j Hj. apply in_seq in Hj. apply Hm. lia.
  Qed.
End Kernel.

(* a kernel that is built has every index inside the address space; otherwise the construction throws *)
Lemma w_kernel_cases : forall g k,
  (exists b, w_kernel g k = Ok b /\ cb_n b = N.of_nat (address_space g) /\
             Forall (fun i => item_idx g i < address_space g) k)
  \/ w_kernel g k = Throw.
Proof.
  intros g k. induction k as [| y k IH] using rev_ind.
  - left. exists (cb_new (N.of_nat (address_space g))). split; [reflexivity |]. split; [reflexivity | constructor].
  - rewrite w_kernel_snoc. destruct IH as [(b & -> & Hn & Hall) | ->]; [| right; reflexivity].
    destruct (cb_set_cases b (N.of_nat (item_idx g y))) as [(b' & -> & Hn' & Hlt) | [-> _]]; [| right; reflexivity].
    left. exists b'. split; [reflexivity |]. split; [congruence |].
    apply Forall_app. split; [exact Hall | constructor; [lia | constructor]].
Qed.

Theorem w_kernel_throws_out_of_range : forall g k,
  (exists i, In i k /\ address_space g <= item_idx g i) -> w_kernel g k = Throw.
Proof.
  intros g k (i & Hin & Hge). destruct (w_kernel_cases g k) as [(b & _ & _ & Hall) | Hthr]; [| exact Hthr].
  rewrite Forall_forall in Hall. specialize (Hall i Hin). lia.
Qed.

(* the word-level kernel never performs an unchecked access *)
Theorem w_kernel_never_undef : forall g k, w_kernel g k <> Undef.
Proof. intros g k. destruct (w_kernel_cases g k) as [(b & -> & _) | ->]; discriminate. Qed.

(* kernels over the grammar LRGenWordsRefine.ex_g, which meets the hypotheses (ex_wfx) *)
Definition exk_1 : list item := [mkItem 0 1 3; mkItem 1 0 2; mkItem 3 1 0].
Definition exk_2 : list item := [mkItem 3 1 0; mkItem 0 1 3; mkItem 1 0 2; mkItem 0 1 3].   (* permuted, one repeated *)
Definition exk_3 : list item := [mkItem 0 1 3; mkItem 1 0 2; mkItem 3 1 1].                (* another lookahead *)
Definition exk_4 : list item := [mkItem 0 1 3; mkItem 1 0 2].                              (* a strict subset *)

(* the same as LRValid.item_ok (convertible); its Prop reading is GenClosure.item_ok_P *)
Definition item_okb (g : grammar) (i : item) : bool :=
  Nat.ltb (it_r i) (rule_count g) && Nat.leb (it_d i) (ri_n (get_ri g (it_r i))) && Nat.ltb (it_t i) (term_count g).

Definition eqb_of (a b : res cbitset) : option bool :=
  match a, b with Ok x, Ok y => Some (cb_eqb x y) | _, _ => None end.

(* [4194560; 2] are the bits 8, 22 of the first word and 1 of the second: the indices 8, 22, 65 *)
Example ex_kernels :
  grammar_wf_extra ex_g = true /\
  forallb (item_okb ex_g) (exk_1 ++ exk_2 ++ exk_3 ++ exk_4) = true /\
  address_space ex_g = 120 /\ map (item_idx ex_g) exk_1 = [8; 22; 65] /\
  res_map cb_data (w_kernel ex_g exk_1) = Ok [4194560%N; 2%N] /\
  eqb_of (w_kernel ex_g exk_1) (w_kernel ex_g exk_2) = Some true  /\ same_items exk_1 exk_2 = true /\
  eqb_of (w_kernel ex_g exk_1) (w_kernel ex_g exk_3) = Some false /\ same_items exk_1 exk_3 = false /\
  eqb_of (w_kernel ex_g exk_1) (w_kernel ex_g exk_4) = Some false /\ same_items exk_1 exk_4 = false /\
  w_kernel ex_g (exk_1 ++ [mkItem 7 0 0]) = Throw.
Proof. vm_compute. repeat split. Qed.

Example ex_wfx : wfx_facts ex_g.
Proof. apply wfx_facts_of. vm_compute. reflexivity. Qed.

Print Assumptions w_kernel_ok.
Print Assumptions kernel_equality_is_same_items.
Print Assumptions w_kernel_throws_out_of_range.
