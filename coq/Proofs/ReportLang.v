(* C09: what a rejection means (tree instance of the driver, validated tables).
   - prefix independence of the LR machine, immediate error detection ("no later than necessary"):
     when the error is reported with [a] pending after the tokens [u] have been shifted, no sentence begins with u ++ [a];
   - a rejecting run is exactly a run that reaches an error cell; such a run ends [stack height + 1] iterations later
     (the pop phase of Proofs/RecoveryRefines.v with no state accepting the error symbol);
   - Reject -> not derivable; derivable -> never Reject.
   The full equivalence "(exists fuel, Reject) <-> not derivable" does not follow from [validate]:
   Proofs/ReportCex.v has a crash and an infinite loop on a non-sentence, both caused by items that the validator
   tolerates although no closure put them there.  Proofs/TermAll.v proves it ([reject_iff_not_in_language]) under
   the further checks on the item sets.
   The definitions at the end are the vocabulary of the "no earlier than necessary" half (Proofs/ReportViable.v). *)
Require Import Ctpg.Base.Prelude Ctpg.Model.Grammar Ctpg.Model.LRGen Ctpg.Model.Driver Ctpg.Spec.Cfg Ctpg.Spec.LRSpec
               Ctpg.Spec.Eval Ctpg.Spec.Recovery Ctpg.Valid.LRValid Ctpg.Proofs.RecoveryRefines Ctpg.Proofs.LRMachine Ctpg.Proofs.LRValidFacts Ctpg.Proofs.LRSound
               Ctpg.Proofs.LRComplete Ctpg.Proofs.DriverBasics Ctpg.Proofs.DriverIter Ctpg.Proofs.DriverPos Ctpg.Proofs.SafeTerm
               Ctpg.Proofs.ReportOne.

Section MachineFacts.
  Variable g : grammar.
  Variable tbl : table.

  (* the configuration's top state has an error cell under the lookahead *)
  Definition err_cell (c : cfg) : Prop :=
    let '(ss, _, rest) := c in
    exists cur ss' e, ss = cur :: ss' /\ cell tbl cur (nterm_count g + look g rest) = inl e /\ e_kind e = KError.

  Lemma err_cell_fail c : err_cell c -> mstep g tbl c = Fail.
  Proof.
    destruct c as [[ss trs] rest]. intros (cur & ss' & e & -> & Hc & Hk). unfold mstep. rewrite Hc, Hk. reflexivity.
  Qed.

  Definition reach (w : list nat) (c : cfg) : Prop := exists n, msteps g tbl n ([0], [], w) c.

  Lemma reach_next w c c' : reach w c -> mstep g tbl c = Next c' -> reach w c'.
  Proof.
    intros [n H] Hs. exists (n + 1). eapply msteps_trans; [exact H|]. cbn. exists c'. auto.
  Qed.
End MachineFacts.

Section Immediate.
  Variable g : grammar.
  Variable sts : list items.
  Variable tbl : table.
  Hypothesis Hval : validate g sts tbl = true.

  Lemma fail_not_sentence w c t : reach g tbl w c -> mstep g tbl c = Fail -> tokens_ok g w -> ~ derives_tree g t w.
  Proof.
    intros [n Hr] Hf Hw Hd. unfold validate in Hval.
    destruct (complete_mrun g sts tbl _ _ (complete_facts_of _ _ _ _ _ Hval) w t Hw Hd) as (m & Hm).
    rewrite (msteps_fail_mrun g tbl n _ _ Hr Hf m) in Hm. discriminate.
  Qed.

  (* if, on input u ++ a :: v, the machine fails with a pending after the tokens of u have been shifted,
     then no sentence begins with u ++ [a] *)
  Theorem error_not_later_machine u a v ss trs :
    reach g tbl (u ++ a :: v) (ss, trs, a :: v) -> mstep g tbl (ss, trs, a :: v) = Fail ->
    tokens_ok g u -> a < eof_idx g ->
    forall v' t, tokens_ok g v' -> ~ derives_tree g t (u ++ a :: v').
  Proof.
    intros [n Hr] Hf Hu Ha v' t Hv'.
    assert (Hr' : msteps g tbl n ([0], [], (u ++ [a]) ++ v') (ss, trs, [a] ++ v')).
    { apply (msteps_tail g tbl v v'); [discriminate|]. rewrite <- app_assoc. exact Hr. }
    rewrite <- app_assoc in Hr'. cbn [app] in Hr'.
    pose proof (mstep_swap g tbl ss trs (a :: v) (a :: v') eq_refl) as Hsw. rewrite Hf in Hsw.
    eapply fail_not_sentence; [exists n; exact Hr'|exact Hsw|].
    apply Forall_app. split; [assumption|]. constructor; assumption.
  Qed.

  (* at the end of input the failure only says that the input itself is no sentence
     (it may well be a proper prefix of one) *)
  Theorem error_at_eof_machine w ss trs :
    reach g tbl w (ss, trs, []) -> mstep g tbl (ss, trs, []) = Fail -> tokens_ok g w -> ~ derives g w.
  Proof. intros Hr Hf Hw [t Hd]. eapply fail_not_sentence; eassumption. Qed.
End Immediate.

Section TreeDriver.
  Variable g : grammar.
  Variable sts : list items.
  Variable tbl : table.
  Variable w : list nat.
  Hypothesis SF : sound_facts g sts tbl.
  Hypothesis Hne : no_error_symbol g tbl = true.
  Hypothesis Hw : tokens_ok g w.

  Notation dstate := (pstate tree unit).
  Notation dstep := (step tree unit g tbl tree_opts w None id_lexer tf (ef g) rlf).
  Notation dgh := (run_gh tree unit g tbl tree_opts w None id_lexer tf (ef g) rlf).
  Notation rch := (reach g tbl w).

  Lemma reach_SInv c : rch c -> SInv g sts w c.
  Proof. intros [n H]. exact (msteps_SInv g sts tbl w SF n _ _ H (SInv_init g sts w Hw)). Qed.

  (* a loop-head state is either a machine configuration reached from the start, or in recovery mode after an error
     cell, with a stack in the domain of the pop phase *)
  Definition dinv (s : dstate) : Prop :=
    (normal w s /\ rch (abs w s)) \/
    (ps_rec s = true /\ ps_cons s = false /\ ps_cursors s <> [] /\ pop_defined g tbl (ps_cursors s) = true /\
     exists c, rch c /\ err_cell g tbl c).

  (* how a run may end: with Reject only after an error cell, with a crash or Throw only where the machine fails on a
     cell that is no error cell *)
  Definition dfin (r : result tree) : Prop :=
    (r = Reject -> exists c, rch c /\ err_cell g tbl c) /\
    match r with
    | Crash _ | Throw => exists c, rch c /\ mstep g tbl c = Fail /\ ~ err_cell g tbl c
    | _ => True
    end.

  Lemma nv_nil_not_in ev e : nv ev = [] -> is_nonverbose e = true -> ~ In e ev.
  Proof.
    intros Hn He Hin. assert (In e (nv ev)) as H by (apply filter_In; auto). rewrite Hn in H. destruct H.
  Qed.

  (* every stacked state is a row of the table, with an error cell in the error column *)
  Lemma stack_pop_defined c : SInv g sts w c -> pop_defined g tbl (fst (fst c)) = true /\ fst (fst c) <> [].
  Proof.
    destruct c as [[ss trs] rest]. intros (syms & Hst & _). cbn [fst]. split.
    - pose proof (stk_all_lt g sts tbl SF _ _ Hst) as Hall. clear Hst.
      induction Hall as [|st cs Hlt _ IH]; [reflexivity|]. cbn [pop_defined]. rewrite IH.
      assert (Hc : nterm_count g + err_idx g < symbol_count g) by (pose proof (sf_tc _ _ _ SF); unfold symbol_count, err_idx; lia).
      pose proof (cell_in_range g sts tbl SF st _ Hlt Hc) as E.
      unfold rejects_err, cell_kind, Recovery.err_col, term_col. rewrite E, (no_error_symbol_cell g tbl Hne _ _ E).
      apply orb_true_r.
    - apply stk_len in Hst. destruct ss; [discriminate|discriminate].
  Qed.

  Lemma dinv_step s : dinv s ->
    match fst (dstep s) with
    | inl s' => dinv s'
    | inr (r, s') => dfin r
    end.
  Proof.
    intros [[Hn Hr]|(Hrec & Hcons & Hcs & Hdef & Hex)].
    - pose proof (tree_step_sim g tbl w s Hn) as H. destruct (mstep g tbl (abs w s)) as [c'|v| |] eqn:Em.
      + destruct H as (s' & ev & -> & _ & Hn' & <-). left. split; [assumption|]. eapply reach_next; eassumption.
      + destruct H as (s' & ev & -> & _). split; [discriminate|exact I].
      + destruct H as [(c & s' & ev & -> & _ & Hne')|(s1 & ev1 & cur & cs & -> & _ & Hcs & _ & Ecs & e & He)]; cbn [fst].
        * split; [discriminate|]. exists (abs w s). repeat split; auto.
          intros (cur & ss' & e & Ecs & He). apply (Hne' _ _ Ecs). exists e. exact He.
        * right. destruct (stack_pop_defined _ (reach_SInv _ Hr)) as [H1 H2].
          cbn [set_modes ps_rec ps_cons ps_cursors]. rewrite Hcs.
          repeat split; [assumption..|]. exists (abs w s). split; [assumption|exists cur, cs, e; auto].
      + destruct (SInv_not_bad g sts tbl w SF _ (reach_SInv _ Hr) Em).
    - (* a pop: the top rejects the error symbol, the rest of the stack is in the domain still *)
      destruct (ps_cursors s) as [|c0 below] eqn:Ecs; [congruence|]. cbn [pop_defined] in Hdef.
      rewrite (empty_col_acc g tbl c0 (no_error_symbol_cell g tbl Hne)) in Hdef. apply andb_true_iff in Hdef as [Hj Hdef].
      rewrite (step_pop tree unit g tbl tree_opts w None id_lexer tf (ef g) rlf s c0 below Hrec Hcons Ecs Hj).
      destruct below; cbn [fst]; [split; [auto|exact I]|].
      right. cbn [set_stacks ps_rec ps_cons ps_cursors]. repeat split; auto. discriminate.
  Qed.

  Theorem tree_run_inv fuel :
    let '(r, s', out, vis) := dgh fuel (init tt) [] [] in
    Forall dinv vis /\ dfin r.
  Proof.
    pose proof (run_gh_sinv tree unit g tbl tree_opts w None id_lexer tf (ef g) rlf dinv (fun r _ => dfin r)) as H.
    specialize (H ltac:(intros s _; split; [discriminate|exact I]) dinv_step fuel (init tt) [] []).
    destruct (dgh fuel (init tt) [] []) as [[[r s'] out] vis].
    destruct H as [H1 H2]; [|constructor|auto].
    left. split; [apply init_normal|]. rewrite init_abs. exists 0. reflexivity.
  Qed.

  Corollary tree_run_fin fuel : dfin (tree_run g tbl w fuel).
  Proof.
    rewrite tree_run_eq, (run_gh_run _ _ _ _ _ _ _ _ _ _ _ _ _ _ []).
    pose proof (tree_run_inv fuel) as H. destruct (dgh fuel (init tt) [] []) as [[[r s'] out] vis]. apply H.
  Qed.

  Lemma syntax_error_at se p t : dinv se -> In (EvSyntaxError p t) (snd (dstep se)) ->
    rch (abs w se) /\ err_cell g tbl (abs w se) /\ t = look g (skipn (ps_it se) w).
  Proof.
    intros [[Hn Hr]|(Hrec & Hcons & _)] Hin.
    - pose proof (tree_step_sim g tbl w se Hn) as H.
      destruct (mstep g tbl (abs w se)) as [c'|v| |] eqn:Em;
        [destruct H as (s' & ev & E & Hq & _)|destruct H as (s' & ev & E & Hq)|
         destruct H as [(c & s' & ev & E & Hq & _)|(s1 & ev1 & cur & cs & E & Hq & _ & _ & Ecs & e & He)]|];
        rewrite ?E in Hin; cbn [snd] in Hin;
        try (exfalso; eapply nv_nil_not_in; [eassumption| |exact Hin]; reflexivity).
      + apply in_app_or in Hin. destruct Hin as [Hin|[E'|[E'|[]]]].
        * exfalso; eapply nv_nil_not_in; [eassumption| |exact Hin]; reflexivity.
        * inversion E'; subst. split; [assumption|]. split; [exists cur, cs, e; auto|reflexivity].
        * discriminate.
      + destruct (SInv_not_bad g sts tbl w SF _ (reach_SInv _ Hr) Em).
    - exfalso.
      destruct (pop_step_next tree unit g tbl tree_opts w None id_lexer tf (ef g) rlf se
                  (pop_step_holds tree unit g tbl tree_opts w None id_lexer tf (ef g) rlf Hne se Hrec Hcons)) as [Hq _].
      exact (nv_nil_not_in _ (EvSyntaxError p t) Hq eq_refl Hin).
  Qed.

  (* n steps of the machine from [abs w s] are n iterations of the driver from s *)
  Lemma follow n : forall s c, normal w s -> msteps g tbl n (abs w s) c ->
    exists s', normal w s' /\ abs w s' = c /\
               forall k out vis, exists out' vis', dgh (n + k) s out vis = dgh k s' out' vis'.
  Proof.
    induction n as [|n IH]; intros s c Hn H; cbn [msteps] in H.
    - exists s. split; [assumption|]. split; [assumption|]. intros k out vis. exists out, vis. reflexivity.
    - destruct H as (c1 & Hs & H). pose proof (tree_step_sim g tbl w s Hn) as Hsim. rewrite Hs in Hsim.
      destruct Hsim as (s1 & ev & Hd & _ & Hn1 & Ha1). subst c1.
      destruct (IH s1 c Hn1 H) as (s' & Hn' & Ha' & Hrun).
      exists s'. split; [assumption|]. split; [assumption|]. intros k out vis. cbn [Nat.add run_gh]. rewrite Hd. apply Hrun.
  Qed.

  (* a run that reaches an error cell after n machine steps ends with Reject: one iteration writes the message,
     then one iteration per stack entry pops *)
  Theorem error_cell_rejects n ss trs rest :
    msteps g tbl n ([0], [], w) (ss, trs, rest) -> err_cell g tbl (ss, trs, rest) ->
    tree_run g tbl w (n + (1 + length ss)) = Reject.
  Proof.
    intros Hm (cur & ss' & e & -> & Hcell & Hk).
    assert (Hr : rch (cur :: ss', trs, rest)) by (exists n; exact Hm).
    rewrite <- init_abs in Hm. destruct (follow n _ _ (init_normal w) Hm) as (s' & Hn' & Ha' & Hrun).
    rewrite tree_run_eq, (run_gh_run _ _ _ _ _ _ _ _ _ _ _ _ _ _ []).
    destruct (Hrun (1 + length (cur :: ss')) [] []) as (out' & vis' & ->). clear Hrun.
    unfold abs in Ha'. injection Ha' as Hcs Hvs Hrest.
    destruct (gct_normal g w s' Hn') as (s1 & ev1 & Hg & _). rewrite Hrest in Hg.
    destruct Hn' as (Hrec & Hcons & _).
    pose proof (no_error_symbol_cell g tbl Hne) as Herr.
    destruct (stack_pop_defined _ (reach_SInv _ Hr)) as [Hdef _]. cbn [fst] in Hdef.
    destruct (pop_phase_refines_none tree unit g tbl tree_opts w None id_lexer tf (ef g) rlf s' cur ss' s1 _ ev1 e
                Hrec Hcons Hcs Hg Hcell Hk) as (sf & ev & _ & Hst & _);
      [rewrite Hcs; exact Hdef|exact (empty_col_drop g tbl _ Herr)|].
    rewrite <- (run_gh_run _ _ _ _ _ _ _ _ _ _ _ _ _ _ vis'), <- Hcs, <- (Nat.add_0_r (1 + _)), Nat.add_comm with (n := 1).
    rewrite (steps_run_from tree unit g tbl tree_opts w None id_lexer tf (ef g) rlf), Hst. reflexivity.
  Qed.

  (* a rejecting run is exactly a run through an error cell *)
  Theorem reject_iff_error_cell :
    (exists fuel, tree_run g tbl w fuel = Reject) <-> (exists c, rch c /\ err_cell g tbl c).
  Proof.
    split.
    - intros [fuel Hf]. exact (proj1 (tree_run_fin fuel) Hf).
    - intros ([[ss trs] rest] & [n Hm] & Herr). eexists. eapply error_cell_rejects; eassumption.
  Qed.
End TreeDriver.

Lemma id_lexer_len : forall (v : bool) (p : spoint) (rest : list nat) (t len : nat),
  snd (id_lexer v p rest) = Some (t, len) -> len <= length rest.
Proof. intros v p [|c rest] t len H; cbn in H; [discriminate|]. inversion H; subst. cbn. lia. Qed.

Lemma cur_off_tree g w (s : pstate tree unit) : cur_off tree unit g tree_opts w id_lexer s = ps_it s.
Proof.
  unfold cur_off, get_current_term. cbn. destruct (ps_rec s); [reflexivity|]. destruct (negb _); [reflexivity|].
  destruct (skipn (ps_it s) w); cbn; lia.
Qed.

(* Every syntax-error line of a run, with the loop-head state [se] that wrote it as a ghost:
   k = ps_it se tokens have been shifted, the line carries the true position of offset k and the term t pending
   there (<eof> at the end), the machine stands on an error cell, and
   - if a token a is pending, NO sentence begins with (the k shifted tokens) ++ [a];
   - at the end of input, the input is not a sentence. *)
Theorem error_not_later_than_necessary g sts tbl w fuel :
  validate g sts tbl = true -> no_error_symbol g tbl = true -> tokens_ok g w ->
  let '(r, s', out, vis) := run_gh tree unit g tbl tree_opts w None id_lexer tf (ef g) rlf fuel (init tt) [] [] in
  forall se p t,
    In se vis -> In (EvSyntaxError p t) (snd (step tree unit g tbl tree_opts w None id_lexer tf (ef g) rlf se)) ->
    let k := ps_it se in
    k <= length w /\ p = true_pos w k /\ t = look g (skipn k w) /\
    (exists ss trs, reach g tbl w (ss, trs, skipn k w) /\ err_cell g tbl (ss, trs, skipn k w)) /\
    (forall a v, skipn k w = a :: v ->
                 forall v' tr, tokens_ok g v' -> ~ derives_tree g tr (firstn k w ++ a :: v')) /\
    (skipn k w = [] -> ~ derives g w).
Proof.
  intros Hval Hne Hw.
  pose proof (sound_facts_of g sts tbl (validate_validate_sound _ _ _ Hval)) as SF.
  pose proof (tree_run_inv g sts tbl w SF Hne Hw fuel) as Hinv.
  pose proof (run_gh_pos tree unit g tbl tree_opts w None id_lexer tf (ef g) rlf id_lexer_len
                (or_intror eq_refl) fuel tt) as Hpos.
  destruct (run_gh tree unit g tbl tree_opts w None id_lexer tf (ef g) rlf fuel (init tt) [] []) as [[[r s'] out] vis].
  destruct Hinv as [Hinv _]. destruct Hpos as (_ & _ & Hfin & Hpos & _).
  intros se p t Hse Hin k. rewrite Forall_forall in Hinv, Hfin, Hpos.
  destruct (syntax_error_at g sts tbl w SF Hne Hw se p t (Hinv se Hse) Hin) as (Hr & Herr & Ht).
  specialize (Hpos se Hse). rewrite Forall_forall in Hpos. specialize (Hpos _ Hin).
  rewrite cur_off_tree in Hpos. destruct Hpos as (_ & Hp & _).
  split; [apply (Hfin se Hse)|]. split; [apply Hp; reflexivity|]. split; [exact Ht|].
  unfold abs in Hr, Herr. fold k in Hr, Herr.
  split; [eauto|].
  assert (Hsplit : firstn k w ++ skipn k w = w) by apply firstn_skipn.
  assert (Hw' : tokens_ok g (firstn k w) /\ tokens_ok g (skipn k w)).
  { unfold tokens_ok in *. rewrite <- Hsplit in Hw. apply Forall_app in Hw. exact Hw. }
  destruct Hw' as [Hw1 Hw2].
  split.
  - intros a v E v' tr Hv'. rewrite E in Hr, Herr, Hw2, Hsplit.
    eapply (error_not_later_machine g sts tbl Hval (firstn k w) a v); try eassumption.
    + rewrite Hsplit. exact Hr.
    + apply err_cell_fail. exact Herr.
    + inversion Hw2; assumption.
  - intros E. rewrite E in Hr, Herr.
    eapply (error_at_eof_machine g sts tbl Hval w); try eassumption. apply err_cell_fail. exact Herr.
Qed.

(* the same read off the stream alone: every syntax-error line of the output *)
Corollary syntax_error_message_immediate g sts tbl w fuel :
  validate g sts tbl = true -> no_error_symbol g tbl = true -> tokens_ok g w ->
  let '(r, s', out) := run tree unit g tbl tree_opts w None id_lexer tf (ef g) rlf fuel tt in
  forall p t, In (EvSyntaxError p t) out ->
    exists k, k <= length w /\ p = true_pos w k /\ t = look g (skipn k w) /\
      (forall a v, skipn k w = a :: v ->
                   forall v' tr, tokens_ok g v' -> ~ derives_tree g tr (firstn k w ++ a :: v')) /\
      (skipn k w = [] -> ~ derives g w).
Proof.
  intros Hval Hne Hw. rewrite run_of_gh.
  pose proof (error_not_later_than_necessary g sts tbl w fuel Hval Hne Hw) as H.
  pose proof (run_gh_out tree unit g tbl tree_opts w None id_lexer tf (ef g) rlf fuel (init tt) [] [] [] eq_refl) as Ho.
  destruct (run_gh tree unit g tbl tree_opts w None id_lexer tf (ef g) rlf fuel (init tt) [] []) as [[[r s'] out] vis].
  intros p t Hin. cbn [app] in Ho. subst out. apply filter_In in Hin. destruct Hin as [Hin _].
  unfold all_events in Hin. apply in_flat_map in Hin. destruct Hin as (se & Hse & Hin).
  destruct (H se p t Hse Hin) as (H1 & H2 & H3 & _ & H5 & H6).
  exists (ps_it se). auto.
Qed.

Section Language.
  Variable g : grammar.
  Variable sts : list items.
  Variable tbl : table.
  Variable w : list nat.
  Hypothesis Hval : validate g sts tbl = true.
  Hypothesis Hw : tokens_ok g w.

  (* the two provable halves (completeness + determinism) *)
  Theorem reject_not_derivable fuel : tree_run g tbl w fuel = Reject -> ~ derives g w.
  Proof.
    intros Hr [t Hd]. destruct (lr_complete g sts tbl w t Hval Hw Hd) as [fuel' Ha].
    rewrite tree_run_eq in Hr, Ha.
    rewrite (run_from_det _ _ _ _ _ _ _ _ _ _ _ fuel fuel' (init tt) []), Ha in Hr; [|rewrite Hr|rewrite Ha]; discriminate.
  Qed.

  Theorem derivable_never_rejected : derives g w -> forall fuel, tree_run g tbl w fuel <> Reject.
  Proof. intros Hd fuel Hr. exact (reject_not_derivable fuel Hr Hd). Qed.

  Hypothesis Hne : no_error_symbol g tbl = true.

  Theorem not_derivable_never_accepted : ~ derives g w -> forall fuel t, tree_run g tbl w fuel <> Accept t.
  Proof.
    intros Hnd fuel t Ha. apply Hnd. exists t.
    apply (lr_sound g sts tbl w t (validate_validate_sound _ _ _ Hval) Hne Hw). exists fuel. exact Ha.
  Qed.

  (* a run is rejected iff it reaches an error cell, and then the input is no sentence;
     conversely, if the run on a non-sentence comes to a normal end at all, it is rejected *)
  Theorem reject_iff_not_in_language_partial :
    ((exists fuel, tree_run g tbl w fuel = Reject) <-> (exists c, reach g tbl w c /\ err_cell g tbl c)) /\
    ((exists fuel, tree_run g tbl w fuel = Reject) -> ~ derives g w) /\
    ((exists fuel, tree_run g tbl w fuel = Reject \/ exists t, tree_run g tbl w fuel = Accept t) ->
     ((exists fuel, tree_run g tbl w fuel = Reject) <-> ~ derives g w)).
  Proof.
    pose proof (sound_facts_of g sts tbl (validate_validate_sound _ _ _ Hval)) as SF.
    split; [apply (reject_iff_error_cell g sts tbl w SF Hne Hw)|].
    split; [intros [fuel Hr]; exact (reject_not_derivable fuel Hr)|].
    intros [fuel Hend]. split; [intros [f Hr]; exact (reject_not_derivable f Hr)|].
    intros Hnd. destruct Hend as [Hr|[t Ha]]; [eauto|].
    exfalso. exact (not_derivable_never_accepted Hnd fuel t Ha).
  Qed.
End Language.

Inductive reachable (g : grammar) : nat -> Prop :=
| reach_root x : root_symbol g = Some (NT x) -> reachable g x
| reach_rule l r rhs m : reachable g l -> is_rule g r l rhs -> In (NT m) rhs -> reachable g m.
(* every nonterminal reachable from the root derives a terminal string *)
Definition productive (g : grammar) : Prop := forall l, reachable g l -> exists t, valid_tree g (NT l) t.
(* u is a prefix of a sentence *)
Definition sentence_prefix (g : grammar) (u : list nat) : Prop := exists v t, derives_tree g t (u ++ v).

Print Assumptions error_not_later_machine.
Print Assumptions error_at_eof_machine.
Print Assumptions error_not_later_than_necessary.
Print Assumptions syntax_error_message_immediate.
Print Assumptions error_cell_rejects.
Print Assumptions reject_iff_error_cell.
Print Assumptions reject_not_derivable.
Print Assumptions derivable_never_rejected.
Print Assumptions reject_iff_not_in_language_partial.
