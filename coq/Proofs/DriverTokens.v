(* C18: the driver consults the lexer exactly at the token boundaries of [tokenize]; the run depends on the lexer
   only through the token stream it defines on the buffer.  The place of a loop-head state is kept here against
   [tokenize] itself ([tok_at]); Proofs/DriverStream.v keeps it against the relation [stream] ([stands]), and
   [DriverStream.stream_tokenize] is the link between the two. *)
Require Import Ctpg.Base.Prelude Ctpg.Proofs.ListFacts Ctpg.Model.Grammar Ctpg.Model.LRGen Ctpg.Model.Driver
               Ctpg.Spec.Eval.
Require Import Ctpg.Proofs.DriverVerbose Ctpg.Proofs.DriverBasics Ctpg.Proofs.DriverIter Ctpg.Proofs.DriverPos.

Definition lexer_t := bool -> spoint -> list nat -> list lex_event * option (nat * nat).
Definition end_of_tok (tk : nat * nat * nat) : nat := let '(_, start, len) := tk in start + len.
(* the lexer's answer does not depend on the source point (which a lexer only uses for its trace) *)
Definition sp_indep (lexer : lexer_t) : Prop := forall v p q rest, snd (lexer v p rest) = snd (lexer v q rest).
Definition is_lex_ev (e : event) : bool := match e with EvLex _ => true | _ => false end.
Definition non_lex (l : list event) : list event := filter (fun e => negb (is_lex_ev e)) l.

Section TokSpec.
  Variable g : grammar.
  Variable opts : options.
  Variable buf : list nat.
  Variable lexer : lexer_t.

  Notation tokz F pos := (tokenize F opts lexer buf pos).

  (* [pre] is a prefix of the token stream and ends at offset [pos] *)
  Definition consumed_upto (pre : list (nat * nat * nat)) (pos : nat) : Prop :=
    forall F, tokz (length pre + F) 0 = (pre ++ fst (tokz F pos), snd (tokz F pos)).

  (* the token [tokenize] finds after offset pos *)
  Definition next_tok (pos : nat) (tk : nat * nat * nat) : Prop :=
    let '(t, start, len) := tk in
    start = pos + wsk opts buf pos /\
    exists c rest, skipn start buf = c :: rest /\
                   snd (lexer (o_verbose opts) (true_pos buf start) (c :: rest)) = Some (t, len).

  Lemma consumed_0 : consumed_upto [] 0.
  Proof. intros F. cbn. destruct (tokz F 0); reflexivity. Qed.

  Lemma tokenize_next F pos tk : next_tok pos tk ->
    tokz (S F) pos = (tk :: fst (tokz F (end_of_tok tk)), snd (tokz F (end_of_tok tk))).
  Proof.
    destruct tk as [[t start] len]. intros (-> & c & rest & Hsk & Hlx). rewrite tokenize_S, Hsk, Hlx. cbn [end_of_tok].
    destruct (tokz F _); reflexivity.
  Qed.

  Lemma consumed_next pre pos tk : consumed_upto pre pos -> next_tok pos tk -> consumed_upto (pre ++ [tk]) (end_of_tok tk).
  Proof.
    intros Hc Hn F. rewrite app_length. cbn [length]. replace (length pre + 1 + F) with (length pre + S F) by lia.
    rewrite Hc, (tokenize_next F pos tk Hn). cbn [fst snd]. now rewrite <- app_assoc.
  Qed.
End TokSpec.

Section Tokens.
  Variables V C : Type.
  Variable g : grammar.
  Variable tbl : table.
  Variable opts : options.
  Variable buf : list nat.
  Variable cap : option nat.
  Variable lexer : lexer_t.
  Variable term_f : nat -> nat -> nat -> spoint -> V.
  Variable err_f : spoint -> V.
  Variable rule_f : nat -> C -> list V -> C * V.

  Hypothesis lexer_ok : lexer_in_range lexer.
  (* [tokenize] hands the lexer the true position; so does the driver (C10) unless the table shifts <eof>.
     Either that is excluded or the lexer's answer must not depend on the source point. *)
  Hypothesis sp_ok : eof_err_not_shifted g tbl \/ sp_indep lexer.

  Notation pst := (pstate V C).
  Notation stepx := (step V C g tbl opts buf cap lexer term_f err_f rule_f).
  Notation run_ghx := (run_gh V C g tbl opts buf cap lexer term_f err_f rule_f).
  Notation gspec := (gct_spec V C g opts buf lexer).
  Notation pinv := (pos_inv V C g tbl buf).
  Notation ntok := (next_tok opts buf lexer).
  Notation cupto := (consumed_upto opts buf lexer).

  (* where the driver stands relative to the token boundary pos *)
  Inductive tok_at (pos : nat) (s : pst) : Prop :=
  | TaBoundary : ps_it s = pos -> ps_end s = pos -> tok_at pos s
  | TaPending t len : ntok pos (t, ps_it s, len) -> ps_end s = ps_it s + len -> ps_term s = Some t -> tok_at pos s
  | TaEof : skipn (pos + wsk opts buf pos) buf = [] -> ps_it s = pos + wsk opts buf pos -> ps_end s = pos ->
            ps_term s = Some (eof_idx g) -> tok_at pos s.

  (* the position invariant under the left side of [sp_ok]; under the right side the tracked point does not matter *)
  Definition sp_inv (s : pst) : Prop := eof_err_not_shifted g tbl -> pinv s.

  (* whenever the driver is about to consult the lexer its cursor is on the boundary *)
  Lemma consult_on_boundary pos s : tok_at pos s -> ps_it s = ps_end s -> pos = ps_it s.
  Proof.
    intros [H1 H2|t len H1 H2 H3|H1 H2 H3 H4] He; [auto| |lia].
    exfalso. destruct H1 as (_ & c & rest & _ & Hl). apply lexer_ok in Hl. lia.
  Qed.

  (* where get_current_term consults the lexer, behind the white space *)
  Lemma lexer_at_true_pos (s : pst) rest :
    sp_inv s ->
    snd (lexer (o_verbose opts) (sp_update (ps_sp s) (slice_of buf (ps_it s) (ps_it s + wsk opts buf (ps_it s)))) rest) =
    snd (lexer (o_verbose opts) (true_pos buf (ps_it s + wsk opts buf (ps_it s))) rest).
  Proof.
    intros Hsp. destruct sp_ok as [Hn|Hi]; [|apply Hi].
    destruct (Hsp Hn) as [(Hp & _) _]. rewrite Hp, true_pos_slice by lia. reflexivity.
  Qed.

  Lemma gct_tok pos s s1 t ev : sp_inv s -> tok_at pos s -> gspec s (s1, Some t, ev) -> tok_at pos s1.
  Proof.
    intros Hsp Hat H.
    inversion H as [Hr|Hr Hne|sp1 it1 Hr He Hit1 Hsp1 Hsk|sp1 it1 c rest lx Hr He Hit1 Hsp1 Hsk Hlx|sp1 it1 c rest lx t' len Hr He Hit1 Hsp1 Hsk Hlx];
      subst; try assumption.
    - rewrite (consult_on_boundary _ _ Hat He) in *.
      apply TaEof; simp_ps; auto.
    - rewrite (consult_on_boundary _ _ Hat He) in *.
      apply TaPending with t len; simp_ps; auto.
      split; [reflexivity|]. exists c, rest. split; [assumption|].
      rewrite <- lexer_at_true_pos, Hlx by assumption. reflexivity.
  Qed.

  (* an iteration consumes the pending lexeme [ps_it s1, ps_end s1) iff it moves the cursor to its end
     (by shifting it, or by discarding it in consume mode) *)
  Definition consumed_of (s1 : pst) (o : pst + result V * pst) : list (nat * nat * nat) :=
    match o with
    | inl s' => if Nat.ltb (ps_it s1) (ps_end s1) && Nat.eqb (ps_it s') (ps_end s1)
                then [(term_or0 s1, ps_it s1, ps_end s1 - ps_it s1)] else []
    | inr _ => []
    end.
  Definition consumed_at (s : pst) : list (nat * nat * nat) :=
    consumed_of (fst (fst (get_current_term V C g opts buf lexer s))) (fst (stepx s)).
  Definition consumed_toks (vis : list pst) : list (nat * nat * nat) := flat_map consumed_at vis.

  (* an action that leaves the cursor fields alone consumes nothing *)
  Lemma tok_at_same pos (s1 s' : pst) : same_cur s1 s' -> tok_at pos s1 -> consumed_of s1 (inl s') = [] /\ tok_at pos s'.
  Proof.
    intros (_ & Hi & He & Ht) Hat. split.
    - cbn [consumed_of]. rewrite Hi.
      destruct (Nat.ltb (ps_it s1) (ps_end s1)) eqn:E1; [|reflexivity]. apply Nat.ltb_lt in E1.
      destruct (Nat.eqb (ps_it s1) (ps_end s1)) eqn:E2; [|reflexivity]. apply Nat.eqb_eq in E2. lia.
    - destruct Hat as [H1 H2|t len H1 H2 H3|H1 H2 H3 H4].
      + apply TaBoundary; congruence.
      + apply TaPending with t len; rewrite ?Hi, ?He, ?Ht; assumption.
      + apply TaEof; congruence.
  Qed.

  (* consume_term lands on a boundary: the same one if nothing was pending, the next one otherwise *)
  Lemma tok_at_consume pos (s1 s' : pst) :
    same_cur (consume_term V C buf s1) s' -> tok_at pos s1 ->
    (consumed_of s1 (inl s') = [] /\ tok_at pos s') \/
    (exists tk, consumed_of s1 (inl s') = [tk] /\ ntok pos tk /\ tok_at (end_of_tok tk) s').
  Proof.
    intros (_ & Hi & He & _). simp_ps_in Hi. simp_ps_in He.
    intros [H1 H2|t len H1 H2 H3|H1 H2 H3 H4]; cbn [consumed_of]; rewrite Hi, Nat.eqb_refl, andb_true_r.
    - left. replace (Nat.ltb (ps_it s1) (ps_end s1)) with false by (symmetry; apply Nat.ltb_ge; lia).
      split; [reflexivity|]. apply TaBoundary; congruence.
    - right. exists (t, ps_it s1, len).
      assert (Hlen : 0 < len).
      { destruct H1 as (_ & c & rest & _ & Hl). apply lexer_ok in Hl. lia. }
      replace (Nat.ltb (ps_it s1) (ps_end s1)) with true by (symmetry; apply Nat.ltb_lt; lia).
      unfold term_or0. rewrite H3. replace (ps_end s1 - ps_it s1) with len by lia.
      split; [reflexivity|]. split; [assumption|]. cbn [end_of_tok]. apply TaBoundary; congruence.
    - left. replace (Nat.ltb (ps_it s1) (ps_end s1)) with false by (symmetry; apply Nat.ltb_ge; lia).
      split; [reflexivity|]. apply TaBoundary; congruence.
  Qed.

  Lemma step_tok_gh pos s : sp_inv s -> tok_at pos s ->
    match fst (stepx s) with
    | inl s' => (consumed_at s = [] /\ tok_at pos s') \/
                (exists tk, consumed_at s = [tk] /\ ntok pos tk /\ tok_at (end_of_tok tk) s')
    | inr _ => True
    end.
  Proof.
    intros Hsp Hat. unfold consumed_at. apply step_moves.
    - intros _. exact I.
    - intros s1 ev1 _ _ _. exact I.
    - intros cursor cs s1 t ev1 m _ Heq Hg Hd. cbn [fst]. rewrite Heq. cbn [fst].
      pose proof (gct_tok pos s s1 t ev1 Hsp Hat Hg) as Hat1. pose proof (move_cur term_f err_f rule_f Hd) as Hc.
      destruct (fst (perform buf term_f err_f rule_f m s1)) as [s'|]; [|exact I].
      destruct Hc as [Hc|[Hc _]]; [left; now apply tok_at_same|now apply tok_at_consume].
  Qed.

  Lemma step_sp s : sp_inv s -> match fst (stepx s) with inl s' => sp_inv s' | inr _ => True end.
  Proof.
    intros Hsp. destruct (fst (stepx s)) as [s'|] eqn:E; [|exact I]. intros Hn.
    pose proof (step_pos V C g tbl opts buf cap lexer term_f err_f rule_f (in_range_len lexer lexer_ok) (or_introl Hn) s (Hsp Hn)) as [_ H].
    rewrite E in H. exact H.
  Qed.

  (* the invariant: a prefix of the token stream has been consumed, the driver stands at its end *)
  Definition tok_inv (s : pst) : Prop := exists pre pos, cupto pre pos /\ tok_at pos s.

  Lemma sp_inv_init c : sp_inv (init c).
  Proof. intros _. apply pos_inv_init. Qed.

  Lemma consumed_toks_snoc vis s : consumed_toks (vis ++ [s]) = consumed_toks vis ++ consumed_at s.
  Proof. apply flat_map_snoc. Qed.

  (* the run with the consumed tokens as its ghost: both theorems below read this off *)
  Lemma run_tok_gh fuel c :
    let '(r, s, _, vis) := run_ghx fuel (init c) [] [] in
    Forall (fun s => tok_inv s /\ sp_inv s) vis /\ (r = OutOfFuel -> exists pos, cupto (consumed_toks vis) pos /\ tok_at pos s).
  Proof.
    apply (run_gh_inv V C g tbl opts buf cap lexer term_f err_f rule_f
             (fun vis s => Forall (fun s => tok_inv s /\ sp_inv s) vis /\ (exists pos, cupto (consumed_toks vis) pos /\ tok_at pos s) /\ sp_inv s)
             (fun vis r s => Forall (fun s => tok_inv s /\ sp_inv s) vis /\ (r = OutOfFuel -> exists pos, cupto (consumed_toks vis) pos /\ tok_at pos s))).
    - intros vis s (Hv & Hs & _). auto.
    - intros vis s (Hv & (pos & Hc & Hat) & Hsp).
      assert (Hv' : Forall (fun s => tok_inv s /\ sp_inv s) (vis ++ [s])).
      { apply Forall_app. split; [assumption|]. constructor; [|constructor]. split; [|assumption]. exists (consumed_toks vis), pos. auto. }
      pose proof (step_tok_gh pos s Hsp Hat) as H3. pose proof (step_sp s Hsp) as H4.
      rewrite consumed_toks_snoc. destruct (fst (stepx s)) as [s'|[r s']] eqn:E; (split; [assumption|]).
      + split; [|assumption]. destruct H3 as [[-> H3]|(tk & -> & Hn & H3)].
        * exists pos. rewrite app_nil_r. auto.
        * exists (end_of_tok tk). split; [eapply consumed_next; eauto|assumption].
      + intros ->. destruct (step_final E).
    - split; [constructor|]. split; [|apply sp_inv_init]. exists 0. split; [apply consumed_0|]. apply TaBoundary; reflexivity.
  Qed.

  (* every loop-head state of the run (and the state the run is in when the fuel runs out) satisfies the invariant *)
  Theorem run_tok_inv fuel c :
    let '(r, s, _, vis) := run_ghx fuel (init c) [] [] in
    Forall tok_inv vis /\ (r = OutOfFuel -> tok_inv s).
  Proof.
    pose proof (run_tok_gh fuel c) as H. destruct (run_ghx fuel (init c) [] []) as [[[r s] out] vis].
    destruct H as [H1 H2]. split; [exact (Forall_impl _ (fun s => @proj1 _ _) H1)|]. intros Hr. exists (consumed_toks vis). auto.
  Qed.

  (* the lexer is consulted only with the cursor at the end of a consumed prefix of the token
     stream, on the input [tokenize] consults it on; the answer is the next token / end / failure of [tokenize] *)
  Theorem consult_at_token_boundary s :
    tok_inv s -> sp_inv s -> ps_rec s = false -> ps_it s = ps_end s ->
    exists pre, cupto pre (ps_it s) /\
      let start := ps_it s + wsk opts buf (ps_it s) in
      let sp1 := sp_update (ps_sp s) (slice_of buf (ps_it s) start) in
      match skipn start buf with
      | [] => forall F, tokenize (S F) opts lexer buf (ps_it s) = ([], TokEof start)
      | c :: rest =>
          snd (lexer (o_verbose opts) sp1 (c :: rest)) = snd (lexer (o_verbose opts) (true_pos buf start) (c :: rest)) /\
          match snd (lexer (o_verbose opts) sp1 (c :: rest)) with
          | None => forall F, tokenize (S F) opts lexer buf (ps_it s) = ([], TokFail start)
          | Some (t, len) => ntok (ps_it s) (t, start, len)
          end
      end.
  Proof.
    intros (pre & pos & Hc & Hat) Hsp Hr He. rewrite (consult_on_boundary _ _ Hat He) in *.
    exists pre. split; [assumption|]. cbn zeta.
    destruct (skipn (ps_it s + wsk opts buf (ps_it s)) buf) as [|c rest] eqn:Hsk.
    - intros F. now rewrite tokenize_S, Hsk.
    - pose proof (lexer_at_true_pos s (c :: rest) Hsp) as Hl.
      split; [assumption|]. rewrite Hl.
      destruct (snd (lexer (o_verbose opts) (true_pos buf (ps_it s + wsk opts buf (ps_it s))) (c :: rest))) as [[t len]|] eqn:Hv.
      + split; [reflexivity|]. exists c, rest. auto.
      + intros F. now rewrite tokenize_S, Hsk, Hv.
  Qed.

  (* at every point of the run the tokens the driver has consumed so far (shifted, or discarded in consume mode) are
     exactly a prefix of the token stream of [tokenize], and the driver stands at the end of that prefix: on the
     boundary, or with the next token of the stream pending, or with <eof> pending *)
  Theorem run_tok_inv_gh fuel c :
    let '(r, s, _, vis) := run_ghx fuel (init c) [] [] in
    r = OutOfFuel -> exists pos, cupto (consumed_toks vis) pos /\ tok_at pos s.
  Proof. pose proof (run_tok_gh fuel c) as H. destruct (run_ghx fuel (init c) [] []) as [[[r s] out] vis]. apply H. Qed.
End Tokens.

Section TwoLexers.
  Variables V C : Type.
  Variable g : grammar.
  Variable tbl : table.
  Variable opts : options.
  Variable buf : list nat.
  Variable cap : option nat.
  Variables lexer1 lexer2 : lexer_t.
  Variable term_f : nat -> nat -> nat -> spoint -> V.
  Variable err_f : spoint -> V.
  Variable rule_f : nat -> C -> list V -> C * V.

  Hypothesis lexer1_ok : lexer_in_range lexer1.
  Hypothesis sp_ok2 : eof_err_not_shifted g tbl \/ (sp_indep lexer1 /\ sp_indep lexer2).
  Hypothesis same_tokens : forall F, tokenize F opts lexer1 buf 0 = tokenize F opts lexer2 buf 0.

  Notation pst := (pstate V C).
  Notation step1 := (step V C g tbl opts buf cap lexer1 term_f err_f rule_f).
  Notation run1 := (run V C g tbl opts buf cap lexer1 term_f err_f rule_f).
  Notation run2 := (run V C g tbl opts buf cap lexer2 term_f err_f rule_f).

  Lemma sp_ok_1 : eof_err_not_shifted g tbl \/ sp_indep lexer1. Proof. tauto. Qed.
  Lemma sp_ok_2 : eof_err_not_shifted g tbl \/ sp_indep lexer2. Proof. tauto. Qed.

  (* the joint invariant: both token streams have the same consumed prefix, the driver stands at its end *)
  Definition joint (s : pst) : Prop :=
    (exists pre pos, consumed_upto opts buf lexer1 pre pos /\ consumed_upto opts buf lexer2 pre pos /\
                     tok_at V C g opts buf lexer1 pos s) /\
    sp_inv V C g tbl buf s.

  Lemma same_next pre pos :
    consumed_upto opts buf lexer1 pre pos -> consumed_upto opts buf lexer2 pre pos ->
    tokenize 1 opts lexer1 buf pos = tokenize 1 opts lexer2 buf pos.
  Proof.
    intros H1 H2. specialize (H1 1). specialize (H2 1). rewrite same_tokens, H2 in H1. clear H2.
    revert H1. generalize (tokenize 1 opts lexer1 buf pos). generalize (tokenize 1 opts lexer2 buf pos).
    intros [a2 b2] [a1 b1] H. cbn [fst snd] in H. injection H as Ha Hb. apply app_inv_head in Ha. congruence.
  Qed.

  Lemma same_verdict pre pos c rest :
    consumed_upto opts buf lexer1 pre pos -> consumed_upto opts buf lexer2 pre pos ->
    skipn (pos + wsk opts buf pos) buf = c :: rest ->
    snd (lexer1 (o_verbose opts) (true_pos buf (pos + wsk opts buf pos)) (c :: rest)) =
    snd (lexer2 (o_verbose opts) (true_pos buf (pos + wsk opts buf pos)) (c :: rest)).
  Proof.
    intros H1 H2 Hsk. pose proof (same_next pre pos H1 H2) as H. rewrite !tokenize_S, Hsk in H.
    destruct (snd (lexer1 (o_verbose opts) (true_pos buf (pos + wsk opts buf pos)) (c :: rest))) as [[t1 l1]|];
      destruct (snd (lexer2 (o_verbose opts) (true_pos buf (pos + wsk opts buf pos)) (c :: rest))) as [[t2 l2]|];
      try discriminate; [|reflexivity]. inversion H; subst. reflexivity.
  Qed.

  Lemma joint_agree s : joint s -> verdicts_agree V C opts opts buf lexer1 lexer2 s.
  Proof.
    intros [(pre & pos & H1 & H2 & Hat) Hsp] Hr He. cbn zeta. fold (wsk opts buf (ps_it s)).
    rewrite <- slice_of_add, skipn_add. intros c rest Hsk.
    rewrite (consult_on_boundary V C g opts buf lexer1 lexer1_ok pos s Hat He) in *.
    rewrite (lexer_at_true_pos V C g tbl opts buf lexer1 sp_ok_1 s (c :: rest) Hsp).
    rewrite (lexer_at_true_pos V C g tbl opts buf lexer2 sp_ok_2 s (c :: rest) Hsp).
    eapply same_verdict; eauto.
  Qed.

  Lemma same_next_tok pre pos tk :
    consumed_upto opts buf lexer1 pre pos -> consumed_upto opts buf lexer2 pre pos ->
    next_tok opts buf lexer1 pos tk -> next_tok opts buf lexer2 pos tk.
  Proof.
    destruct tk as [[t start] len]. intros H1 H2 (Hs & c & rest & Hsk & Hl). split; [assumption|].
    exists c, rest. split; [assumption|]. subst start. rewrite <- (same_verdict pre pos c rest H1 H2 Hsk). assumption.
  Qed.

  Lemma joint_step s : joint s -> match fst (step1 s) with inl s' => joint s' | inr _ => True end.
  Proof.
    intros [(pre & pos & H1 & H2 & Hat) Hsp].
    pose proof (step_tok_gh V C g tbl opts buf cap lexer1 term_f err_f rule_f lexer1_ok sp_ok_1 pos s Hsp Hat) as H.
    pose proof (step_sp V C g tbl opts buf cap lexer1 term_f err_f rule_f lexer1_ok s Hsp) as H'.
    destruct (fst (step1 s)) as [s'|]; [|exact I]. split; [|assumption].
    destruct H as [[_ H]|(tk & _ & Hn & H)].
    - exists pre, pos. auto.
    - exists (pre ++ [tk]), (end_of_tok tk). repeat split; [eapply consumed_next; eauto| |assumption].
      eapply consumed_next; [eassumption|]. eapply same_next_tok; eauto.
  Qed.

  (* same result (hence value), same final stacks, positions, modes and context, same lines except the lexer's own *)
  Theorem same_tokens_same_run fuel c :
    let '(r1, s1, out1) := run1 fuel c in
    let '(r2, s2, out2) := run2 fuel c in
    r1 = r2 /\ s1 = s2 /\ non_lex out1 = non_lex out2.
  Proof.
    set (nl := fun e => negb (is_lex_ev e)).
    unshelve epose proof (run_from_same V C g tbl opts opts buf cap lexer1 lexer2 term_f err_f rule_f eq_refl eq_refl
                            joint nl nl nl joint_agree joint_step (fun _ => eq_refl) _ fuel (init c) [] [] _ eq_refl) as H.
    { intros e1 e2 He. now rewrite (filter_comm nl _ e1), (filter_comm nl _ e2), He. }
    { split; [|apply sp_inv_init]. exists [], 0. repeat split; try apply consumed_0. apply TaBoundary; reflexivity. }
    exact H.
  Qed.
End TwoLexers.
