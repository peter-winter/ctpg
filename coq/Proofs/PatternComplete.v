(* COMPLETENESS of the pattern front end: a pattern gets a meaning iff it is written in the documented syntax.
   Acceptance: p is accepted iff it scans into a sentence of the pattern grammar and every count {n} is below 4096
   ([counts_ok]: the count functor of the model declines larger counts, which it computes modulo 2^32); without that
   side condition the statement is false ("a{4096}").
   Meaning: the regex is [denote] of the unique right-nested derivation tree (a|b|c = a|(b|c)), decorated with the
   lexeme extents of the scanner's tokens.
   The grammar being ambiguous, [validate] and with it [term_checks] fail on its table (PatternCompleteTrees.v);
   termination is proved directly (PatternCompleteTerm.v): every run ends within 7 * length p + 8 iterations, so the
   fuel 10 * length p + 20 of [parse_pattern] is always enough and the driver DECIDES the syntax.
   The term functors (digit value, set decoder [string_view_to_subset]) are total functions in the model; the only
   rule functor that declines is the count {n}. *)
Require Import Ctpg.Base.Prelude Ctpg.Proofs.ListFacts Ctpg.Model.Grammar Ctpg.Model.Driver Ctpg.Model.Dfa
               Ctpg.Model.RegexFront Ctpg.Spec.Cfg Ctpg.Spec.Eval Ctpg.Proofs.DriverEval Ctpg.Proofs.PatternLex
               Ctpg.Proofs.PatternParse Ctpg.Proofs.PatternCompleteLR Ctpg.Proofs.PatternCompleteTrees
               Ctpg.Proofs.PatternCompleteSim Ctpg.Proofs.PatternCompleteTerm Ctpg.Proofs.DriverStream.
From Coq Require Import NArith.

(* the scanner applied repeatedly from offset 0 consumes exactly p; toks = (term, start, length) of every lexeme, none of
   them a failure ([tokenize] of Spec/Eval.v ends with TokEof at the end of p) *)
Definition scans (p : list nat) (toks : list (nat * nat * nat)) : Prop :=
  tokenize (S (length p)) regex_opts regex_lexer p 0 = (toks, TokEof (length p)).

Notation ptoks p := (ptoks_from p regex_lexer).

Lemma tokenize_ptoks p F : forall pos toks e,
  tokenize F regex_opts regex_lexer p pos = (toks, TokEof e) -> ptoks p pos toks.
Proof.
  induction F as [|F IH]; intros pos toks e H; [discriminate|].
  cbn [tokenize regex_opts o_skip_ws o_verbose skipn] in H. rewrite Nat.add_0_r in H.
  destruct (skipn pos p) as [|c rest] eqn:Esk.
  - inversion H; subst. apply PtEof. assumption.
  - destruct (snd (regex_lexer false (true_pos p pos) (c :: rest))) as [[t len]|] eqn:El; [|discriminate].
    destruct (tokenize F regex_opts regex_lexer p (pos + len)) as [ts e'] eqn:Et. inversion H; subst.
    eapply PtTok; [eassumption| |eapply IH; eassumption].
    unfold lexv. rewrite (regex_lexer_sp false sp0 (true_pos p pos)). assumption.
Qed.

Lemma scans_ptoks p toks : scans p toks -> ptoks p 0 toks.
Proof. apply tokenize_ptoks. Qed.

(* the scanner's tokens are the token stream of the pattern, and [tokenize] computes the stream *)
Lemma ptoks_p_stream p toks : ptoks p 0 toks -> stream regex_opts p regex_lexer sp0 0 toks true.
Proof. intros H. exact (ptoks_stream regex_g p regex_lexer regex_lexer_sp regex_lexer_rng 0 toks H sp0 (Nat.le_0_l _)). Qed.

Lemma ptoks_scans p toks : ptoks p 0 toks -> scans p toks.
Proof.
  intros H. apply ptoks_p_stream in H. pose proof (stream_length _ _ _ _ _ _ _ H) as Hlen. unfold scans.
  destruct (stream_tokenize _ _ _ _ _ _ _ H (or_introl regex_lexer_sp) (S (length p)) ltac:(lia))
    as (e & ->).
  reflexivity.
Qed.

Lemma scans_length p toks : scans p toks -> length toks <= length p.
Proof. intros H. apply scans_ptoks, ptoks_p_stream in H. exact (stream_length _ _ _ _ _ _ _ H). Qed.

Definition digit_at (p : list nat) (s : nat) : N := N.of_nat (nth s p 48 - 48).

(* the value the functors of  number -> digit | number digit  compute: decimal, modulo 2^32 *)
Fixpoint count_acc (p : list nat) (acc : N) (toks : list (nat * nat * nat)) : N :=
  match toks with
  | (0, s, _) :: rest => count_acc p ((acc * 10 + digit_at p s) mod two32)%N rest
  | _ => acc
  end.
Definition count_val (p : list nat) (toks : list (nat * nat * nat)) : N :=
  match toks with
  | (0, s, _) :: rest => count_acc p (digit_at p s) rest
  | _ => 0%N
  end.
(* every '{' token (term 8) is followed by digits whose value is below 4096 *)
Fixpoint counts_ok (p : list nat) (toks : list (nat * nat * nat)) : bool :=
  match toks with
  | [] => true
  | (t, _, _) :: rest => (if Nat.eqb t 8 then (count_val p rest <? 4096)%N else true) && counts_ok p rest
  end.

Fixpoint number_of (p : list nat) (t : ptree) : N :=
  match t with
  | PNode 0 [PLeaf _ s _ _] => digit_at p s
  | PNode 1 [n; PLeaf _ s _ _] => ((number_of p n * 10 + digit_at p s) mod two32)%N
  | _ => 0%N
  end.

Definition opt2 (f : regex -> regex -> regex) (a b : option regex) : option regex :=
  match a, b with Some x, Some y => Some (f x y) | _, _ => None end.

(* the evident reading of the rules: concatenation binds tighter than '|', a postfix operator applies to the preceding
   primary, {n} repeats it, a digit / a primary lexeme is the character set it denotes *)
Fixpoint denote (p : list nat) (t : ptree) : option regex :=
  match t with
  | PNode 2 [PLeaf _ s _ _] => Some (RSet (cs_single (N.to_nat (digit_at p s) + 48)))
  | PNode 3 [PLeaf _ s l _] => Some (RSet (string_view_to_subset (slice_of p s (s + l))))
  | PNode 4 [_; e; _] => denote p e
  | PNode 5 [x] => denote p x
  | PNode 6 [x; _] => option_map RStar (denote p x)
  | PNode 7 [x; _] => option_map RPlus (denote p x)
  | PNode 8 [x; _] => option_map ROpt (denote p x)
  | PNode 9 [x; _; n; _] =>
      if (number_of p n <? 4096)%N then option_map (fun r => RRep r (N.to_nat (number_of p n))) (denote p x) else None
  | PNode 10 [x] => denote p x
  | PNode 11 [a; b] => opt2 RCat (denote p a) (denote p b)
  | PNode 12 [x] => denote p x
  | PNode 13 [a; _; b] => opt2 RAlt (denote p a) (denote p b)
  | PNode 14 [x] => denote p x
  | _ => None
  end.

(* the value the functors of the pattern parser compute for a parse tree *)
Definition rx_f (r : nat) (args : list rval) : rval := snd (regex_rule_f r tt args).
Lemma rx_ctx_free r c args : regex_rule_f r c args = (c, rx_f r args).
Proof. destruct c. reflexivity. Qed.

Definition rx_value (p : list nat) (pt : ptree) : rval :=
  value_of rval unit (regex_term_f p) (fun _ => VTok) regex_rule_f tt pt.

Lemma rx_value_node p r ch : rx_value p (PNode r ch) = rx_f r (map (rx_value p) ch).
Proof.
  unfold rx_value, value_of. rewrite eval_node.
  rewrite (cf_eval_list_eq rval unit (regex_term_f p) (fun _ => VTok) regex_rule_f rx_f rx_ctx_free tt ch).
  rewrite rx_ctx_free. reflexivity.
Qed.

Lemma rx_value_leaf p a s l sp : rx_value p (PLeaf a s l sp) = regex_term_f p a s l sp.
Proof. reflexivity. Qed.

Definition val_of_opt (o : option regex) : rval := match o with Some r => VRe r | None => VBad end.

Lemma regex_err_idx : err_idx regex_g = 11.
Proof. vm_compute. reflexivity. Qed.

(* a parse tree whose shape is a given tree: read off its structure *)
Ltac inv_strip :=
  repeat match goal with
         | H : strip regex_g ?pt = Node _ _ |- _ =>
             destruct pt as [? ? ? ?|?|? ?]; cbn [strip] in H; try discriminate H; inversion H; clear H; subst
         | H : strip regex_g ?pt = Leaf _ |- _ =>
             destruct pt as [? ? ? ?|?|? ?]; cbn [strip] in H; rewrite ?regex_err_idx in H;
             try discriminate H; inversion H; clear H; subst
         | H : map (strip regex_g) ?ch = _ :: _ |- _ =>
             destruct ch; cbn [map] in H; try discriminate H; inversion H; clear H; subst
         | H : map (strip regex_g) ?ch = [] |- _ => destruct ch; [clear H|discriminate H]
         end.

Section Meaning.
  Variable p : list nat.

  (* 5 is [number] in the nonterminal list of [regex_raw_grammar] (Model/RegexFront.v), and the rule numbers 0 .. 14 of
     [rnt], [denote], [number_of] are positions in its rule list: a number evaluates to its numeral, every other
     nonterminal to the regex [denote] gives *)
  Definition sem_ok (l : nat) (pt : ptree) : Prop :=
    match l with
    | 5 => rx_value p pt = VNum (number_of p pt)
    | _ => rx_value p pt = val_of_opt (denote p pt)
    end.

  (* induction on the right-nested tree; each rule by computing its functor on the values of the children; rule 9, the
     count, is the only one that tests anything (n < 4096, the last line) *)
  Lemma rx_value_denote l t : rnt l t -> forall pt, strip regex_g pt = t -> sem_ok l pt.
  Proof.
    induction 1; intros pt Hs; inv_strip;
      repeat match goal with
             | IH : forall pt, strip regex_g pt = strip regex_g ?x -> _ |- _ => specialize (IH x eq_refl); cbn [sem_ok] in IH
             end;
      cbn [sem_ok]; rewrite ?rx_value_node; cbn [map]; rewrite ?rx_value_node; cbn [map]; rewrite ?rx_value_leaf;
      repeat match goal with H : rx_value p _ = _ |- _ => rewrite H; clear H end;
      cbn [regex_term_f denote number_of]; unfold rx_f;
      repeat match goal with |- context [denote p ?x] => destruct (denote p x) end;
      cbn [regex_rule_f val_of_opt snd option_map opt2]; try reflexivity.
    all: destruct (number_of p _ <? 4096)%N; reflexivity.
  Qed.

  Notation lv := (pleaves regex_g).

  (* the leaves of a number are digits: they carry its value and no count of their own *)
  Lemma number_leaves l t : rnt l t -> l = 5 -> forall pt, strip regex_g pt = t -> forall R,
    count_val p (lv pt ++ R) = count_acc p (number_of p pt) R /\ counts_ok p (lv pt ++ R) = counts_ok p R.
  Proof.
    induction 1; intros E; try discriminate E; intros pt Hs R; inv_strip.
    - split; reflexivity.
    - cbn [pleaves flat_map]. rewrite app_nil_r, <- app_assoc. cbn [app].
      specialize (IHrnt eq_refl _ eq_refl). rewrite (proj1 (IHrnt _)), (proj2 (IHrnt _)). split; reflexivity.
  Qed.

  Definition is_some {A} (o : option A) : bool := match o with Some _ => true | None => false end.

  (* the same induction: the counts of the leaves are those of the children, and rule 9 adds its own *)
  Lemma denote_counts l t : rnt l t -> l <> 5 -> forall pt, strip regex_g pt = t ->
    forall R, counts_ok p (lv pt ++ R) = is_some (denote p pt) && counts_ok p R.
  Proof.
    induction 1; intros E; try (exfalso; apply E; reflexivity); intros pt Hs R; inv_strip;
      repeat match goal with
             | IH : _ <> 5 -> forall pt, strip regex_g pt = strip regex_g ?x -> _ |- _ =>
                 specialize (IH ltac:(discriminate) x eq_refl)
             end;
      cbn [pleaves flat_map]; rewrite ?app_nil_r, <- ?app_assoc; cbn [app counts_ok Nat.eqb andb];
      repeat (cbn [app counts_ok Nat.eqb andb];
              match goal with H : forall R, counts_ok p (lv ?x ++ R) = _ |- _ => rewrite H; clear H end);
      cbn [app counts_ok Nat.eqb andb denote is_some];
      try (repeat match goal with |- context [denote p ?x] => destruct (denote p x) end; reflexivity).
    (* rule 9 *)
    match goal with
    | Hn : rnt 5 (strip regex_g ?n) |- context [lv ?n ++ ?R] => destruct (number_leaves _ _ Hn eq_refl n eq_refl R) as [-> ->]
    end.
    cbn [count_acc counts_ok Nat.eqb andb].
    destruct (number_of p _ <? 4096)%N; destruct (denote p _); reflexivity.
  Qed.
End Meaning.

(* the driver run of [parse_pattern] on a pattern that scans into the yield of a right-nested tree: accepted after
   exactly (leaves + nodes + 1) iterations with the value of the decorated tree; every fuel from there on is enough *)
Theorem pattern_run_complete p toks t :
  scans p toks -> rnt 0 t -> yield t = map tok_term toks ->
  exists pt, strip regex_g pt = t /\ pleaves regex_g pt = toks /\
    forall fuel, tsize t + 1 <= fuel -> pattern_run regex_g regex_tb p fuel = Accept (rx_value p pt).
Proof.
  intros Hsc Ht Hy. apply scans_ptoks in Hsc.
  destruct (right_nested_accepted t Ht) as (s' & Hm & Ha). rewrite Hy in Hm.
  destruct (fwd_accept regex_g regex_tb p regex_lexer regex_lexer_sp regex_lexer_rng
              regex_no_eof_shift (tsize t) toks s' t Hsc Hm Ha) as (pt & Hst & Hlv & Hrun).
  exists pt. split; [assumption|]. split; [assumption|].
  intros fuel Hf. specialize (Hrun (fuel - tsize t - 1)). replace (tsize t + S (fuel - tsize t - 1)) with fuel in Hrun by lia.
  pose proof (run_tree_eval_ctx_free rval unit regex_g regex_tb regex_opts p None regex_lexer
                (regex_term_f p) (fun _ => VTok) regex_rule_f rx_f rx_ctx_free tt fuel) as He.
  unfold pattern_run.
  destruct (run ptree (list (nat * list ptree)) regex_g regex_tb regex_opts p None regex_lexer
                tree_term_f tree_err_f tree_rule_f fuel []) as [[rT sT] outT].
  destruct (run rval unit regex_g regex_tb regex_opts p None regex_lexer (regex_term_f p) (fun _ => VTok) regex_rule_f fuel tt)
    as [[rA sA] outA].
  cbn [fst] in *. destruct He as (He & _). subst rT. rewrite He. reflexivity.
Qed.

Lemma rnt_fuel p toks t : scans p toks -> rnt 0 t -> yield t = map tok_term toks -> tsize t + 1 <= 10 * length p + 20.
Proof.
  intros Hsc Ht Hy. pose proof (rnt_size 0 t Ht) as Hs. pose proof (scans_length p toks Hsc) as Hl.
  rewrite Hy, map_length in Hs. cbn [size_off] in Hs. lia.
Qed.

(* the accepted value, for every sufficient fuel, not only the fuel [parse_pattern] uses *)
Corollary pattern_meaning_any_fuel p toks t fuel :
  scans p toks -> rnt 0 t -> yield t = map tok_term toks -> 10 * length p + 20 <= fuel ->
  exists pt, strip regex_g pt = t /\ pleaves regex_g pt = toks /\
             pattern_run regex_g regex_tb p fuel = Accept (val_of_opt (denote p pt)).
Proof.
  intros Hsc Ht Hy Hf. destruct (pattern_run_complete p toks t Hsc Ht Hy) as (pt & Hst & Hlv & Hrun).
  exists pt. split; [assumption|]. split; [assumption|].
  rewrite (Hrun fuel) by (pose proof (rnt_fuel p toks t Hsc Ht Hy); lia).
  pose proof (rx_value_denote p 0 t Ht pt Hst) as Hv. cbn [sem_ok] in Hv. rewrite Hv. reflexivity.
Qed.

(* p scans into toks, t is the right-nested derivation tree of the term sequence (unique: [right_nested_unique]):
   [parse_pattern p] is the meaning of t decorated with the lexeme extents *)
Theorem parse_pattern_meaning p toks t :
  scans p toks -> rnt 0 t -> yield t = map tok_term toks ->
  exists pt, strip regex_g pt = t /\ pleaves regex_g pt = toks /\ parse_pattern p = denote p pt.
Proof.
  intros Hsc Ht Hy. destruct (pattern_meaning_any_fuel p toks t _ Hsc Ht Hy (Nat.le_refl _)) as (pt & Hst & Hlv & Hrun).
  exists pt. split; [assumption|]. split; [assumption|].
  rewrite parse_pattern_eq, parse_pattern_with_run, Hrun. destruct (denote p pt); reflexivity.
Qed.

(* a pattern written in the syntax is accepted exactly when no count is too large *)
Lemma accepted_iff_counts p toks :
  scans p toks -> derives regex_g (map tok_term toks) -> (parse_pattern p <> None <-> counts_ok p toks = true).
Proof.
  intros Hsc Hd. destruct (derives_right_nested _ Hd) as (t & Ht & Hy).
  destruct (parse_pattern_meaning p toks t Hsc Ht Hy) as (pt & Hst & Hlv & ->).
  pose proof (denote_counts p 0 t Ht ltac:(discriminate) pt Hst []) as H.
  rewrite app_nil_r, Hlv in H. rewrite H. cbn [counts_ok]. rewrite andb_true_r.
  destruct (denote p pt); cbn; split; congruence.
Qed.

(* the decoration is determined by the tree and the tokens up to source points ([shape_leaves_unsp]), which no functor
   of the pattern parser looks at: the theorem holds for EVERY parse tree of shape t with the scanner's tokens at its
   leaves *)
Lemma rx_value_unsp p pt : rx_value p (unsp regex_g pt) = rx_value p pt.
Proof.
  induction pt as [| |r ch IH] using ptree_ind2; cbn [unsp]; [reflexivity|rewrite regex_err_idx; reflexivity|].
  rewrite !rx_value_node, map_map. f_equal. apply map_ext_in, Forall_forall, IH.
Qed.

Lemma val_of_opt_inj a b : val_of_opt a = val_of_opt b -> a = b.
Proof. destruct a, b; cbn; congruence. Qed.

Theorem parse_pattern_meaning_all p toks t pt :
  scans p toks -> rnt 0 t -> yield t = map tok_term toks ->
  strip regex_g pt = t -> pleaves regex_g pt = toks -> parse_pattern p = denote p pt.
Proof.
  intros Hsc Ht Hy Hst Hlv. destruct (parse_pattern_meaning p toks t Hsc Ht Hy) as (pt0 & Hst0 & Hlv0 & ->).
  apply val_of_opt_inj. rewrite <- (rx_value_denote p 0 t Ht pt0 Hst0), <- (rx_value_denote p 0 t Ht pt Hst).
  rewrite <- (rx_value_unsp p pt0), <- (rx_value_unsp p pt).
  destruct (shape_leaves_unsp regex_g pt0 pt [] []) as [_ ->]; [congruence|rewrite !app_nil_r; congruence|reflexivity].
Qed.

(* a digit token is one byte, a decimal digit: the set [denote] gives a digit primary is that byte *)
Lemma ptoks_digit p pos toks : ptoks p pos toks -> forall s l, In (0, s, l) toks ->
  l = 1 /\ is_dec_digit (nth s p 0) = true.
Proof.
  induction 1 as [|pos c rest t len ws Hsk Hl _ IH]; intros s l Hin; [contradiction|].
  destruct Hin as [Heq|Hin]; [|apply IH; assumption]. inversion Heq; subst t pos len.
  apply lexv_lex_at, lex_at_tok in Hl. inversion Hl as [t' H1 H2|H1 H2 H3|]; [apply special_inv in H2; lia|].
  split; [reflexivity|]. rewrite <- (Nat.add_0_r s), <- nth_skipn, Hsk. exact H3.
Qed.

Theorem digit_primary_meaning p toks s l sp :
  scans p toks -> In (0, s, l) toks -> denote p (PNode 2 [PLeaf 0 s l sp]) = Some (RSet (cs_single (nth s p 0))).
Proof.
  intros Hsc Hin. destruct (ptoks_digit p 0 toks (scans_ptoks _ _ Hsc) s l Hin) as [_ Hd].
  cbn [denote]. unfold digit_at. rewrite Nat2N.id.
  unfold is_dec_digit in Hd. apply andb_true_iff in Hd. destruct Hd as [H1 _]. apply Nat.leb_le in H1.
  replace (nth s p 48) with (nth s p 0).
  - replace (nth s p 0 - 48 + 48) with (nth s p 0) by lia. reflexivity.
  - destruct (Nat.lt_ge_cases s (length p)) as [Hlt|Hge]; [apply nth_indep; assumption|].
    rewrite (nth_overflow p 0 Hge) in H1. lia.
Qed.

Theorem wellformed_pattern_accepted p toks :
  scans p toks -> derives regex_g (map tok_term toks) -> counts_ok p toks = true ->
  parse_pattern p <> None.
Proof. intros Hsc Hd. apply accepted_iff_counts; assumption. Qed.

(* without the side condition the statement is false: a{4096} scans into a sentence of the grammar and is rejected *)
Definition pat_a4096 : list nat := [97; 123; 52; 48; 57; 54; 125].

Theorem wellformed_pattern_accepted_refuted :
  exists p toks, scans p toks /\ derives regex_g (map tok_term toks) /\ parse_pattern p = None.
Proof.
  exists pat_a4096, [(1,0,1); (8,1,1); (0,2,1); (0,3,1); (0,4,1); (0,5,1); (9,6,1)].
  split; [vm_compute; reflexivity|]. split; [|rewrite parse_pattern_eq; vm_compute; reflexivity].
  eexists. apply (rnt_derives_tree
    (Node 14 [Node 12 [Node 10 [Node 9 [Node 3 [Leaf 1]; Leaf 8;
       Node 1 [Node 1 [Node 1 [Node 0 [Leaf 0]; Leaf 0]; Leaf 0]; Leaf 0]; Leaf 9]]]])).
  repeat constructor.
Qed.

(* the count is taken modulo 2^32: a{4294967297} is a{1} *)
Example count_wraps :
  parse_pattern [97; 123; 52; 50; 57; 52; 57; 54; 55; 50; 57; 55; 125] = Some (RRep (RSet (cs_single 97)) 1).
Proof. rewrite parse_pattern_eq. vm_compute. reflexivity. Qed.

(* the equivalence: soundness is Proofs/PatternParse.v [parse_pattern_wellformed] *)
Theorem pattern_accepted_iff p :
  parse_pattern p <> None <->
  exists toks, scans p toks /\ derives regex_g (map tok_term toks) /\ counts_ok p toks = true.
Proof.
  split.
  - intros Hne. destruct (parse_pattern p) as [r|] eqn:E; [clear Hne|contradiction].
    destruct (parse_pattern_wellformed p r E) as (toks & Htk & Hd).
    assert (Hsc : scans p toks) by (apply Htk; lia).
    exists toks. split; [assumption|]. split; [assumption|].
    apply (accepted_iff_counts p toks Hsc Hd). rewrite E. discriminate.
  - intros (toks & Hsc & Hd & Hc). eapply wellformed_pattern_accepted; eassumption.
Qed.

(* with the term sequence only; the count condition needs the lexeme positions, so it is stated on
   the tokens [scans] determines *)
Corollary pattern_accepted_iff_terms p :
  parse_pattern p <> None <->
  exists ts, toks_from p regex_lexer 0 ts /\ derives regex_g ts /\
             forall toks, scans p toks -> counts_ok p toks = true.
Proof.
  rewrite pattern_accepted_iff. split.
  - intros (toks & Hsc & Hd & Hc). exists (map tok_term toks). split; [apply ptoks_toks, scans_ptoks; assumption|].
    split; [assumption|]. intros toks' Hsc'. unfold scans in *. congruence.
  - intros (ts & Hts & Hd & Hc). destruct (toks_ptoks _ _ _ _ Hts) as (toks & Hp & Hm).
    apply ptoks_scans in Hp. exists toks. rewrite Hm. auto.
Qed.

Corollary pattern_rejected_iff p :
  parse_pattern p = None <->
  ~ exists toks, scans p toks /\ derives regex_g (map tok_term toks) /\ counts_ok p toks = true.
Proof.
  rewrite <- pattern_accepted_iff. split; [intros -> H; exact (H eq_refl)|].
  intros H. destruct (parse_pattern p); [exfalso; apply H; discriminate|reflexivity].
Qed.

(* patterns without a count: no side condition *)
Corollary wellformed_pattern_accepted_no_count p toks :
  scans p toks -> derives regex_g (map tok_term toks) -> ~ In 8 (map tok_term toks) -> parse_pattern p <> None.
Proof.
  intros Hsc Hd Hn. apply (wellformed_pattern_accepted p toks Hsc Hd).
  clear Hsc Hd. induction toks as [|[[t s] l] toks IH]; [reflexivity|]. cbn [counts_ok].
  cbn [map tok_term fst In] in Hn. destruct (Nat.eqb_spec t 8) as [->|_]; [tauto|]. cbn. apply IH. tauto.
Qed.

(* with termination (PatternCompleteTerm.v): the driver decides the syntax *)
Notation the_run p := (pattern_run regex_g regex_tb p (10 * length p + 20)).

Theorem pattern_syntax_decided p :
  ((exists v, the_run p = Accept v) <-> exists toks, scans p toks /\ derives regex_g (map tok_term toks)) /\
  (the_run p = Reject <-> ~ exists toks, scans p toks /\ derives regex_g (map tok_term toks)).
Proof.
  assert (H1 : (exists v, the_run p = Accept v) <-> exists toks, scans p toks /\ derives regex_g (map tok_term toks)).
  { split.
    - intros (v & Hv). destruct (pattern_accept_wellformed p _ v Hv) as (toks & Htk & Hd & _).
      exists toks. split; [apply Htk; lia|assumption].
    - intros (toks & Hsc & Hd). destruct (derives_right_nested _ Hd) as (t & Ht & Hy).
      destruct (pattern_meaning_any_fuel p toks t _ Hsc Ht Hy (Nat.le_refl _)) as (pt & _ & _ & Hrun). eauto. }
  split; [exact H1|]. split.
  - intros Hr Hex. apply H1 in Hex. destruct Hex as (v & Hv). congruence.
  - intros Hn. destruct (pattern_parse_decides p) as [Hv|Hr]; [|exact Hr]. exfalso. apply Hn, H1. exact Hv.
Qed.

(* a pattern written in the syntax is refused only by the count functor *)
Corollary wellformed_refused_only_by_count p toks :
  scans p toks -> derives regex_g (map tok_term toks) -> parse_pattern p = None -> counts_ok p toks = false.
Proof.
  intros Hsc Hd Hn. destruct (counts_ok p toks) eqn:E; [|reflexivity].
  exfalso. exact (wellformed_pattern_accepted p toks Hsc Hd E Hn).
Qed.

Definition cs_of (l : list nat) : charset := fold_left (fun cs c => update cs c true) l cs_empty.

Example ex_a : parse_pattern [97] = Some (RSet (cs_single 97)).
Proof. rewrite parse_pattern_eq. vm_compute. reflexivity. Qed.

(* "ab|c" : concatenation binds tighter than '|' *)
Example ex_ab_or_c :
  parse_pattern [97; 98; 124; 99] = Some (RAlt (RCat (RSet (cs_single 97)) (RSet (cs_single 98))) (RSet (cs_single 99))).
Proof. rewrite parse_pattern_eq. vm_compute. reflexivity. Qed.

(* "(a|b)*abb" *)
Example ex_aorb_star_abb :
  parse_pattern [40; 97; 124; 98; 41; 42; 97; 98; 98] =
  Some (RCat (RCat (RCat (RStar (RAlt (RSet (cs_single 97)) (RSet (cs_single 98)))) (RSet (cs_single 97)))
                   (RSet (cs_single 98))) (RSet (cs_single 98))).
Proof. rewrite parse_pattern_eq. vm_compute. reflexivity. Qed.

(* "[a-c]+d" *)
Example ex_range_plus_d :
  parse_pattern [91; 97; 45; 99; 93; 43; 100] = Some (RCat (RPlus (RSet (cs_of [97; 98; 99]))) (RSet (cs_single 100))).
Proof. rewrite parse_pattern_eq. vm_compute. reflexivity. Qed.

(* "a{3}" *)
Example ex_a_rep3 : parse_pattern [97; 123; 51; 125] = Some (RRep (RSet (cs_single 97)) 3).
Proof. rewrite parse_pattern_eq. vm_compute. reflexivity. Qed.

(* "\x41" *)
Example ex_hex : parse_pattern [92; 120; 52; 49] = Some (RSet (cs_single 65)).
Proof. rewrite parse_pattern_eq. vm_compute. reflexivity. Qed.

(* "[^a]*" *)
Example ex_inverted_star : parse_pattern [91; 94; 97; 93; 42] = Some (RStar (RSet (cs_flip (cs_single 97)))).
Proof. rewrite parse_pattern_eq. vm_compute. reflexivity. Qed.

(* "a|b|c" groups to the right *)
Example ex_alt_right_nested :
  parse_pattern [97; 124; 98; 124; 99] = Some (RAlt (RSet (cs_single 97)) (RAlt (RSet (cs_single 98)) (RSet (cs_single 99)))).
Proof. rewrite parse_pattern_eq. vm_compute. reflexivity. Qed.

(* "(", "a{", "[a", "", and a count that is too large *)
Example ex_rejected :
  map parse_pattern [[40]; [97; 123]; [91; 97]; []; pat_a4096] = [None; None; None; None; None].
Proof. rewrite (map_ext _ _ parse_pattern_eq). vm_compute. reflexivity. Qed.

(* the theorem applied: "(a|b)*abb" through [pattern_accepted_iff], without running the parser *)
Example ex_by_theorem : parse_pattern [40; 97; 124; 98; 41; 42; 97; 98; 98] <> None.
Proof.
  apply pattern_accepted_iff.
  exists [(6,0,1); (1,1,1); (5,2,1); (1,3,1); (7,4,1); (2,5,1); (1,6,1); (1,7,1); (1,8,1)].
  split; [vm_compute; reflexivity|]. split; [|vm_compute; reflexivity].
  eexists. apply (rnt_derives_tree
    (Node 14 [Node 12 [Node 11 [Node 11 [Node 11 [Node 10 [Node 6 [Node 4 [Leaf 6;
        Node 14 [Node 13 [Node 12 [Node 10 [Node 5 [Node 3 [Leaf 1]]]]; Leaf 5; Node 12 [Node 10 [Node 5 [Node 3 [Leaf 1]]]]]];
        Leaf 7]; Leaf 2]]; Node 5 [Node 3 [Leaf 1]]]; Node 5 [Node 3 [Leaf 1]]]; Node 5 [Node 3 [Leaf 1]]]]])).
  repeat constructor.
Qed.

Print Assumptions pattern_run_complete.
Print Assumptions parse_pattern_meaning.
Print Assumptions parse_pattern_meaning_all.
Print Assumptions digit_primary_meaning.
Print Assumptions wellformed_pattern_accepted.
Print Assumptions wellformed_pattern_accepted_refuted.
Print Assumptions pattern_accepted_iff.
Print Assumptions pattern_accepted_iff_terms.
Print Assumptions pattern_rejected_iff.
Print Assumptions pattern_syntax_decided.
Print Assumptions pattern_parse_terminates.
