(* TERMINATION of the pattern parser on EVERY byte string, well-formed or not, with the fuel [parse_pattern] uses.

   The termination theorems of Proofs/TermAll.v / TermRecAll.v need [validate], which the pattern table fails (resolved
   conflict). Here a direct argument.
   [halts], for any table, any scanner and any instance whose values read as trees: if a potential h of the state stack
   is lowered by every reduction and raised by at most K by a shift, and <eof> is never shifted, the run ends within
   (K + 1) * (tokens of the buffer's stream) + h iterations. By StreamSim.step_sim an iteration in normal mode is the
   machine's move, so the hypothesis speaks of [mstep] only; an error cell starts recovery, which (the error column
   being empty) pops one state per iteration.
   The pattern table, checked cell by cell by computation ([regex_pot_ok], read by [regex_pot]):
     rk st = rank of the accessing symbol of state st: 0 for a term, then number, primary 1 < q_expr 2 < concat 3 < alt 4
             < expr 5 ([rank_nt] lists them by the number of the nonterminal: 0 expr, 1 alt, 2 concat, 3 q_expr,
             4 primary, 5 number, 6 the fake root)
     h     = stack height + 6 - rk top,  K = 6
   a unit reduction replaces the top state by one of higher rank, a longer one lowers the height.
   Hence: at most 7 * length p + 8 iterations, for every semantic algebra. *)
Require Import Ctpg.Base.Prelude Ctpg.Model.Grammar Ctpg.Model.LRGen Ctpg.Model.Driver Ctpg.Model.RegexFront
               Ctpg.Spec.Cfg Ctpg.Spec.Eval Ctpg.Valid.LRValid Ctpg.Proofs.LRMachine Ctpg.Proofs.DriverBasics Ctpg.Proofs.DriverIter
               Ctpg.Proofs.DriverEval Ctpg.Proofs.DriverStream Ctpg.Proofs.StreamSim Ctpg.Proofs.PatternLex
               Ctpg.Proofs.PatternParse.

Definition rank_nt (l : nat) : nat := nth l [5; 4; 3; 2; 1; 1; 0] 0.
Definition rk0 (st : nat) : nat :=
  match state_items regex_sts st with
  | i :: _ => match it_d i with
              | 0 => 0
              | S d => match nth_error (rhs_of regex_g i) d with Some (NT l) => rank_nt l | _ => 0 end
              end
  | [] => 0
  end.
Definition rk_list : list nat := Eval vm_compute in map rk0 (seq 0 (length regex_sts)).
(* the [min] gives [rk_le] without a look at [rk_list] *)
Definition rk (st : nat) : nat := Nat.min 5 (nth st rk_list 0).

Lemma rk_le st : rk st <= 5.
Proof. unfold rk. lia. Qed.

(* The reduce clause rk st + 2 <= rk nst + ri_n ri says that the potential falls: height - n + 1 + 6 - rk nst is below
   height + 6 - rk st. It is asked of EVERY row of the table as the state under the right side, more than any run
   meets, and holds all the same; 1 <= ri_n ri: no rule is empty. *)
Definition term_cell_ok (st t : nat) (e : entry) : bool :=
  match e_kind e with
  | KError | KSuccess => true
  | KShift => negb (Nat.eqb t (eof_idx regex_g))
  | KReduce =>
      match e_arg e with
      | None => true
      | Some r =>
          match nth_error (rule_infos regex_g) r with
          | None => true
          | Some ri =>
              Nat.leb 1 (ri_n ri) &&
              forallb (fun row0 => match e_arg (nth (ri_l ri) row0 entry_default) with
                                   | Some nst => Nat.leb (rk st + 2) (rk nst + ri_n ri)
                                   | None => true
                                   end) regex_tb
          end
      end
  | KShiftErr | KRR => false
  end.

Lemma cell_in_row tbl st c e : cell tbl st c = inl e -> exists row, In row tbl /\ nth c row entry_default = e.
Proof.
  intros (row & Hr & He)%cell_inl. exists row. split; [eapply nth_error_In; eassumption|apply nth_error_nth; assumption].
Qed.

Definition pot_cell (st c : nat) (e : entry) : bool :=
  Nat.ltb c (nterm_count regex_g) || term_cell_ok st (c - nterm_count regex_g) e.

Lemma regex_pot_ok : cells_forallb pot_cell regex_tb = true.
Proof. vm_compute. reflexivity. Qed.

Lemma cell_term_ok st t e : cell regex_tb st (nterm_count regex_g + t) = inl e -> term_cell_ok st t e = true.
Proof.
  intros Hc. apply (cells_forallb_cell _ _ regex_pot_ok) in Hc. unfold pot_cell in Hc.
  rewrite (proj2 (Nat.ltb_ge _ _) (Nat.le_add_r _ t)), Nat.add_comm, Nat.add_sub in Hc. exact Hc.
Qed.

(* <eof> is never shifted: [term_cell_ok] refuses such a cell *)
Lemma regex_no_eof_shift st e : cell regex_tb st (nterm_count regex_g + eof_idx regex_g) = inl e -> e_kind e <> KShift.
Proof.
  intros Hc Hk. apply cell_term_ok in Hc. unfold term_cell_ok in Hc. rewrite Hk, Nat.eqb_refl in Hc. discriminate.
Qed.

Section Halts.
  Variables V C : Type.
  Variable g : grammar.
  Variable tbl : table.
  Variable opts : options.
  Variable buf : list nat.
  Variable lexer : bool -> spoint -> list nat -> list lex_event * option (nat * nat).
  Variable term_f : nat -> nat -> nat -> spoint -> V.
  Variable err_f : spoint -> V.
  Variable rule_f : nat -> C -> list V -> C * V.
  Variable strip : V -> tree.
  Hypothesis strip_term : forall t i n p, strip (term_f t i n p) = Leaf t.
  Hypothesis strip_rule : forall r c args, strip (snd (rule_f r c args)) = Node r (map strip args).
  (* the machine never meets a shift-error or reduce-reduce cell; the error column is empty *)
  Hypothesis Hnobad : forall c, mstep g tbl c <> Bad.
  Hypothesis Herr : err_col_empty g tbl.

  Notation gstep := (step V C g tbl opts buf None lexer term_f err_f rule_f).
  Notation grun := (run_from V C g tbl opts buf None lexer term_f err_f rule_f).
  Notation stnd := (stands V C g opts buf lexer).

  (* a potential of the state stack: a reduction lowers it, a shift (never of <eof>) raises it by at most K and takes a
     token off the stream; recovery pops one state per iteration *)
  Variable h : list nat -> nat.
  Variable K : nat.
  Hypothesis Hh : forall cs, length cs < h cs.
  Hypothesis Hpot : forall cs trs rest cs' trs' rest', mstep g tbl (cs, trs, rest) = Next (cs', trs', rest') ->
    (rest' = rest /\ h cs' < h cs) \/ (rest <> [] /\ rest' = tl rest /\ h cs' <= h cs + K).

  Lemma halts fuel : forall s out toks fl,
    nmode s -> stnd s toks fl -> S K * length toks + h (ps_cursors s) < fuel ->
    fst (fst (grun fuel s out)) <> OutOfFuel.
  Proof.
    induction fuel as [|f IH]; intros s out toks fl Hm Hs Hmu; [lia|]. cbn [run_from].
    assert (Hend : forall r s1 ev, gstep s = (inr (r, s1), ev) -> r <> OutOfFuel) by (intros r s1 ev E ->; exact (step_not_oof E)).
    destruct (step_sim V C g tbl opts buf lexer term_f err_f rule_f strip strip_term strip_rule s toks fl Hm Hs)
      as [(_ & _ & r & s1 & ev & E & _)|[_ L]]; [rewrite E; exact (Hend _ _ _ E)|].
    unfold mcfg in L. destruct (mstep g tbl (ps_cursors s, map strip (ps_values s), terms toks)) as [[[cs1 trs1] rest1]|t| |] eqn:Em.
    - destruct L as (s' & ev & toks' & -> & Hm' & Hs' & [= -> _ ->] & _). apply (IH _ _ toks' fl Hm' Hs').
      destruct (Hpot _ _ _ _ _ _ Em) as [(Ht & Hlt)|(Hne & Ht & Hle)]; apply (f_equal (@length nat)) in Ht; unfold terms in *;
        rewrite ?map_length in Ht.
      + replace (length toks') with (length toks) by exact Ht. lia.
      + destruct toks as [|tk toks]; [destruct Hne; reflexivity|]. cbn [tl map length] in *. rewrite map_length in Ht.
        rewrite Nat.mul_succ_r in Hmu. replace (length toks') with (length toks) by exact Ht. lia.
    - destruct L as (v & rest & s' & ev & -> & _). discriminate.
    - (* an error cell: the run ends, or recovery pops the stack *)
      destruct L as [(r & s' & ev & E & _)|(s' & ev & -> & Hr' & Hc' & Hcs)]; [rewrite E; exact (Hend _ _ _ E)|].
      pose proof (rec_ends V C g tbl opts buf None lexer term_f err_f rule_f Herr f s' (out ++ filter (visible opts) ev) Hr' Hc') as He.
      intros E. rewrite E, Hcs in He. pose proof (Hh (ps_cursors s)). lia.
    - destruct (Hnobad _ Em).
  Qed.
End Halts.

Definition rh (cs : list nat) : nat := length cs + 6 - rk (hd 0 cs).

Lemma regex_pot cs trs rest cs' trs' rest' : mstep regex_g regex_tb (cs, trs, rest) = Next (cs', trs', rest') ->
  (rest' = rest /\ rh cs' < rh cs) \/ (rest <> [] /\ rest' = tl rest /\ rh cs' <= rh cs + 6).
Proof.
  unfold mstep. destruct cs as [|cur cs0]; [discriminate|].
  destruct (cell regex_tb cur (nterm_count regex_g + look regex_g rest)) as [e|] eqn:Ecell; [|discriminate].
  pose proof (cell_term_ok _ _ _ Ecell) as Hok. unfold term_cell_ok in Hok.
  pose proof (rk_le cur) as Hcur. unfold rh.
  destruct (e_kind e); try discriminate.
  - destruct (rev trs); discriminate.
  - destruct (e_arg e) as [nst|]; [|discriminate]. intros [= <- <- <-]. apply negb_true_iff, Nat.eqb_neq in Hok.
    right. cbn [length hd]. pose proof (rk_le nst). split; [intros ->; exact (Hok eq_refl)|]. split; [reflexivity|lia].
  - destruct (e_arg e) as [r|]; [|discriminate]. intros Hm.
    destruct (mreduce_inv _ _ _ _ _ _ _ Hm) as (ri & top0 & below & e0 & nst & Hri & Esk & Ec0 & Ea0 & [= -> -> ->]).
    rewrite Hri in Hok. apply andb_true_iff in Hok as [Hn1 Hall]. apply Nat.leb_le in Hn1. left. split; [reflexivity|].
    destruct (cell_in_row _ _ _ _ Ec0) as (row0 & Hin & Hnth).
    rewrite forallb_forall in Hall. specialize (Hall row0 Hin). rewrite Hnth, Ea0 in Hall. apply Nat.leb_le in Hall.
    assert (Hlen : length (top0 :: below) = length (cur :: cs0) - ri_n ri) by (rewrite <- Esk; apply skipn_length).
    cbn [length hd] in *. pose proof (rk_le nst). lia.
Qed.

(* every instance follows the path of the parse-tree instance (Proofs/DriverEval.v), which reads as trees under [strip] *)
(* 7 * length buf + 8: K + 1 = 7 iterations for each of at most length buf tokens (stream_length), the potential
   rh [0] = 7 of the initial stack, and [halts] wants the sum below the fuel *)
Theorem regex_run_halts (V C : Type) buf (term_f : nat -> nat -> nat -> spoint -> V) (err_f : spoint -> V)
    (rule_f : nat -> C -> list V -> C * V) c0 fuel : 7 * length buf + 8 <= fuel ->
  fst (fst (run V C regex_g regex_tb regex_opts buf None regex_lexer term_f err_f rule_f fuel c0)) <> OutOfFuel.
Proof.
  intros Hf E. pose proof (run_res_shape V C regex_g regex_tb regex_opts buf None regex_lexer term_f err_f rule_f c0 fuel) as Hs.
  rewrite E in Hs.
  destruct (regex_stream buf) as (toks & fl & Hst & _ & Hlen).
  apply (halts ptree _ regex_g regex_tb regex_opts buf regex_lexer tree_term_f tree_err_f tree_rule_f (strip regex_g)
           (fun _ _ _ _ => eq_refl) (fun _ _ _ => eq_refl) (plain_not_bad _ _ regex_plain_table) regex_err_col rh 6
           (fun cs => ltac:(unfold rh; pose proof (rk_le (hd 0 cs)); lia)) regex_pot fuel (init []) [] toks fl).
  - split; reflexivity.
  - apply stands_init; exact Hst.
  - unfold rh. cbn [init ps_cursors hd length]. change (rk 0) with 0. lia.
  - unfold run in Hs. destruct (fst (fst (run_from ptree _ _ _ _ _ _ _ _ _ _ fuel (init []) []))); try discriminate Hs. reflexivity.
Qed.

(* the pattern parser terminates on every byte string, within the fuel [parse_pattern] gives it *)
Theorem pattern_parse_terminates p fuel : 7 * length p + 8 <= fuel -> pattern_run regex_g regex_tb p fuel <> OutOfFuel.
Proof. intros H. unfold pattern_run. apply regex_run_halts. exact H. Qed.

Corollary pattern_parse_fuel_suffices p : pattern_run regex_g regex_tb p (10 * length p + 20) <> OutOfFuel.
Proof. apply pattern_parse_terminates. lia. Qed.

(* so the verdict of [parse_pattern] is final: more fuel never changes it *)
Corollary pattern_parse_stable p fuel : 7 * length p + 8 <= fuel ->
  pattern_run regex_g regex_tb p fuel = pattern_run regex_g regex_tb p (7 * length p + 8).
Proof.
  intros Hf. unfold pattern_run.
  destruct (run rval unit regex_g regex_tb regex_opts p None regex_lexer (regex_term_f p) (fun _ => VTok) regex_rule_f
                (7 * length p + 8) tt) as [[r s] out] eqn:E.
  assert (Hr : r <> OutOfFuel).
  { pose proof (pattern_parse_terminates p (7 * length p + 8) (Nat.le_refl _)) as H. unfold pattern_run in H.
    rewrite E in H. exact H. }
  unfold run in *. replace fuel with (7 * length p + 8 + (fuel - (7 * length p + 8))) by lia.
  rewrite (run_from_mono _ _ _ _ _ _ _ _ _ _ _ _ _ _ _ _ _ _ E Hr). reflexivity.
Qed.

Corollary pattern_parse_decides p :
  (exists v, pattern_run regex_g regex_tb p (10 * length p + 20) = Accept v) \/
  pattern_run regex_g regex_tb p (10 * length p + 20) = Reject.
Proof.
  destruct (pattern_parse_outcomes regex_g regex_tb p (10 * length p + 20) regex_grammar_table_eq) as [H|[H|H]]; auto.
  exfalso. exact (pattern_parse_fuel_suffices p H).
Qed.

Print Assumptions pattern_parse_terminates.
Print Assumptions pattern_parse_decides.
