(* Two demands of cell_justified (Valid/LRValid.v) that soundness needs: a SHIFT_ERROR cell stands in the <err>
   column only, and an ERROR cell in a nonterminal column carries no target. For each, a table that breaks just that
   demand, passes no_error_symbol, and with which the driver accepts a tree that is not a derivation tree of the input;
   validate_sound rejects both. Generated tables validate. *)
Require Import Ctpg.Base.Prelude Ctpg.Model.Grammar Ctpg.Model.LRGen Ctpg.Model.Driver
               Ctpg.Spec.Cfg Ctpg.Spec.LRSpec Ctpg.Valid.LRValid.

Definition E := entry_default.
Definition na3 := [NoAssoc; NoAssoc; NoAssoc].
Definition z3 := [0%Z; 0%Z; 0%Z].

(* cex 1: S -> a.  terms a=0 <eof>=1 <err>=2; nonterminals S=0 ##=1; columns S ## a <eof> <err>.
   The cell (0, a) is a SHIFT_ERROR (instead of a shift) into the state [S -> a .]: the driver pushes the
   error token's value without consuming a, then skips a in consume mode, reduces and succeeds. *)
Definition g1 := mkG 3 2 2 1 [[T 0]; [NT 0]] [mkRI 0 0 1; mkRI 1 1 1] [(0,1);(1,1)]
                     z3 na3 [0%Z;0%Z] [NoAssoc;NoAssoc] [Some 0; None].
Definition sts1 := [[mkItem 1 0 1; mkItem 0 0 1]; [mkItem 0 1 1]; [mkItem 1 1 1]].
Definition tbl1 : table :=
  [[mkE KShift (Some 2) false; E; mkE KShiftErr (Some 1) false; E; E];
   [E; E; E; mkE KReduce (Some 0) false; E];
   [E; E; E; mkE KSuccess None false; E]].

Example cex1_run : tree_run g1 tbl1 [0] 20 = Accept (Node 0 [Leaf 2]).      (* Leaf 2 = the error token, not a *)
Proof. vm_compute. reflexivity. Qed.
Example cex1_noerr : no_error_symbol g1 tbl1 = true.
Proof. vm_compute. reflexivity. Qed.
Example cex1_rejected : validate_sound g1 sts1 tbl1 = false.
Proof. vm_compute. reflexivity. Qed.

(* cex 2: S -> a ; A -> (empty) with A unreachable.  nonterminals S=0 A=1 ##=2; columns S A ## a <eof> <err>.
   State 0 carries the (unclosed, but table_sound_ok does not check closure) item [A -> ., <eof>], justifying a
   reduce on <eof>; the goto cell (0, A) is an ERROR cell that carries a target (state 2 = [## -> S .]):
   the driver's reduce reads the target without looking at the kind. Empty input is accepted with a tree
   for A, not for S. *)
Definition g2 := mkG 3 3 3 1 [[T 0]; []; [NT 0]] [mkRI 0 0 1; mkRI 1 1 0; mkRI 2 2 1] [(0,1);(1,1);(2,1)]
                     z3 na3 z3 na3 [Some 0; None; None].
Definition sts2 := [[mkItem 2 0 1; mkItem 0 0 1; mkItem 1 0 1]; [mkItem 0 1 1]; [mkItem 2 1 1]].
Definition tbl2 : table :=
  [[mkE KShift (Some 2) false; mkE KError (Some 2) false; E; mkE KShift (Some 1) false; mkE KReduce (Some 1) false; E];
   [E; E; E; E; mkE KReduce (Some 0) false; E];
   [E; E; E; E; mkE KSuccess None false; E]].

Example cex2_run : tree_run g2 tbl2 [] 20 = Accept (Node 1 []).
Proof. vm_compute. reflexivity. Qed.
Example cex2_noerr : no_error_symbol g2 tbl2 = true.
Proof. vm_compute. reflexivity. Qed.
Example cex2_rejected : validate_sound g2 sts2 tbl2 = false.
Proof. vm_compute. reflexivity. Qed.

(* the mirror generator's tables validate, also with the error symbol in use (g3: S -> a | <err> a) *)
Definition chk g := match gen g with
                    | inl (sts, tb) => Some (validate g (map st_all sts) tb, no_error_symbol g tb)
                    | inr _ => None
                    end.
Definition g3 := mkG 3 2 3 2 [[T 0]; [T 2; T 0]; [NT 0]] [mkRI 0 0 1; mkRI 0 1 2; mkRI 1 2 1] [(0,2);(2,1)]
                     z3 na3 z3 na3 [Some 0; Some 0; None].
Example gen_ok : (chk g1, chk g2, chk g3) = (Some (true, true), Some (true, true), Some (true, false)).
Proof. vm_compute. reflexivity. Qed.
