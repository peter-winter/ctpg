(* Termination with ERROR RECOVERY, part 1 (part 2, the driver, is Proofs/TermRecDriver.v): the table walk between
   two shifts, from an ARBITRARY stack.
   The error symbol is an ordinary terminal of the grammar (its index is err_idx g; rules may mention it; the
   generator writes its shift as KShiftErr into the column of the error symbol).  The machine of this file
   therefore knows two kinds of moves on a configuration (state stack, tree stack, remaining input), mred and mshift,
   and the test msucc:
     mred    a reduction under the lookahead [look rest]  (the remaining input is kept);
     mshift  the shift of [look rest]: a KShift cell if it is not the error symbol, a KShiftErr cell if it is
             (the driver pushes the error token without consuming input: recovery is modelled by putting the
             error symbol in front of the remaining input);
     msucc   the cell under the lookahead is the accept cell.
   Invariant [MInv]: the state stack satisfies [stk_ok] of Proofs/LRSound.v (the items with the dot > 0 of each state
   come from the state below) and the tree stack has the matching height.  It is closed under mred, mshift and under
   POPPING states (recovery).
   Main theorem [finish]: from every configuration that satisfies MInv, if the cell of the top state under the
   lookahead a is not an error cell, then after finitely many reductions the machine shifts a (or stands on the
   accept cell).  No reachability from the initial configuration is needed: every item of a state on the stack has a
   CHAIN of items below it (kernel item -> its predecessor in the state below; closure item -> the item of the same
   state that generated it, with the lookahead in FIRST(beta t)) down to the root item of state 0, and the machine
   is complete along such a chain: [children] of Proofs/PatternCompleteLR.v for trees with EMPTY yield, run on the
   reductions alone, and [reach_list] for the descent to the first leaf of a tree. *)
Require Import Ctpg.Base.Prelude Ctpg.Proofs.ListFacts Ctpg.Model.Grammar Ctpg.Model.LRGen Ctpg.Model.Driver
               Ctpg.Spec.Cfg Ctpg.Valid.LRValid Ctpg.Proofs.DriverBasics Ctpg.Proofs.LRMachine Ctpg.Proofs.LRValidFacts
               Ctpg.Proofs.LRSound Ctpg.Proofs.PatternCompleteLR Ctpg.Proofs.LRComplete Ctpg.Proofs.ReportLang Ctpg.Proofs.ReportViable
               Ctpg.Proofs.TermFirst Ctpg.Proofs.TermViable.

Section Moves.
  Variable g : grammar.
  Variable tbl : table.

  Definition mred (c : cfg) : option cfg :=
    let '(ss, trs, rest) := c in
    match ss with
    | [] => None
    | cur :: _ =>
        match cell tbl cur (nterm_count g + look g rest) with
        | inr _ => None
        | inl e =>
            match e_kind e with
            | KReduce => match e_arg e with
                         | Some r => match mreduce g tbl ss trs rest r with Next c' => Some c' | _ => None end
                         | None => None
                         end
            | _ => None
            end
        end
    end.

  Definition mshift (c : cfg) : option cfg :=
    let '(ss, trs, rest) := c in
    match ss with
    | [] => None
    | cur :: _ =>
        match cell tbl cur (nterm_count g + look g rest) with
        | inr _ => None
        | inl e =>
            match e_arg e with
            | None => None
            | Some nst =>
                match e_kind e with
                | KShift => if Nat.eqb (look g rest) (err_idx g) then None
                            else Some (nst :: ss, Leaf (look g rest) :: trs, tl rest)
                | KShiftErr => if Nat.eqb (look g rest) (err_idx g)
                               then Some (nst :: ss, Leaf (look g rest) :: trs, tl rest) else None
                | _ => None
                end
            end
        end
    end.

  (* the top state's cell under the lookahead is the accept cell *)
  Definition msucc (c : cfg) : Prop :=
    let '(ss, _, rest) := c in
    exists cur ss' e, ss = cur :: ss' /\ cell tbl cur (nterm_count g + look g rest) = inl e /\ e_kind e = KSuccess.

  (* n reductions *)
  Fixpoint rsteps (n : nat) (c c' : cfg) : Prop :=
    match n with
    | 0 => c = c'
    | S n' => exists c1, mred c = Some c1 /\ rsteps n' c1 c'
    end.

  (* each move read off its cell, in both directions *)
  Lemma mred_inv ss trs rest c' : mred (ss, trs, rest) = Some c' ->
    exists cur ss0 e r, ss = cur :: ss0 /\ cell tbl cur (nterm_count g + look g rest) = inl e /\
      e_kind e = KReduce /\ e_arg e = Some r /\ mreduce g tbl ss trs rest r = Next c'.
  Proof.
    unfold mred. destruct ss as [|cur ss0]; [discriminate|].
    destruct (cell tbl cur (nterm_count g + look g rest)) as [e|] eqn:Ec; [|discriminate].
    destruct (e_kind e) eqn:Ek; try discriminate. destruct (e_arg e) as [r|] eqn:Ea; [|discriminate].
    destruct (mreduce g tbl (cur :: ss0) trs rest r) as [c1| | |] eqn:Em; try discriminate.
    intros H; inversion H; subst c1. exists cur, ss0, e, r. auto 6.
  Qed.

  Lemma mshift_inv ss trs rest c' : mshift (ss, trs, rest) = Some c' ->
    exists cur ss0 e nst, ss = cur :: ss0 /\ cell tbl cur (nterm_count g + look g rest) = inl e /\
      e_arg e = Some nst /\ e_kind e = (if Nat.eqb (look g rest) (err_idx g) then KShiftErr else KShift) /\
      c' = (nst :: ss, Leaf (look g rest) :: trs, tl rest).
  Proof.
    unfold mshift. destruct ss as [|cur ss0]; [discriminate|].
    destruct (cell tbl cur (nterm_count g + look g rest)) as [e|] eqn:Ec; [|discriminate].
    destruct (e_arg e) as [nst|] eqn:Ea; [|discriminate]. intros H. exists cur, ss0, e, nst.
    destruct (e_kind e); try discriminate; destruct (Nat.eqb (look g rest) (err_idx g)); try discriminate;
      inversion H; auto.
  Qed.

  Lemma mshift_ok cur ss trs rest e nst :
    cell tbl cur (nterm_count g + look g rest) = inl e -> e_arg e = Some nst ->
    e_kind e = (if Nat.eqb (look g rest) (err_idx g) then KShiftErr else KShift) ->
    mshift (cur :: ss, trs, rest) = Some (nst :: cur :: ss, Leaf (look g rest) :: trs, tl rest).
  Proof.
    intros Hc Ha Hk. unfold mshift. rewrite Hc, Ha, Hk.
    destruct (Nat.eqb (look g rest) (err_idx g)); reflexivity.
  Qed.

  Lemma mred_rest c c' : mred c = Some c' -> snd c' = snd c.
  Proof.
    destruct c as [[ss trs] rest]. intros H.
    destruct (mred_inv _ _ _ _ H) as (_ & _ & _ & r & _ & _ & _ & _ & Hm).
    destruct (mreduce_inv g tbl _ _ _ _ _ Hm) as (? & ? & ? & ? & ? & _ & _ & _ & _ & ->). reflexivity.
  Qed.

  Lemma mshift_rest c c' : mshift c = Some c' -> snd c' = tl (snd c).
  Proof.
    destruct c as [[ss trs] rest]. intros H.
    destruct (mshift_inv _ _ _ _ H) as (? & ? & ? & ? & _ & _ & _ & _ & ->). reflexivity.
  Qed.

  (* the moves on a lookahead other than the error symbol are steps of [mstep] *)
  Lemma mred_mstep c c' : mred c = Some c' -> mstep g tbl c = Next c'.
  Proof.
    destruct c as [[ss trs] rest]. intros H.
    destruct (mred_inv _ _ _ _ H) as (cur & ss0 & e & r & -> & Ec & Ek & Ea & Hm).
    unfold mstep. rewrite Ec, Ek, Ea. exact Hm.
  Qed.

  Lemma mshift_mstep c c' : mshift c = Some c' -> look g (snd c) <> err_idx g -> mstep g tbl c = Next c'.
  Proof.
    destruct c as [[ss trs] rest]. cbn [snd]. intros H Hne.
    destruct (mshift_inv _ _ _ _ H) as (cur & ss0 & e & nst & -> & Ec & Ea & Ek & ->).
    apply Nat.eqb_neq in Hne. rewrite Hne in Ek. exact (mstep_shift g tbl cur ss0 trs rest e nst Ec Ek Ea).
  Qed.

  Lemma msucc_halted c : msucc c -> halted g tbl c.
  Proof.
    destruct c as [[ss trs] rest]. intros (cur & ss' & e & -> & Ec & Ek). unfold halted, mstep. rewrite Ec, Ek.
    destruct (rev trs); exact I.
  Qed.

  Lemma rsteps_trans n m c1 c2 c3 : rsteps n c1 c2 -> rsteps m c2 c3 -> rsteps (n + m) c1 c3.
  Proof.
    revert c1; induction n as [|n IH]; intros c1 H1 H2; cbn in *.
    - subst; assumption.
    - destruct H1 as (c & Hs & H1). exists c. split; [assumption|]. apply IH; assumption.
  Qed.

  Lemma rsteps_one c c' : mred c = Some c' -> rsteps 1 c c'.
  Proof. intros H. cbn. exists c'. auto. Qed.

  Lemma rsteps_msteps n : forall c c', rsteps n c c' -> msteps g tbl n c c'.
  Proof.
    induction n as [|n IH]; intros c c' H; cbn in H |- *; [exact H|].
    destruct H as (c1 & Hs & H). exists c1. split; [exact (mred_mstep _ _ Hs)|exact (IH _ _ H)].
  Qed.

  (* the reductions are those of [mstep]: the children loop of Proofs/PatternCompleteLR.v runs on [rsteps] *)
  Lemma rsteps_runs : runs g tbl (fun _ => False) rsteps.
  Proof.
    constructor; [intros _ []|reflexivity|apply rsteps_trans|].
    intros cur ss trs rest e c' Hc [Hk|[]] Hm. apply rsteps_one.
    unfold mstep in Hm. unfold mred. rewrite Hc in *. rewrite Hk in *.
    destruct (e_arg e); [|discriminate]. rewrite Hm. reflexivity.
  Qed.

  Lemma rsteps_rest n : forall c c', rsteps n c c' -> snd c' = snd c.
  Proof.
    induction n as [|n IH]; intros c c' H; cbn in H.
    - subst; reflexivity.
    - destruct H as (c1 & Hs & H). rewrite (IH _ _ H). apply mred_rest; assumption.
  Qed.

  (* the outcome of the table walk from c: finitely many reductions, then the shift of the lookahead or the
     accept cell *)
  Definition fin (c : cfg) : Prop :=
    exists n c1, rsteps n c c1 /\ ((exists c2, mshift c1 = Some c2 /\ snd c1 <> []) \/ msucc c1).

  Lemma fin_now c : (exists c2, mshift c = Some c2 /\ snd c <> []) \/ msucc c -> fin c.
  Proof. intros H. exists 0, c. split; [reflexivity|exact H]. Qed.

  Lemma fin_rsteps n c c' : rsteps n c c' -> fin c' -> fin c.
  Proof.
    intros H (m & c1 & H1 & Hend). exists (n + m), c1. split; [eapply rsteps_trans; eassumption|exact Hend].
  Qed.
End Moves.

Section StackInv.
  Variable g : grammar.
  Variable sts : list items.
  Variable tbl : table.
  Hypothesis SF : sound_facts g sts tbl.

  Notation tc := (term_count g).

  Definition MInv (ss : list nat) (trs : list tree) : Prop :=
    exists syms, stk_ok g sts ss syms /\ length trs = length syms.

  Lemma MInv_init : MInv [0] [].
  Proof. exists []. split; [constructor|reflexivity]. Qed.

  Lemma MInv_nonempty ss trs : MInv ss trs -> exists cur ss', ss = cur :: ss' /\ cur < length sts.
  Proof.
    intros (syms & Hst & _). destruct ss as [|cur ss']; [inversion Hst|].
    exists cur, ss'. split; [reflexivity|]. eapply stk_top_lt; eassumption.
  Qed.

  Lemma MInv_len ss trs : MInv ss trs -> length ss = S (length trs).
  Proof. intros (syms & Hst & Hl). rewrite Hl. eapply stk_len; eassumption. Qed.

  (* popping a state (recovery) keeps the invariant: it is prefix-closed *)
  Lemma MInv_pop s s' ss trs : MInv (s :: s' :: ss) trs -> MInv (s' :: ss) (tl trs).
  Proof.
    intros (syms & Hst & Hl). inversion Hst as [|s1 ss1 syms1 s2 X H1 Hlt Hnz Hj]; subst.
    exists syms1. split; [assumption|]. destruct trs; cbn in *; [discriminate|lia].
  Qed.

  Lemma MInv_mred ss trs rest ss' trs' rest' : MInv ss trs -> look g rest < tc ->
    mred g tbl (ss, trs, rest) = Some (ss', trs', rest') -> rest' = rest /\ MInv ss' trs'.
  Proof.
    intros (syms & Hst & Hl) Hla Hm.
    destruct (mred_inv _ _ _ _ _ _ Hm) as (cur & ss0 & e & r & -> & Ec & Ek & Ea & Hmr).
    destruct (mreduce_inv _ _ _ _ _ _ _ Hmr) as (ri & top & stk & e' & nst & Hri & Hsk & Ec' & Ea' & E).
    inversion E; subst ss' trs' rest'; clear E Hm Hmr.
    rewrite (cell_cell_at _ _ _ _ Ec) in Ek, Ea. rewrite (cell_cell_at _ _ _ _ Ec') in Ea'.
    destruct (get_ri_nth_error _ _ _ SF _ _ Hri) as [<- _].
    destruct (reduce_cell g sts tbl SF _ _ _ _ Hst Hla Ek)
      as (r' & Ea0 & _ & _ & Hn & _ & top' & below & _ & _ & _ & _ & Hsk' & _ & _ & Hpush).
    assert (r' = r) as -> by congruence. rewrite Hsk in Hsk'. injection Hsk' as <- <-.
    split; [reflexivity|]. eexists. split; [exact (proj2 (Hpush nst Ea'))|]. cbn [length]. rewrite !skipn_length. lia.
  Qed.

  Lemma MInv_rsteps n : forall ss trs rest ss' trs' rest', MInv ss trs -> look g rest < tc ->
    rsteps g tbl n (ss, trs, rest) (ss', trs', rest') -> rest' = rest /\ MInv ss' trs'.
  Proof.
    induction n as [|n IH]; intros ss trs rest ss' trs' rest' Hi Hla H; cbn [rsteps] in H.
    - inversion H; subst. auto.
    - destruct H as ([[ss1 trs1] rest1] & Hs & H).
      destruct (MInv_mred _ _ _ _ _ _ Hi Hla Hs) as [-> Hi1]. exact (IH _ _ _ _ _ _ Hi1 Hla H).
  Qed.

  Lemma MInv_mshift ss trs rest ss' trs' rest' : MInv ss trs -> look g rest < tc ->
    mshift g tbl (ss, trs, rest) = Some (ss', trs', rest') -> MInv ss' trs'.
  Proof.
    intros (syms & Hst & Hl) Hla Hm.
    destruct (mshift_inv _ _ _ _ _ _ Hm) as (cur & ss0 & e & nst & -> & Ec & Ea & Ek & [= -> -> ->]).
    rewrite (cell_cell_at _ _ _ _ Ec) in Ek, Ea.
    exists (T (look g rest) :: syms). split; [|cbn; lia].
    apply (shift_cell g sts tbl SF _ _ _ _ _ Hst Hla); [rewrite Ek; destruct (Nat.eqb _ _); auto|exact Ea].
  Qed.
End StackInv.

Section CompleteE.
  Variable g : grammar.
  Variable sts : list items.
  Variable tbl : table.
  Hypothesis Hval : validate g sts tbl = true.
  Hypothesis Hgen : lookahead_generated g sts.
  Hypothesis Hnonempty : states_nonempty sts.
  Hypothesis Hred : reduce_lookahead g sts tbl.
  Hypothesis Hprod : productive g.

  Notation ne := (nterm_empty g).
  Notation nf := (nterm_first g (nterm_empty g)).
  Let CF : complete_facts g sts tbl ne nf := complete_facts_of _ _ _ _ _ Hval.
  Let SF : sound_facts g sts tbl := cf_sound _ _ _ _ _ CF.

  Notation items_of := (state_items sts).
  Notation tc := (term_count g).
  Notation lhs := (lhs_of g).
  (* the x of these notations: "at g tbl", and for CX "CF as completex_facts"; not the "except" of PatternCompleteLR's
     table_okx. M is what PatternCompleteLR's Section Loop calls M, for the machine of this file. *)
  Notation mshiftx := (mshift g tbl).
  Notation finx := (fin g tbl).
  Notation CX := (proj1 (complete_facts_x g sts tbl ne nf) CF).
  Notation M := (rsteps_runs g tbl).

  Lemma mshift_goto s ss trs a v s' : s < length sts -> a < tc ->
    goto_target g tbl s (T a) = Some s' ->
    mshiftx (s :: ss, trs, a :: v) = Some (s' :: s :: ss, Leaf a :: trs, v).
  Proof.
    intros Hs Ha Hg. destruct (goto_T_any _ _ _ _ _ Hg) as [Harg Hk].
    exact (mshift_ok g tbl s ss trs (a :: v) _ s' (cell_in_range _ _ _ SF s _ Hs (col_lt g a Ha)) Harg Hk).
  Qed.

  (* chain ss i: the item i of the top state of ss descends to the root item of state 0 by the two links of the head
     comment; ss shrinks by one state at a kernel link *)
  Inductive chain : list nat -> item -> Prop :=
  | ch_root : chain [0] (root_item g)
  | ch_closure s ss ik i :
      chain (s :: ss) ik -> s < length sts -> In ik (items_of s) -> In i (items_of s) -> it_d i = 0 ->
      next_sym g ik = Some (NT (lhs i)) ->
      bset_test (first_tail_gen g (skipn (S (it_d ik)) (rhs_of g ik)) (it_t ik)) (it_t i) = true ->
      chain (s :: ss) i
  | ch_kernel s' s ss i d :
      chain (s :: ss) (mkItem (it_r i) d (it_t i)) -> s' < length sts -> In i (items_of s') -> it_d i = S d ->
      chain (s' :: s :: ss) i.

  Lemma chain_top ss i : chain ss i -> exists s ss', ss = s :: ss' /\ s < length sts /\ In i (items_of s).
  Proof.
    induction 1 as [|s ss ik i _ _ Hs _ Hi _ _ _|s' s ss i d _ _ Hs' Hi _].
    - exists 0, []. split; [reflexivity|]. split; [apply (sf_dims2 _ _ _ SF)|apply (sf_st0_root _ _ _ SF)].
    - eauto.
    - eauto.
  Qed.

  Lemma chain_reach ss i : chain ss i -> nts_reachable g (rhs_of g i).
  Proof.
    induction 1 as [|s ss ik i _ IH Hs _ Hi _ Hnx _|s' s ss i d _ IH _ _ _].
    - exact (root_reachable g sts tbl SF).
    - exact (closure_reachable g sts tbl SF ik i IH Hnx (proj1 (sf_item _ _ _ SF s i Hs Hi))).
    - exact IH.
  Qed.

  Lemma chain_exists s ss syms i : stk_ok g sts (s :: ss) syms -> In i (items_of s) -> chain (s :: ss) i.
  Proof.
    intros Hst. revert i. refine (stk_items_ind g sts tbl SF _ Hgen (fun ss _ i => chain ss i) ch_root _ _ s ss syms Hst).
    - intros s0 ss0 _ ik i Hik Hs Hin Hi Hd Hnx Hft. exact (ch_closure s0 ss0 ik i Hik Hs Hin Hi Hd Hnx Hft).
    - intros s' s0 ss0 _ _ i d Hik Hs' Hi Hd _. exact (ch_kernel s' s0 ss0 i d Hik Hs' Hi Hd).
  Qed.

  Lemma look_not_eof rest a : look g rest = a -> a <> eof_idx g -> rest = a :: tl rest.
  Proof. destruct rest as [|b v]; cbn; congruence. Qed.

  (* an item with the lookahead after its dot: the machine shifts *)
  Lemma item_shifts s ss trs rest j : s < length sts -> In j (items_of s) -> next_sym g j = Some (T (look g rest)) ->
    finx (s :: ss, trs, rest).
  Proof.
    intros Hs Hj Hnx. destruct (item_next_sym_ok _ _ _ SF s j _ _ Hs Hj Hnx) as (Hlt%Nat.ltb_lt & _ & Hne).
    destruct (goto_next CX s j _ Hs Hj Hnx) as (s2 & Hg & _).
    apply fin_now. left. rewrite (look_not_eof rest _ eq_refl) by congruence.
    eexists. split; [exact (mshift_goto s ss trs _ _ s2 Hs Hlt Hg)|discriminate].
  Qed.

  (* Item i has a chain at the stack ss, where its dot stands at it_d i; the states es (with the trees ch) were
     pushed on top for the rest of its right side, so that the top state holds i completed; the lookahead is i's.
     Then the machine finishes. *)
  Lemma finish_chain ss i : chain ss i ->
    forall es ch trs0 rest top stk,
      length ch = length es -> length es + it_d i = length (rhs_of g i) -> S (length trs0) = length ss ->
      es ++ ss = top :: stk -> top < length sts ->
      In (mkItem (it_r i) (length (rhs_of g i)) (it_t i)) (items_of top) ->
      look g rest = it_t i ->
      finx (es ++ ss, rev ch ++ trs0, rest).
  Proof.
    induction 1 as [|s ss ik i Hchk IH Hs Hik Hi Hd Hnx Hft|s' s ss i d Hch IH Hs' Hi Hd];
      intros es ch trs0 rest top stk Hlen Hes Htrs Etop Htop Hcomp Hla.
    - (* the root item: accept *)
      apply fin_now. right. exists top, stk. eexists. split; [exact Etop|]. rewrite Hla.
      exact (root_accept CX top Htop Hcomp).
    - (* a closure item: reduce, goto, then the rest of ik's right side *)
      destruct (sf_item _ _ _ SF s i Hs Hi) as (Hrlt & _ & Httc).
      destruct (sf_ri _ _ _ SF _ Hrlt) as (_ & _ & Hn). fold (rhs_of g i) in Hn.
      rewrite Hd, Nat.add_0_r, <- Hn in Hes. rewrite <- Hn, <- Hla in Hcomp.
      assert (Hlatc : look g rest < tc) by (rewrite Hla; exact Httc).
      destruct (node_exit CX M s ss ik (it_r i) (get_ri g (it_r i)) es ch trs0 rest top stk)
        as (s'' & Hmr & Hs'' & Hik');
        try assumption; [apply (nth_error_get_ri _ _ _ SF); exact Hrlt|exact (eq_trans Hlen Hes)|reflexivity|].
      eapply fin_rsteps; [exact Hmr|].
      set (tA := Node (ri_r (get_ri g (it_r i))) ch).
      (* what follows the dot of ik *)
      destruct (sf_item _ _ _ SF s ik Hs Hik) as (_ & _ & Htktc).
      unfold first_tail_gen in Hft. set (beta := skipn (S (it_d ik)) (rhs_of g ik)) in *.
      destruct (first_tail_just g sts tbl SF Hprod beta (it_t ik) (it_t i)
                  (nts_reachable_skipn g _ _ (chain_reach _ _ Hchk)) Hft)
        as [(ts & u & Hts & Hyts)|(Et & ts & Hts & Hyts)].
      + (* the lookahead is the first token of what follows: the machine comes to an item with the dot before it,
           and shifts it *)
        destruct (reach_list CX M (fun _ _ => eq_refl) (it_r ik) (it_t ik) (it_t i) u rest Htktc Hla ts
                    (Forall_reaches CX M (fun _ _ => eq_refl) ts) (S (it_d ik)) s'' (s :: ss) (tA :: trs0) Hts Hyts Hs'' Hik')
          as (n & s1 & ss1 & trs1 & j & Hm & Hs1 & Hj & Hnxj).
        rewrite <- Hla in Hnxj. exact (fin_rsteps g tbl n _ _ Hm (item_shifts s1 ss1 trs1 rest j Hs1 Hj Hnxj)).
      + (* what follows derives the empty string and the lookahead is ik's: on to ik's reduction *)
        destruct (children CX M (it_r ik) (it_t ik) rest Htktc (eq_trans Hla Et) ts
                    (Forall_parses CX M ts) (toks_all _ g (fun _ _ => eq_refl) ts rest)) with
            (d := S (it_d ik)) (s := s'') (ss := s :: ss) (trs := tA :: trs0)
          as (es' & sf & stk' & Hm & Hes' & Etop' & Hsf & Hif); try assumption.
        { rewrite Hyts. constructor. }
        rewrite Hyts in Hm. eapply fin_rsteps; [exact Hm|].
        assert (Hrhs : length (rhs_of g ik) = S (it_d ik) + length ts).
        { pose proof (Forall2_length _ _ _ Hts) as Hlts. unfold beta in Hlts. rewrite skipn_length in Hlts.
          assert (Hdk : it_d ik < length (rhs_of g ik)) by (apply nth_error_Some; unfold next_sym in Hnx; congruence).
          clear - Hlts Hdk. lia. }
        specialize (IH (es' ++ [s'']) (tA :: ts) trs0 rest sf stk'). cbn [rev] in IH.
        rewrite <- !app_assoc in IH. apply IH; try assumption.
        * rewrite app_length, Hes'. cbn [length]. clear. lia.
        * rewrite app_length, Hes', Hrhs. cbn [length]. clear. lia.
        * rewrite Hrhs. exact Hif.
        * exact (eq_trans Hla Et).
    - (* a kernel item: its predecessor lives one state down *)
      destruct trs0 as [|x trs0]; [discriminate|].
      specialize (IH (es ++ [s']) (x :: ch) trs0 rest top stk). cbn [rev] in IH.
      rewrite <- !app_assoc in IH. apply IH; try assumption.
      + rewrite app_length, <- Hlen. cbn [length]. clear. lia.
      + rewrite app_length. cbn [it_d length]. change (rhs_of g (mkItem (it_r i) d (it_t i))) with (rhs_of g i).
        rewrite <- Hes, Hd, <- Nat.add_assoc. reflexivity.
      + apply Nat.succ_inj. exact Htrs.
  Qed.

  Theorem finish cur ss trs rest e :
    MInv g sts (cur :: ss) trs -> look g rest < tc ->
    cell tbl cur (nterm_count g + look g rest) = inl e -> e_kind e <> KError ->
    finx (cur :: ss, trs, rest).
  Proof.
    intros HM Hla Hc Hk.
    pose proof (MInv_len g sts _ _ HM) as Hlen. destruct HM as (syms & Hst & Hl).
    pose proof (stk_top_lt g sts tbl SF _ _ _ Hst) as Hcur.
    pose proof (cell_cell_at _ _ _ _ Hc) as Ee.
    pose proof (sf_cell _ _ _ SF cur _ Hcur (col_lt g _ Hla)) as Hcj.
    (* a shift cell, of a term or of the error symbol, is justified by an item with the lookahead after its dot *)
    assert (Hsh : e_kind e = KShift \/ e_kind e = KShiftErr -> finx (cur :: ss, trs, rest)).
    { rewrite Ee. intros Ek. destruct (shift_cell_item g sts tbl SF Hgen Hnonempty cur _ Hcur Hla Ek) as (j & Hj & Hnx).
      exact (item_shifts cur ss trs rest j Hcur Hj Hnx). }
    destruct (e_kind e) eqn:Ek; [congruence| |auto|auto| |].
    - (* accept cell *)
      apply fin_now. right. exists cur, ss, e. auto.
    - (* reduce: the completed item has the lookahead, and a chain *)
      rewrite Ee in Ek. destruct (reduce_cell_item g sts tbl SF Hred cur _ Hcur Hla Ek) as (i & Hi & Hit & Hd).
      apply (finish_chain _ _ (chain_exists _ _ _ i Hst Hi) [] [] trs rest cur ss); try assumption; try reflexivity.
      + cbn in Hlen |- *. lia.
      + rewrite <- Hd. destruct i; exact Hi.
      + symmetry. exact Hit.
    - exfalso. rewrite Ee in Ek. exact (cj_rr _ _ _ _ _ Hcj Ek).
  Qed.

  Corollary finish_or_error ss trs rest : MInv g sts ss trs -> look g rest < tc ->
    exists cur ss', ss = cur :: ss' /\ (reads g tbl cur rest KError \/ finx (ss, trs, rest)).
  Proof.
    intros HM Hla. destruct (MInv_nonempty g sts tbl SF _ _ HM) as (cur & ss' & -> & Hcur). exists cur, ss'.
    split; [reflexivity|]. pose proof (cell_in_range _ _ _ SF cur _ Hcur (col_lt g _ Hla)) as Hc.
    destruct (kind_error_dec (e_kind (cell_at tbl cur (nterm_count g + look g rest)))) as [Ek|Ek].
    - left. eexists. eauto.
    - right. exact (finish cur ss' trs rest _ HM Hla Hc Ek).
  Qed.
End CompleteE.

Print Assumptions finish.
