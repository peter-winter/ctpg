(* The PURE OPERATOR FAMILY   e -> e t_i e  (i < n, any n)  |  e -> atom   with any precedence / associativity
   declarations, and any table that passes [validate_resolved]:
   - [pure_complete] : every sentence  atom (t atom)*  is accepted: resolving the conflicts never makes the parser
     reject a sentence of the ambiguous grammar;
   - [pure_unique]   : if moreover the table has no entry for the error symbol ([no_error_symbol]) and the operator
     rules have no explicit precedence, the accepted tree is the ONLY well grouped derivation tree of the sentence.
   Completeness: the stack of the machine always spells  e (t e)*  possibly followed by  t  or  t atom  ([shape]);
   [shape_content] says which items the state on top of such a stack holds, [top_item] that it holds no others (the
   part of an item before its dot lies on the stack); from these, [cell_of_shift] and [cell_of_complete] read off the
   resolved cell that it shifts or reduces as the sentence requires ([progress]), and a measure bounds the number of
   steps. *)
Require Import Ctpg.Base.Prelude Ctpg.Proofs.ListFacts Ctpg.Model.Grammar Ctpg.Model.LRGen Ctpg.Spec.Cfg
               Ctpg.Spec.LRSpec Ctpg.Spec.Conflict Ctpg.Spec.Grouping Ctpg.Valid.LRValid Ctpg.Valid.LRResolved
               Ctpg.Proofs.LRReflect Ctpg.Proofs.LRMachine Ctpg.Proofs.LRValidFacts Ctpg.Proofs.LRSound
               Ctpg.Proofs.GroupingFacts Ctpg.Proofs.GroupingSpec Ctpg.Proofs.Grouping Ctpg.Proofs.GroupingUnique.

(* the grammar is of the family: checked on the grammar record *)
Definition rule_shapeb (g : grammar) (e atom : nat) (i : nat) : bool :=
  Nat.eqb i (root_rule_idx g) ||
  (Nat.eqb (ri_l (get_ri g i)) e &&
   match get_rhs g (ri_r (get_ri g i)) with
   | [T a] => Nat.eqb a atom
   | [NT e1; T t; NT e2] => Nat.eqb e1 e && Nat.eqb e2 e && negb (Nat.eqb t atom)
   | _ => false
   end).

Definition pure_familyb (g : grammar) (e atom : nat) : bool :=
  forallb (rule_shapeb g e atom) (seq 0 (rule_count g)) &&
  match get_rhs g (root_rule_idx g) with [NT e'] => Nat.eqb e' e | _ => false end &&
  existsb (fun i => negb (Nat.eqb i (root_rule_idx g)) &&
                    match get_rhs g (ri_r (get_ri g i)) with [T a] => Nat.eqb a atom | _ => false end)
          (seq 0 (rule_count g)) &&
  (* no rule occurs twice *)
  forallb (fun i => forallb (fun j => Nat.eqb i j ||
                                      negb (list_eqb symbol_eqb (get_rhs g (ri_r (get_ri g i))) (get_rhs g (ri_r (get_ri g j)))))
                            (seq 0 (rule_count g))) (seq 0 (rule_count g)).

Record pure_family (g : grammar) (e atom : nat) : Prop := {
  pf_rules : forall i, i < rule_count g -> i <> root_rule_idx g ->
     ri_l (get_ri g i) = e /\
     (get_rhs g (ri_r (get_ri g i)) = [T atom] \/
      exists t, t <> atom /\ get_rhs g (ri_r (get_ri g i)) = [NT e; T t; NT e]);
  pf_root : get_rhs g (root_rule_idx g) = [NT e];
  pf_atom : exists ia, ia < rule_count g /\ ia <> root_rule_idx g /\ get_rhs g (ri_r (get_ri g ia)) = [T atom];
  pf_once : forall i j, i < rule_count g -> j < rule_count g ->
     get_rhs g (ri_r (get_ri g i)) = get_rhs g (ri_r (get_ri g j)) -> i = j
}.

Lemma pure_familyb_sound g e atom : pure_familyb g e atom = true -> pure_family g e atom.
Proof.
  unfold pure_familyb. rewrite !andb_true_iff, !forallb_seq0. intros [[[Hsh Hroot] Hex] Hon]. constructor.
  - intros i Hi Hnr. specialize (Hsh i Hi). unfold rule_shapeb in Hsh.
    apply Nat.eqb_neq in Hnr. rewrite Hnr in Hsh. apply andb_true_iff in Hsh. destruct Hsh as [Hl Hr].
    apply Nat.eqb_eq in Hl. split; [assumption|].
    destruct (get_rhs g (ri_r (get_ri g i))) as [|[a|e1] [|[t|?] [|[?|e2] [|? ?]]]]; try discriminate.
    + apply Nat.eqb_eq in Hr. subst. left. reflexivity.
    + rewrite !andb_true_iff, !Nat.eqb_eq, negb_true_iff, Nat.eqb_neq in Hr. destruct Hr as [[-> ->] Ht]. right. eauto.
  - destruct (get_rhs g (root_rule_idx g)) as [|[?|e'] [|? ?]]; try discriminate. apply Nat.eqb_eq in Hroot. subst. reflexivity.
  - apply existsb_exists in Hex. destruct Hex as (i & Hi & Hp). apply in_seq in Hi.
    rewrite andb_true_iff, negb_true_iff, Nat.eqb_neq in Hp. destruct Hp as [Hnr Hp].
    exists i. split; [lia|]. split; [assumption|].
    destruct (get_rhs g (ri_r (get_ri g i))) as [|[a|?] [|? ?]]; try discriminate. apply Nat.eqb_eq in Hp. subst. reflexivity.
  - intros i j Hi Hj E. specialize (Hon i Hi). rewrite forallb_seq0 in Hon. specialize (Hon j Hj).
    rewrite (proj2 (list_eqb_spec _ _ symbol_eqb_eq _ _) E), orb_false_r in Hon. apply Nat.eqb_eq. assumption.
Qed.

(* "no explicit precedence on the operator rules", checked on the grammar record *)
Definition assoc_same (a b : assoc) : bool :=
  match a, b with NoAssoc, NoAssoc | Ltor, Ltor | Rtol, Rtol => true | _, _ => false end.

Definition plain_familyb (g : grammar) (e : nat) : bool :=
  forallb (fun i => match binop_op g i (ri_r (get_ri g i)) e with
                    | Some t => Z.eqb (rule_prec_of g i) (term_prec_of g t) &&
                                assoc_same (rule_assoc_of g i) (term_assoc_of g t)
                    | None => true
                    end) (seq 0 (length (rule_infos g))).

Lemma plain_familyb_sound g e : plain_familyb g e = true -> forall i r t, binop_at g i r e t -> plain_rule g i t.
Proof.
  unfold plain_familyb. rewrite forallb_seq0. intros H i r t Hb. specialize (H i (binop_at_lt _ _ _ _ _ Hb)).
  rewrite (proj1 (binop_at_get_ri _ _ _ _ _ Hb)) in H. apply binop_op_iff in Hb. rewrite Hb in H. apply andb_true_iff in H. destruct H as [H1 H2].
  apply Z.eqb_eq in H1. split; [assumption|].
  destruct (rule_assoc_of g i), (term_assoc_of g t); try discriminate; reflexivity.
Qed.

Section Pure.
  Variable g : grammar.
  Variable sts : list items.
  Variable tbl : table.
  Variable ne : bset.
  Variable nf : list bset.
  Hypothesis RF : resolved_facts g sts tbl ne nf.
  Variable e atom : nat.
  Hypothesis PF : pure_family g e atom.

  Let SF : sound_facts g sts tbl := rf_sound _ _ _ _ _ RF.
  Notation items_of := (state_items sts).
  Notation tc := (term_count g).
  Notation root := (root_rule_idx g).

  Definition is_op (t : nat) : Prop := exists i r, binop_at g i r e t.
  (* the lookaheads of e: the operators and <eof> *)
  Definition LA (x : nat) : Prop := x = eof_idx g \/ is_op x.
  (* rule_info index i is a rule of e (not the root rule), with right side rs *)
  Definition e_rule (i : nat) (rs : list symbol) : Prop :=
    i < rule_count g /\ i <> root /\ get_rhs g (ri_r (get_ri g i)) = rs.

  Lemma e_rule_rhs i rs d x : e_rule i rs -> rhs_of g (mkItem i d x) = rs.
  Proof. intros H. exact (proj2 (proj2 H)). Qed.

  Lemma e_rule_n i rs : e_rule i rs -> ri_n (get_ri g i) = length rs.
  Proof. intros (Hlt & _ & <-). apply (sf_ri _ _ _ SF i Hlt). Qed.

  Lemma e_rule_l i rs : e_rule i rs -> ri_l (get_ri g i) = e.
  Proof. intros (Hlt & Hnr & _). apply (pf_rules _ _ _ PF i Hlt Hnr). Qed.

  Lemma e_rule_next i rs d x : e_rule i rs -> next_sym g (mkItem i d x) = nth_error rs d.
  Proof. intros H. unfold next_sym. rewrite (e_rule_rhs _ _ _ _ H). reflexivity. Qed.

  Lemma e_rule_complete i rs d x : e_rule i rs -> is_complete g (mkItem i d x) = Nat.leb (length rs) d.
  Proof. intros H. unfold is_complete. cbn [it_r it_d]. rewrite (e_rule_n _ _ H). reflexivity. Qed.

  Lemma e_rule_cases i rs : e_rule i rs -> rs = [T atom] \/ exists t, t <> atom /\ rs = [NT e; T t; NT e].
  Proof. intros (Hlt & Hnr & <-). apply (pf_rules _ _ _ PF i Hlt Hnr). Qed.

  Lemma op_rule t : is_op t -> exists i, e_rule i [NT e; T t; NT e].
  Proof.
    intros (i & r & Hb). destruct (binop_facts _ _ _ _ _ RF _ _ _ _ Hb) as (Hlt & Hr & _ & Hrhs & _ & _ & Hnr).
    rewrite <- Hr in Hrhs. exists i. repeat split; assumption.
  Qed.

  Lemma root_rhs : get_rhs g (ri_r (get_ri g root)) = [NT e].
  Proof. rewrite (sf_root_r _ _ _ SF). apply (pf_root _ _ _ PF). Qed.

  Lemma root_next : next_sym g (root_item g) = Some (NT e).
  Proof. unfold next_sym, rhs_of, root_item. cbn [it_r it_d]. rewrite root_rhs. reflexivity. Qed.

  Lemma rule_n i : i < rule_count g -> ri_n (get_ri g i) = length (get_rhs g (ri_r (get_ri g i))).
  Proof. intros Hi. apply (sf_ri _ _ _ SF i Hi). Qed.

  (* a terminal of a right side *)
  Lemma rhs_term i rs t : e_rule i rs -> In (T t) rs -> t < tc /\ t <> eof_idx g.
  Proof.
    intros (Hlt & _ & <-) Hin.
    destruct (sf_sym _ _ _ SF _ (T t) (rhs_in_right_sides _ _ _ SF i Hlt) Hin) as (H1 & _ & H3).
    cbn in H1. apply Nat.ltb_lt in H1. split; [assumption|congruence].
  Qed.

  Lemma atom_lt : atom < tc /\ atom <> eof_idx g.
  Proof. destruct (pf_atom _ _ _ PF) as (ia & Hia). apply (rhs_term ia _ atom Hia). left. reflexivity. Qed.

  Lemma op_facts t : is_op t -> t < tc /\ t <> atom.
  Proof.
    intros (i & Hi)%op_rule.
    destruct (rhs_term _ _ t Hi) as [H1 _]; [cbn; auto|]. split; [assumption|].
    destruct (e_rule_cases _ _ Hi) as [E|(t' & Ht' & E)]; inversion E; subst; assumption.
  Qed.

  Lemma op_not_atom : is_op atom -> False.
  Proof. intros H. apply (proj2 (op_facts _ H)). reflexivity. Qed.

  Lemma LA_facts x : LA x -> x < tc /\ x <> atom.
  Proof.
    intros [->|H].
    - split; [apply (eof_lt_tc _ _ _ SF)|]. intros E. apply (proj2 atom_lt). symmetry. assumption.
    - exact (op_facts _ H).
  Qed.

  Lemma rule_cases i : i < rule_count g ->
    (i = root /\ get_rhs g (ri_r (get_ri g i)) = [NT e]) \/
    get_rhs g (ri_r (get_ri g i)) = [T atom] \/
    exists t, t <> atom /\ get_rhs g (ri_r (get_ri g i)) = [NT e; T t; NT e].
  Proof.
    intros Hi. destruct (Nat.eq_dec i root) as [->|Hnr]; [left; split; [reflexivity|exact root_rhs]|right].
    apply (pf_rules _ _ _ PF i Hi Hnr).
  Qed.

  Lemma sym_ok_e : sym_ok g (NT e) = true.
  Proof.
    destruct (pf_atom _ _ _ PF) as (ia & Hia). destruct (sf_ri _ _ _ SF ia (proj1 Hia)) as (_ & H & _).
    rewrite (e_rule_l _ _ Hia) in H. cbn. apply Nat.ltb_lt. assumption.
  Qed.

  Lemma sym_ok_t t : t < tc -> sym_ok g (T t) = true.
  Proof. intros H. cbn. apply Nat.ltb_lt. assumption. Qed.

  (* a completed item with lookahead t: the cell (s, t) reduces by its rule, unless some item has t after the dot
     and the cell shifts *)
  Lemma cell_of_complete s j :
    In j (items_of s) -> is_complete g j = true -> it_r j <> root ->
    is_reduce g tbl s (it_t j) (it_r j) \/
    exists j' s', In j' (items_of s) /\ next_sym g j' = Some (T (it_t j)) /\ goto_target g tbl s (T (it_t j)) = Some s'.
  Proof.
    intros Hj Hc Hnr. destruct (red_item_cell _ _ _ _ _ RF _ _ Hj Hc Hnr) as [(_ & _ & Hro & Hsr) Hred].
    destruct (sh_items g sts s (it_t j)) as [|j' S'] eqn:ES; [left; exact (Hro _ Hred eq_refl)|].
    destruct (Hsr _ Hred) as [[_ H]|[_ (s' & Hg & _)]]; [discriminate|left; exact H|right].
    assert (In j' (sh_items g sts s (it_t j))) as Hj' by (rewrite ES; left; reflexivity).
    apply in_sh_items in Hj'. exists j', s'. tauto.
  Qed.

  (* an item with t after the dot: the cell (s, t) shifts, unless the state has a completed item *)
  Lemma cell_of_shift s t j :
    In j (items_of s) -> next_sym g j = Some (T t) ->
    (exists s', goto_target g tbl s (T t) = Some s') \/
    exists j', In j' (items_of s) /\ is_complete g j' = true /\ it_r j' <> root.
  Proof.
    intros Hj Hn. destruct (sh_item_cell _ _ _ _ _ RF _ _ _ Hj Hn) as [(_ & Honly & _) Hsh].
    destruct (red_items g sts s t) as [|j' R'] eqn:ER.
    - left. destruct (Honly eq_refl) as (s' & Hg & _); [intros E; rewrite E in Hsh; destruct Hsh|]. eauto.
    - right. assert (In j' (red_items g sts s t)) as Hj' by (rewrite ER; left; reflexivity).
      apply in_red_items in Hj'. exists j'. tauto.
  Qed.

  (* an operand is due next: the stack is empty or has an operator on top. Both operand constructors of [shape] ask it,
     and shape_op wants an e on top: hence the form the head comment gives. *)
  Definition expects (syms : list symbol) : Prop :=
    match syms with
    | [] => True
    | T t :: _ => is_op t
    | NT _ :: _ => False
    end.

  Inductive shape : list nat -> list symbol -> Prop :=
  | shape_0 : shape [0] []
  | shape_atom q ss syms s :
      shape (q :: ss) syms -> expects syms -> goto_target g tbl q (T atom) = Some s ->
      shape (s :: q :: ss) (T atom :: syms)
  | shape_e q ss syms s :
      shape (q :: ss) syms -> expects syms -> goto_target g tbl q (NT e) = Some s ->
      shape (s :: q :: ss) (NT e :: syms)
  | shape_op s ss syms t q :
      shape (s :: ss) (NT e :: syms) -> is_op t -> goto_target g tbl s (T t) = Some q ->
      shape (q :: s :: ss) (T t :: NT e :: syms).

  (* The state on top of a stack that spells syms (top first) holds every item of a rule of e whose part before the dot
     lies on top of the stack, with every lookahead; the dot at the beginning only where an e is expected. *)
  Definition content (top : nat) (syms : list symbol) : Prop :=
    (syms = [NT e] -> In (mkItem root 1 (eof_idx g)) (items_of top)) /\
    forall i rs d x, e_rule i rs -> LA x -> d <= length rs -> (d = 0 -> expects syms) ->
      rev (firstn d rs) = firstn d syms -> In (mkItem i d x) (items_of top).

  Lemma content_0 : content 0 [].
  Proof.
    pose proof (sf_st0_root _ _ _ SF) as Hroot. pose proof (eof_lt_tc _ _ _ SF) as Heof.
    split; [discriminate|].
    (* first with lookahead <eof>, from the root item; then with an operator, from an operator rule *)
    assert (forall i rs, e_rule i rs -> In (mkItem i 0 (eof_idx g)) (items_of 0)) as Hfirst.
    { intros i rs Hi. apply (closure_rule _ _ _ _ _ RF 0 (root_item g) e); try assumption.
      - exact root_next.
      - apply Hi.
      - apply (e_rule_l _ _ Hi).
      - unfold rhs_of, root_item. cbn [it_r it_d it_t]. rewrite root_rhs. apply first_tail_nil. assumption. }
    intros i rs d x Hi Hx Hd _ Hrev.
    apply (f_equal (@length _)) in Hrev. rewrite firstn_nil, rev_length, firstn_length_le in Hrev by assumption.
    cbn in Hrev. subst d.
    destruct Hx as [->|Hop]; [exact (Hfirst _ _ Hi)|].
    destruct (op_facts _ Hop) as (Hx & _). destruct (op_rule _ Hop) as (ix & Hix).
    apply (closure_rule _ _ _ _ _ RF 0 (mkItem ix 0 (eof_idx g)) e); try assumption.
    - exact (Hfirst _ _ Hix).
    - exact (e_rule_next _ _ 0 _ Hix).
    - apply Hi.
    - apply (e_rule_l _ _ Hi).
    - rewrite (e_rule_rhs _ _ _ _ Hix). apply first_tail_term. assumption.
  Qed.

  (* pushing X: the items with the dot after X *)
  Lemma content_push q syms X s :
    content q syms -> goto_target g tbl q X = Some s ->
    forall i rs d x, e_rule i rs -> LA x -> S d <= length rs -> (d = 0 -> expects syms) ->
      rev (firstn (S d) rs) = X :: firstn d syms -> In (mkItem i (S d) x) (items_of s).
  Proof.
    intros (_ & Hc) Hg i rs d x Hi Hx Hd H0 Hrev.
    destruct (nth_error rs d) as [y|] eqn:Ey; [|apply nth_error_None in Ey; lia].
    rewrite (firstn_S_nth_error _ _ _ Ey), rev_app_distr in Hrev. inversion Hrev; subst y.
    apply (goto_adv _ _ _ _ _ RF q (mkItem i d x) X s); try assumption.
    - apply (Hc i rs d x); try assumption. lia.
    - rewrite (e_rule_next _ _ _ _ Hi). assumption.
  Qed.

  Lemma shape_content ss syms : shape ss syms -> content (hd 0 ss) syms.
  Proof.
    induction 1 as [|q ss syms s _ IH Hex Hg|q ss syms s Hsh IH Hex Hg|s ss syms t q _ IH Hop Hg]; cbn [hd] in *.
    - apply content_0.
    - pose proof (content_push _ _ _ _ IH Hg) as Hpush. split; [discriminate|].
      intros i rs [|d] x Hi Hx Hd H0 Hrev; [destruct (op_not_atom (H0 eq_refl))|]. apply (Hpush i rs d x); auto.
    - pose proof (content_push _ _ _ _ IH Hg) as Hpush. split.
      + intros E. inversion E; subst syms. inversion Hsh; subst.
        apply (goto_adv _ _ _ _ _ RF 0 (root_item g) (NT e) s); try assumption; [apply (sf_st0_root _ _ _ SF)|exact root_next].
      + intros i rs [|d] x Hi Hx Hd H0 Hrev; [destruct (H0 eq_refl)|]. apply (Hpush i rs d x); auto.
    - destruct (op_facts _ Hop) as (Ht & Hta).
      pose proof (content_push _ _ _ _ IH Hg) as Hpush. split; [discriminate|].
      intros i rs [|d] x Hi Hx Hd H0 Hrev.
      + (* closure, from an item of an operator rule of t with the dot before the second e *)
        destruct (op_rule _ Hop) as (i0 & Hi0).
        apply (closure_rule _ _ _ _ _ RF q (mkItem i0 2 x) e); try assumption.
        * apply (Hpush i0 _ 1 x Hi0 Hx); [cbn; lia|discriminate|reflexivity].
        * exact (e_rule_next _ _ 2 _ Hi0).
        * apply Hi.
        * apply (e_rule_l _ _ Hi).
        * apply (LA_facts _ Hx).
        * rewrite (e_rule_rhs _ _ _ _ Hi0). apply first_tail_nil. apply (LA_facts _ Hx).
      + apply (Hpush i rs d x); auto. intros ->. exfalso.
        destruct (e_rule_cases _ _ Hi) as [->|(t' & _ & ->)]; inversion Hrev. congruence.
  Qed.

  (* an expecting stack is empty or ends with  e t *)
  Lemma expects_cases q ss syms : shape (q :: ss) syms -> expects syms ->
    (syms = [] /\ q = 0 /\ ss = []) \/
    (exists t s0 q0 ss1 syms1, syms = T t :: NT e :: syms1 /\ ss = s0 :: q0 :: ss1 /\ is_op t /\
       shape (q0 :: ss1) syms1 /\ expects syms1).
  Proof.
    intros Hsh Hex. inversion Hsh as [| | |s0 ss0 syms1 t q' Hsh1 Hop Hg]; subst.
    - left. auto.
    - destruct (op_not_atom Hex).
    - destruct Hex.
    - right. inversion Hsh1; subst. exists t, s0. eauto 12.
  Qed.

  Lemma shape_stk ss syms : shape ss syms -> stk_ok g sts ss syms.
  Proof.
    induction 1 as [|q ss syms s _ IH _ Hg|q ss syms s _ IH _ Hg|s ss syms t q _ IH Hop Hg].
    - constructor.
    - exact (goto_push _ _ _ SF _ _ _ _ _ IH (sym_ok_t _ (proj1 atom_lt)) Hg).
    - exact (goto_push _ _ _ SF _ _ _ _ _ IH sym_ok_e Hg).
    - exact (goto_push _ _ _ SF _ _ _ _ _ IH (sym_ok_t _ (proj1 (op_facts _ Hop))) Hg).
  Qed.

  Lemma shape_lt s ss syms : shape (s :: ss) syms -> s < length sts.
  Proof. intros H. exact (stk_top_lt _ _ _ SF _ _ _ (shape_stk _ _ H)). Qed.

  (* Conversely the top state holds no other items: the part of an item before its dot lies on the stack
     ([stk_item] of Proofs/LRSound.v), and the right sides have three shapes. *)
  Lemma top_item s ss syms j : shape (s :: ss) syms -> In j (items_of s) ->
    it_d j <= length syms /\ firstn (it_d j) syms = rev (firstn (it_d j) (rhs_of g j)) /\
    it_d j <= length (rhs_of g j) /\ is_complete g j = Nat.leb (length (rhs_of g j)) (it_d j) /\
    ((it_r j = root /\ rhs_of g j = [NT e]) \/ rhs_of g j = [T atom] \/
     exists t, t <> atom /\ rhs_of g j = [NT e; T t; NT e]).
  Proof.
    intros Hsh Hj. destruct (sf_item _ _ _ SF s j (shape_lt _ _ _ Hsh) Hj) as (Hr & Hd & _).
    destruct (stk_item _ _ _ SF _ _ _ _ _ (shape_stk _ _ Hsh) Hj eq_refl) as (Hle & Hrev & _).
    unfold is_complete. rewrite (rule_n _ Hr) in *. rewrite <- Hrev, rev_involutive.
    repeat split; try assumption. exact (rule_cases _ Hr).
  Qed.

  (* no item of an expecting state is complete *)
  Lemma expect_incomplete q ss syms j : shape (q :: ss) syms -> expects syms ->
    In j (items_of q) -> is_complete g j = false.
  Proof.
    intros Hsh Hex Hj. destruct (top_item _ _ _ _ Hsh Hj) as (Hle & Hpre & Hd & -> & Hrs).
    apply Nat.leb_gt. apply Nat.le_lteq in Hd. destruct Hd as [Hd|Hd]; [assumption|exfalso].
    rewrite Hd, firstn_all in *.
    destruct syms as [|[x|x] syms']; [|destruct Hrs as [[_ E]|[E|(t & _ & E)]]; rewrite E in Hpre; cbn in Hpre; inversion Hpre|destruct Hex].
    - destruct Hrs as [[_ E]|[E|(t & _ & E)]]; rewrite E in Hle; cbn in Hle; lia.
    - subst x. exact (op_not_atom Hex).
  Qed.

  (* the state after the atom has no terminal but the atom after a dot *)
  Lemma after_atom_next s ss syms j x :
    shape (s :: ss) (T atom :: syms) -> In j (items_of s) -> next_sym g j = Some (T x) -> x = atom.
  Proof.
    intros Hsh Hj Hn. destruct (top_item _ _ _ _ Hsh Hj) as (_ & Hpre & _ & _ & Hrs). unfold next_sym in Hn.
    destruct Hrs as [[_ E]|[E|(t & _ & E)]]; rewrite E in *; destruct (it_d j) as [|[|[|[|?]]]]; inversion Hn; try reflexivity.
    discriminate Hpre.
  Qed.

  (* the state after the first e has no completed item but the root item *)
  Lemma after_first_e s ss j :
    shape (s :: ss) [NT e] -> In j (items_of s) -> is_complete g j = true -> it_r j = root.
  Proof.
    intros Hsh Hj Hc. destruct (top_item _ _ _ _ Hsh Hj) as (Hle & Hpre & _ & Ec & Hrs). rewrite Ec in Hc. apply Nat.leb_le in Hc.
    destruct Hrs as [[H _]|[E|(t & _ & E)]]; [assumption| |]; rewrite E in *; cbn in Hc, Hle; [|lia].
    destruct (it_d j) as [|[|?]]; cbn in Hle; try lia. discriminate Hpre.
  Qed.

  (* an expecting state has a transition on e *)
  Lemma expect_goto_e q ss syms : shape (q :: ss) syms -> expects syms ->
    exists s, goto_target g tbl q (NT e) = Some s.
  Proof.
    intros Hsh Hex. destruct (shape_content _ _ Hsh) as (_ & Hc). cbn [hd] in *. pose proof (shape_lt _ _ _ Hsh) as Hq.
    assert (exists j, In j (items_of q) /\ next_sym g j = Some (NT e)) as (j & Hj & Hn).
    { destruct (expects_cases _ _ _ Hsh Hex) as [(-> & -> & ->)|(t & s0 & q0 & ss1 & syms1 & -> & _ & (i & Hi)%op_rule & _)].
      - exists (root_item g). split; [apply (sf_st0_root _ _ _ SF)|exact root_next].
      - exists (mkItem i 0 (eof_idx g)).
        split; [|exact (e_rule_next _ _ 0 _ Hi)].
        apply (Hc i _ 0 _ Hi); [left; reflexivity|cbn; lia|intros _; exact Hex|reflexivity]. }
    pose proof (next_sym_incomplete _ _ _ SF _ _ _ Hq Hj Hn) as Hic.
    destruct (rf_goto_nt _ _ _ _ _ RF q j e Hq Hj Hn Hic) as (s & Hg & _). exists s. assumption.
  Qed.

  (* atom (t atom)*  and its tails  (t atom)* *)
  Inductive opseq : list nat -> Prop :=
  | os_atom w : optail w -> opseq (atom :: w)
  with optail : list nat -> Prop :=
  | ot_nil : optail []
  | ot_cons t w : is_op t -> opseq w -> optail (t :: w).

  Lemma optail_look rest : optail rest -> LA (look g rest).
  Proof. intros [|t w' Hop _]; cbn; [left; reflexivity|right; assumption]. Qed.

  (* what the rest of the input must be, by the symbol on top of the stack: after an atom or an e a tail (t atom)*,
     at the bottom or after an operator a whole  atom (t atom)*  *)
  Definition input_ok (syms : list symbol) (rest : list nat) : Prop :=
    match syms with
    | [] => opseq rest
    | T t :: _ => if Nat.eqb t atom then optail rest else opseq rest
    | NT _ :: _ => optail rest
    end.

  (* the invariant of the run, syms the symbols the stack spells: one tree per symbol (so a reduce finds its
     children), the rest below <eof> (so the lookahead is a term column that is not the error symbol's) *)
  Definition PInv (syms : list symbol) (c : cfg) : Prop :=
    let '(ss, trs, rest) := c in
    shape ss syms /\ length trs = length syms /\ Forall (fun a => a < eof_idx g) rest /\ input_ok syms rest.

  (* atom 2, operator 1, e 1, a token of the input 3: a shift takes 3 and adds at most 2, reducing atom to e takes
     2 to 1, reducing e t e takes 3 to 1; so every move lowers [measure] *)
  Fixpoint weight (syms : list symbol) : nat :=
    match syms with
    | [] => 0
    | T t :: r => (if Nat.eqb t atom then 2 else 1) + weight r
    | NT _ :: r => 1 + weight r
    end.
  Definition measure (syms : list symbol) (rest : list nat) : nat := 3 * length rest + weight syms.

  Lemma input_ok_op t syms rest : is_op t -> input_ok (T t :: syms) rest = opseq rest.
  Proof.
    intros H. cbn [input_ok]. replace (Nat.eqb t atom) with false; [reflexivity|].
    symmetry. apply Nat.eqb_neq. apply (op_facts _ H).
  Qed.

  Lemma input_ok_atom syms rest : input_ok (T atom :: syms) rest = optail rest.
  Proof. cbn [input_ok]. rewrite Nat.eqb_refl. reflexivity. Qed.

  (* the machine makes a step that keeps the invariant and lowers the measure *)
  Definition moves (syms : list symbol) (c : cfg) : Prop :=
    exists syms' c', mstep g tbl c = Next c' /\ PInv syms' c' /\ measure syms' (snd c') < measure syms (snd c).

  Lemma look_bounds rest : Forall (fun a => a < eof_idx g) rest -> look g rest < tc /\ look g rest <> err_idx g.
  Proof.
    intros H. pose proof (err_eq _ _ _ SF). pose proof (eof_lt_tc _ _ _ SF). pose proof (look_le_eof g _ H). lia.
  Qed.

  (* a shift: 3 less for the token, at most 2 more for the symbol *)
  Lemma shift_moves cur ss syms trs t w q :
    PInv syms (cur :: ss, trs, t :: w) -> goto_target g tbl cur (T t) = Some q ->
    shape (q :: cur :: ss) (T t :: syms) -> input_ok (T t :: syms) w ->
    moves syms (cur :: ss, trs, t :: w).
  Proof.
    intros (Hsh & Hlen & Hr & _) Hg Hsh' Hin. destruct (look_bounds _ Hr) as [Hla Hne]. cbn [look hd] in Hla, Hne.
    exists (T t :: syms), (q :: cur :: ss, Leaf t :: trs, w). split; [|split].
    - destruct (goto_T _ _ _ _ _ Hg Hne) as [Hk Ha].
      exact (mstep_shift g tbl cur ss trs (t :: w) _ q (cell_in_range _ _ _ SF cur _ (shape_lt _ _ _ Hsh) (col_lt _ _ Hla)) Hk Ha).
    - inversion Hr; subst. repeat split; cbn [length]; auto.
    - cbn [snd]. unfold measure. cbn [weight length]. destruct (Nat.eqb t atom); lia.
  Qed.

  (* a reduction by a rule of e whose right side lies on the stack, over a state that expects an e *)
  Lemma reduce_moves cur ss syms trs rest r rs top ss' :
    PInv syms (cur :: ss, trs, rest) -> optail rest -> is_reduce g tbl cur (look g rest) r -> e_rule r rs ->
    length rs <= length syms -> skipn (length rs) (cur :: ss) = top :: ss' ->
    shape (top :: ss') (skipn (length rs) syms) -> expects (skipn (length rs) syms) ->
    1 + weight (skipn (length rs) syms) < weight syms ->
    moves syms (cur :: ss, trs, rest).
  Proof.
    intros (Hsh & Hlen & Hr & _) Hot [Hk Ha] Hrs Hn Hsk Hsh' Hex Hw. destruct (look_bounds _ Hr) as [Hla _].
    destruct (expect_goto_e _ _ _ Hsh' Hex) as (nst & Hg).
    pose proof (e_rule_n _ _ Hrs) as En. pose proof (e_rule_l _ _ Hrs) as El.
    exists (NT e :: skipn (length rs) syms),
           (nst :: top :: ss', Node (ri_r (get_ri g r)) (rev (firstn (length rs) trs)) :: skipn (length rs) trs, rest).
    split; [|split].
    - replace trs with (rev (rev (firstn (length rs) trs)) ++ skipn (length rs) trs) at 1
        by (rewrite rev_involutive; apply firstn_skipn).
      assert (e < symbol_count g) as Hc.
      { pose proof sym_ok_e as H. cbn in H. apply Nat.ltb_lt in H. unfold symbol_count. lia. }
      eapply (mstep_reduce g tbl cur ss _ rest _ r (get_ri g r) _ top ss' _ nst
               (cell_in_range _ _ _ SF cur _ (shape_lt _ _ _ Hsh) (col_lt _ _ Hla)) Hk Ha
               (nth_error_get_ri _ _ _ SF r (proj1 Hrs))).
      + rewrite rev_length, firstn_length_le; lia.
      + rewrite En. exact Hsk.
      + rewrite El. exact (cell_in_range _ _ _ SF top e (shape_lt _ _ _ Hsh') Hc).
      + exact (goto_NT _ _ _ _ _ Hg).
    - split; [constructor; assumption|]. split; [|split; assumption].
      cbn [length]. rewrite !skipn_length. lia.
    - cbn [snd]. unfold measure. cbn [weight]. lia.
  Qed.

  Lemma mstep_success cur ss trs rest :
    cur < length sts -> Forall (fun a => a < eof_idx g) rest -> trs <> [] ->
    e_kind (cell_at tbl cur (col_of_term g (look g rest))) = KSuccess ->
    exists v, mstep g tbl (cur :: ss, trs, rest) = Acc v.
  Proof.
    intros Hc Hr Hne Hk. destruct (look_bounds _ Hr) as [Hla _]. unfold mstep.
    rewrite (cell_in_range _ _ _ SF cur _ Hc (col_lt _ _ Hla)). unfold col_of_term in Hk. rewrite Hk.
    destruct (rev trs) as [|v vs] eqn:E; [|exists v; reflexivity].
    exfalso. apply Hne. rewrite <- (rev_involutive trs), E. reflexivity.
  Qed.

  (* EXPECTING e: shift the atom *)
  Lemma expect_moves q ss syms trs rest :
    PInv syms (q :: ss, trs, rest) -> expects syms -> opseq rest -> moves syms (q :: ss, trs, rest).
  Proof.
    intros Hinv Hex Hos. inversion Hos as [w Hot]; subst rest. pose proof Hinv as (Hsh & _).
    destruct (shape_content _ _ Hsh) as (_ & Hc). cbn [hd] in *.
    destruct (pf_atom _ _ _ PF) as (ia & Hia).
    destruct (cell_of_shift q atom (mkItem ia 0 (eof_idx g))) as [(s & Hg)|(j & Hj & Hjc & _)].
    - apply (Hc ia _ 0 _ Hia); [left; reflexivity|cbn; lia|intros _; exact Hex|reflexivity].
    - exact (e_rule_next _ _ 0 _ Hia).
    - apply (shift_moves _ _ _ _ _ _ s Hinv Hg); [constructor; assumption|]. rewrite input_ok_atom. exact Hot.
    - rewrite (expect_incomplete _ _ _ j Hsh Hex Hj) in Hjc. discriminate.
  Qed.

  (* AFTER THE ATOM: reduce e -> atom *)
  Lemma after_atom_moves s q ss syms trs rest :
    PInv (T atom :: syms) (s :: q :: ss, trs, rest) ->
    shape (q :: ss) syms -> expects syms -> moves (T atom :: syms) (s :: q :: ss, trs, rest).
  Proof.
    intros Hinv Hsh0 Hex. pose proof Hinv as (Hsh & _ & _ & Hot). rewrite input_ok_atom in Hot.
    destruct (shape_content _ _ Hsh) as (_ & Hc). cbn [hd] in *.
    destruct (pf_atom _ _ _ PF) as (ia & Hia). pose proof (optail_look _ Hot) as Hla.
    apply (reduce_moves _ _ _ _ _ ia [T atom] q ss Hinv Hot); [|exact Hia|cbn; lia|reflexivity|exact Hsh0|exact Hex|].
    - destruct (cell_of_complete s (mkItem ia 1 (look g rest))) as [H|(j & s1 & Hj & Hn & _)].
      + apply (Hc ia _ 1 _ Hia Hla); [cbn; lia|discriminate|reflexivity].
      + exact (e_rule_complete _ _ 1 _ Hia).
      + apply Hia.
      + exact H.
      + destruct (proj2 (LA_facts _ Hla)). exact (after_atom_next _ _ _ j _ Hsh Hj Hn).
    - cbn [length skipn weight]. rewrite Nat.eqb_refl. lia.
  Qed.

  (* after e, with an operator next: the shift, when the table has it (the common end of two cases of
     [after_e_moves]) *)
  Lemma after_e_shift s ss syms trs t w s' :
    PInv (NT e :: syms) (s :: ss, trs, t :: w) -> goto_target g tbl s (T t) = Some s' ->
    moves (NT e :: syms) (s :: ss, trs, t :: w).
  Proof.
    intros Hinv Hg. pose proof Hinv as (Hsh & _ & _ & Hot). inversion Hot as [|? ? Hop Hos]; subst.
    apply (shift_moves _ _ _ _ _ _ s' Hinv Hg); [constructor; assumption|]. rewrite input_ok_op by assumption. exact Hos.
  Qed.

  (* AFTER e: accept, shift the operator, or reduce the operator rule below *)
  Lemma after_e_moves s q ss syms trs rest :
    PInv (NT e :: syms) (s :: q :: ss, trs, rest) ->
    shape (q :: ss) syms -> expects syms ->
    (exists v, mstep g tbl (s :: q :: ss, trs, rest) = Acc v) \/ moves (NT e :: syms) (s :: q :: ss, trs, rest).
  Proof.
    intros Hinv Hsh0 Hex. pose proof Hinv as (Hsh & Hlen & Hr & Hot). cbn [input_ok] in Hot.
    destruct (shape_content _ _ Hsh) as (Hroot & Hc). cbn [hd] in *. pose proof (shape_lt _ _ _ Hsh) as Hs.
    destruct (expects_cases _ _ _ Hsh0 Hex)
      as [(-> & -> & ->)|(t0 & s0 & q0 & ss1 & syms1 & -> & -> & (i0 & Hi0)%op_rule & Hsh1 & Hex1)].
    - (* the stack is [e] *)
      destruct rest as [|t w].
      + left. destruct (rf_accept _ _ _ _ _ RF s _ Hs (Hroot eq_refl)) as [Hk _].
        * unfold is_complete. cbn [it_r it_d]. rewrite (rule_n _ (root_lt _ _ _ SF)), root_rhs. reflexivity.
        * reflexivity.
        * apply (mstep_success s [0] trs [] Hs Hr); [destruct trs; discriminate|exact Hk].
      + right. inversion Hot as [|? ? (i & Hi)%op_rule _]; subst.
        destruct (cell_of_shift s t (mkItem i 1 (eof_idx g))) as [(s' & Hg')|(j & Hj & Hjc & Hjr)].
        * apply (Hc i _ 1 _ Hi); [left; reflexivity|cbn; lia|discriminate|reflexivity].
        * exact (e_rule_next _ _ 1 _ Hi).
        * exact (after_e_shift _ _ _ _ _ _ s' Hinv Hg').
        * destruct (Hjr (after_first_e _ _ j Hsh Hj Hjc)).
    - (* the stack ends with e t0 e *)
      right.
      destruct (cell_of_complete s (mkItem i0 3 (look g rest))) as [H|(j & s' & Hj & Hn & Hg')].
      + apply (Hc i0 _ 3 _ Hi0 (optail_look _ Hot)); [cbn; lia|discriminate|reflexivity].
      + exact (e_rule_complete _ _ 3 _ Hi0).
      + apply Hi0.
      + apply (reduce_moves _ _ _ _ _ i0 _ q0 ss1 Hinv Hot H Hi0); [cbn; lia|reflexivity|exact Hsh1|exact Hex1|].
        cbn [length skipn weight]. destruct (Nat.eqb t0 atom); lia.
      + cbn [it_t] in Hn, Hg'. destruct rest as [|t w]; [|exact (after_e_shift _ _ _ _ _ _ s' Hinv Hg')].
        (* <eof> is in no right side *)
        destruct (item_next_sym_ok _ _ _ SF s j _ _ Hs Hj Hn) as (_ & _ & Hneof). destruct (Hneof eq_refl).
  Qed.

  (* the second disjunct is [moves syms c] *)
  Lemma progress syms c : PInv syms c ->
    (exists v, mstep g tbl c = Acc v) \/
    (exists syms' c', mstep g tbl c = Next c' /\ PInv syms' c' /\ measure syms' (snd c') < measure syms (snd c)).
  Proof.
    destruct c as [[ss trs] rest]. intros Hinv. pose proof Hinv as (Hsh & _ & _ & Hin).
    inversion Hsh as [|q ss0 syms0 s H1 H2 H3|q ss0 syms0 s H1 H2 H3|s ss0 syms0 t q H1 H2 H3]; subst.
    - right. apply expect_moves; [assumption|exact I|exact Hin].
    - right. exact (after_atom_moves _ _ _ _ _ _ Hinv H1 H2).
    - exact (after_e_moves _ _ _ _ _ _ Hinv H1 H2).
    - right. rewrite input_ok_op in Hin by assumption. apply expect_moves; assumption.
  Qed.

  Lemma pure_run m : forall syms c, measure syms (snd c) < m -> PInv syms c -> exists n v, mrun g tbl n c = Some v.
  Proof.
    induction m as [|m IH]; intros syms c Hm Hinv; [lia|].
    destruct (progress _ _ Hinv) as [(v & Hv)|(syms' & c' & Hs & Hinv' & Hlt)].
    - exists 1, v. cbn [mrun]. rewrite Hv. reflexivity.
    - destruct (IH syms' c') as (n & v & Hn); [lia|assumption|].
      exists (S n), v. cbn [mrun]. rewrite Hs. assumption.
  Qed.

  Theorem pure_accepts w : tokens_ok g w -> opseq w -> exists tr, accepts g tbl w tr.
  Proof.
    intros Hw Hos.
    destruct (pure_run (S (measure [] w)) [] ([0], [], w)) as (n & v & Hn); [cbn; lia| |].
    - split; [constructor|]. split; [reflexivity|]. split; [exact Hw|exact Hos].
    - exists v. eapply mrun_accepts. eassumption.
  Qed.

  Lemma is_rule_e_rule r rhs : is_rule g r e rhs -> exists i, e_rule i rhs /\ ri_r (get_ri g i) = r.
  Proof.
    intros (i & ri & Hi & Hr & Hl & Hrhs). destruct (get_ri_nth_error _ _ _ SF i ri Hi) as [Eri Hlt].
    exists i. rewrite Eri. split; [|assumption]. split; [assumption|]. split.
    - (* the left side of the root rule is the added nonterminal, which has no other rule *)
      intros E. subst i. destruct (pf_atom _ _ _ PF) as (ia & Hia). apply (proj1 (proj2 Hia)).
      apply (sf_root_only _ _ _ SF ia (proj1 Hia)). rewrite (e_rule_l _ _ Hia), <- Hl, <- Eri. apply (sf_root_l _ _ _ SF).
    - rewrite Eri, Hr. unfold get_rhs. apply nth_error_nth. assumption.
  Qed.

  Lemma family_shape r rhs : is_rule g r e rhs ->
    rhs = [T atom] \/ exists t, t <> atom /\ rhs = [NT e; T t; NT e].
  Proof. intros H. destruct (is_rule_e_rule _ _ H) as (i & Hi & _). exact (e_rule_cases _ _ Hi). Qed.

  Lemma family_once r r' rhs : is_rule g r e rhs -> is_rule g r' e rhs -> r = r'.
  Proof.
    intros H H'. destruct (is_rule_e_rule _ _ H) as (i & (Hlt & _ & Hrhs) & <-).
    destruct (is_rule_e_rule _ _ H') as (i' & (Hlt' & _ & Hrhs') & <-).
    f_equal. f_equal. apply (pf_once _ _ _ PF); congruence.
  Qed.

  Lemma family_root : root_symbol g = Some (NT e).
  Proof. apply (root_symbol_eq _ _ _ SF). apply (pf_root _ _ _ PF). Qed.
End Pure.

(* completeness: the resolved table never rejects a sentence  atom (t atom)*  of the ambiguous grammar, whatever the
   precedence and associativity declarations *)
Theorem pure_complete : forall g sts tbl e atom w,
  validate_resolved g sts tbl = true ->
  pure_family g e atom ->
  tokens_ok g w ->
  opseq g e atom w ->
  exists tr, accepts g tbl w tr.
Proof.
  intros g sts tbl e atom w Hv PF Hw Hos.
  eapply pure_accepts; try eassumption. apply validate_resolved_facts. exact Hv.
Qed.

(* ... and, when the operator rules carry no explicit precedence, the accepted tree is the one and only well grouped
   derivation tree of the sentence *)
Theorem pure_unique : forall g sts tbl e atom w,
  validate_resolved g sts tbl = true ->
  no_error_symbol g tbl = true ->
  pure_family g e atom ->
  (forall i r t, binop_at g i r e t -> plain_rule g i t) ->
  tokens_ok g w ->
  opseq g e atom w ->
  exists tr, accepts g tbl w tr /\ derives_tree g tr w /\ well_grouped g tr /\
             forall tr', derives_tree g tr' w -> well_grouped g tr' -> tr' = tr.
Proof.
  intros g sts tbl e atom w Hv Hne PF Hplain Hw Hos.
  pose proof (validate_resolved_facts _ _ _ Hv) as RF.
  destruct (pure_complete g sts tbl e atom w Hv PF Hw Hos) as (tr & Hacc).
  destruct (grouping_derivation g sts tbl w tr Hv Hne Hw Hacc) as [Hd Hwg].
  exists tr. repeat split; try assumption.
  intros tr' Hd' Hwg'.
  pose proof (family_root _ _ _ _ _ RF _ _ PF) as Hroot.
  destruct Hd as (s & Hs & Hvt & Hy). destruct Hd' as (s' & Hs' & Hvt' & Hy').
  assert (s = NT e) by congruence. assert (s' = NT e) by congruence. subst s s'.
  apply (well_grouped_unique g e atom); try assumption.
  - intros r rhs. apply (family_shape _ _ _ _ _ RF _ _ PF).
  - intros r r' rhs. apply (family_once _ _ _ _ _ RF _ _ PF).
  - congruence.
Qed.

(* the hypotheses on the input as boolean tests, for the examples *)
Definition is_opb (g : grammar) (e t : nat) : bool :=
  existsb (fun i => match binop_op g i (ri_r (get_ri g i)) e with Some t' => Nat.eqb t' t | None => false end)
          (seq 0 (length (rule_infos g))).

(* w alternates between atoms and operators and ends with an atom; it begins with an atom if [at_atom], with an
   operator (or is empty) if not *)
Fixpoint opseqb (g : grammar) (e atom : nat) (at_atom : bool) (w : list nat) : bool :=
  match w with
  | [] => negb at_atom
  | a :: w' => (if at_atom then Nat.eqb a atom else is_opb g e a) && opseqb g e atom (negb at_atom) w'
  end.

Lemma is_opb_sound g e t : is_opb g e t = true -> is_op g e t.
Proof.
  unfold is_opb. intros H. apply existsb_exists in H. destruct H as (i & _ & H).
  destruct (binop_op g i (ri_r (get_ri g i)) e) as [t'|] eqn:E; [|discriminate]. apply Nat.eqb_eq in H. subst t'.
  exists i, (ri_r (get_ri g i)). apply binop_op_iff. assumption.
Qed.

Lemma opseqb_sound_from g e atom w : forall b,
  opseqb g e atom b w = true -> if b then opseq g e atom w else optail g e atom w.
Proof.
  induction w as [|a w IH]; intros [|] H; cbn in H; try discriminate; [constructor| |];
    apply andb_true_iff in H; destruct H as [H1 H2]; apply IH in H2.
  - apply Nat.eqb_eq in H1. subst a. constructor. assumption.
  - constructor; [apply is_opb_sound|]; assumption.
Qed.

Lemma opseqb_sound g e atom w : opseqb g e atom true w = true -> opseq g e atom w.
Proof. apply (opseqb_sound_from g e atom w true). Qed.

Definition tokens_okb (g : grammar) (w : list nat) : bool := forallb (fun a => Nat.ltb a (eof_idx g)) w.
Lemma tokens_okb_sound g w : tokens_okb g w = true -> tokens_ok g w.
Proof.
  unfold tokens_okb, tokens_ok. rewrite forallb_forall, Forall_forall. intros H x Hx. apply Nat.ltb_lt. auto.
Qed.

Print Assumptions pure_complete.
Print Assumptions pure_unique.
