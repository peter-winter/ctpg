(* Independence of the driver from the capacity of its fixed-size stacks and from the intension of its oracles.
   (a) The run with stack_cap = Some n is the run with unbounded stacks as long as no stack outgrows n; otherwise it ends
       in Throw at the first push that does not fit -- never in Crash, never with a different value.  No hypothesis
       on the table.
   (b) The run depends on the lexer / the semantic functors only extensionally (the lexer only at the verbosity of
       the options and on non-empty input). *)
Require Import Ctpg.Base.Prelude Ctpg.Model.Grammar Ctpg.Model.LRGen Ctpg.Model.Driver
               Ctpg.Proofs.DriverBasics Ctpg.Proofs.DriverIter.

Section Cap.
  Variables V C : Type.
  Variable g : grammar.
  Variable tbl : table.
  Variable opts : options.
  Variable buf : list nat.
  Variable lexer : bool -> spoint -> list nat -> list lex_event * option (nat * nat).
  Variable term_f : nat -> nat -> nat -> spoint -> V.
  Variable err_f : spoint -> V.
  Variable rule_f : nat -> C -> list V -> C * V.
  Variable n : nat.                                  (* the capacity *)

  Notation pst := (pstate V C).
  Notation step0 := (step V C g tbl opts buf None lexer term_f err_f rule_f).
  Notation stepn := (step V C g tbl opts buf (Some n) lexer term_f err_f rule_f).
  Notation run_gh0 := (run_gh V C g tbl opts buf None lexer term_f err_f rule_f).
  Notation run_ghn := (run_gh V C g tbl opts buf (Some n) lexer term_f err_f rule_f).
  Notation gctx := (get_current_term V C g opts buf lexer).

  Definition height (s : pst) : nat := length (ps_cursors s).
  (* the two stacks move in step ([exact]: kept by every iteration, whatever the table, see [stepn_hinv]), and fit *)
  Definition exact (s : pst) : Prop := length (ps_cursors s) = S (length (ps_values s)).
  Definition hinv (s : pst) : Prop := exact s /\ height s <= n.

  (* a reduce that goes through has tested the stack it pushes onto *)
  Lemma dred_fits cs nv r ri nst : decided_reduce g tbl (Some n) cs nv r (inl (ri, nst)) ->
    ri_n ri < length cs /\ S (length cs - ri_n ri) <= n.
  Proof.
    intros H. inversion H as [| | | | | | | |? top below e ? Hat _ Hf _ _ _]; subst.
    pose proof (red_at_length g _ _ _ _ _ Hat) as Hl. cbn [full length] in Hf. apply Nat.leb_gt in Hf. lia.
  Qed.

  (* every push is preceded by a test of the height pushed onto: [perform_heights] with the guards of [decided] *)
  Lemma stepn_hinv s : hinv s ->
    match fst (stepn s) with inl s' => hinv s' | inr (_, s') => height s' <= n end.
  Proof.
    intros [Hex Hh]. unfold exact in Hex. unfold height in Hh. apply step_moves; cbn [fst].
    - intros _. exact Hh.
    - intros s1 ev1 _ _ Hg. destruct (gct_stacks Hg) as (E & _). unfold height. rewrite E. exact Hh.
    - intros cur cs s1 t ev1 m Hcs _ Hg Ha.
      destruct (gct_stacks Hg) as (Hcs1 & Hvs1 & _). rewrite <- Hcs1, <- Hvs1 in Hex. rewrite <- Hcs1 in Hh.
      pose proof (perform_heights V C buf term_f err_f rule_f m s1) as Hp. cbv zeta in Hp. cbn [fst snd] in Hp.
      destruct (fst (perform buf term_f err_f rule_f m s1)) as [s'|[r s']]; [|unfold height; lia].
      unfold hinv, exact, height.
      case_move Ha; injection Hp as -> ->; try (cbn [full] in Hfull; apply Nat.leb_gt in Hfull); try lia.
      + (* pop *) destruct (ps_cursors s1) as [|c0 [|c1 l]]; try discriminate Htl. cbn [length] in *. lia.
      + (* reduce *) destruct (dred_fits _ _ _ _ _ Hred) as (Hlt & Hfit). lia.
  Qed.

  (* The capacity is looked at by [decide] alone, in the tests [full].  While they say no, nothing differs; the first
     that says yes ends the bounded computation in Throw at a push the unbounded one makes -- unless the unbounded
     one crashes at that very place (the tests come before the goto target and the end of the lexeme are looked at). *)
  Lemma decide_reduce_cap cs nv r : length cs = S nv ->
    decide_reduce g tbl (Some n) cs nv r = decide_reduce g tbl None cs nv r \/
    (decide_reduce g tbl (Some n) cs nv r = inr VThrow /\
     exists ri, nth_error (rule_infos g) r = Some ri /\ n <= length cs - ri_n ri /\
       match decide_reduce g tbl None cs nv r with
       | inl (ri', _) => ri' = ri
       | inr x => x = VCrash CrGotoUninit
       end).
  Proof.
    intros Hex. unfold decide_reduce.
    destruct (nth_error (rule_infos g) r) as [ri|]; [|left; reflexivity].
    destruct (Nat.ltb (length cs) (ri_n ri)); [left; reflexivity|].
    destruct (skipn (ri_n ri) cs) as [|top below] eqn:Hsk; [left; reflexivity|].
    destruct (cell tbl top (ri_l ri)) as [e|c]; [|left; reflexivity].
    cbn [full]. apply (f_equal (@length nat)) in Hsk. rewrite skipn_length in Hsk. cbn [length] in *.
    assert (Hv : Nat.ltb nv (ri_n ri) = false) by (apply Nat.ltb_ge; lia).
    replace (nv - ri_n ri) with (length below) by lia. rewrite Hv.
    destruct (Nat.leb_spec n (S (length below))) as [Hf|Hf].
    - right. split; [reflexivity|]. exists ri. split; [reflexivity|]. split; [lia|]. destruct (e_arg e); reflexivity.
    - left. destruct (e_arg e) as [nst|]; [|reflexivity].
      replace (Nat.leb n (length below)) with false; [reflexivity|]. symmetry. apply Nat.leb_gt. lia.
  Qed.

  (* in the reduce row the height compared with n is the one after the pop: that is the stack the push is made onto *)
  Lemma decide_cap s1 cur t : exact s1 ->
    decide V C g tbl buf (Some n) s1 cur t = decide V C g tbl buf None s1 cur t \/
    ((exists ev, decide V C g tbl buf (Some n) s1 cur t = MStop VThrow ev) /\ n <= height s1 /\
     match decide V C g tbl buf None s1 cur t with
     | MShift _ _ | MShiftErr _ => True
     | MReduce _ _ ri _ => n < S (height s1 - ri_n ri)
     | MStop x _ => (x = VCrash CrGotoUninit /\ exists r ri, nth_error (rule_infos g) r = Some ri /\ n <= height s1 - ri_n ri) \/
                    (x = VCrash CrBufferOverrun /\ length buf < ps_end s1)
     | _ => False
     end).
  Proof.
    intros Hex. unfold decide, height. destruct (cell tbl cur (nterm_count g + t)) as [e|c]; [|left; reflexivity].
    destruct (e_kind e); [left; reflexivity..| | | | ]; (destruct (e_arg e) as [a|]; [|left; reflexivity]).
    1,2: cbn [full]; destruct (Nat.leb_spec n (length (ps_cursors s1))) as [Hf|Hf];
      [right; split; [eexists; reflexivity|]; split; [exact Hf|]|left; reflexivity].
    3,4: destruct (decide_reduce_cap (ps_cursors s1) (length (ps_values s1)) a Hex) as [->|(-> & ri & Hri & Hn & Hm)];
      [left; reflexivity|right; split; [eexists; reflexivity|split; [lia|]]].
    3,4: destruct (decide_reduce g tbl None (ps_cursors s1) (length (ps_values s1)) a) as [[ri' nst]|x]; subst; [lia|eauto 6].
    - destruct (Nat.ltb_spec (length buf) (ps_end s1)); auto.
    - exact I.
  Qed.

  Lemma step_cap s : hinv s ->
    stepn s = step0 s \/
    ((exists s' ev, stepn s = (inr (Throw, s'), ev)) /\ n <= height s /\
     match fst (step0 s) with
     | inl s'' => n < height s''
     | inr (r, _) =>
         (r = Crash CrGotoUninit /\ exists r0 ri, nth_error (rule_infos g) r0 = Some ri /\ n <= height s - ri_n ri) \/
         (r = Crash CrBufferOverrun /\ exists s1 ot ev, gct_spec V C g opts buf lexer s (s1, ot, ev) /\ length buf < ps_end s1)
     end).
  Proof.
    intros [Hex _]. unfold step, height.
    destruct (ps_cursors s) as [|cur cs] eqn:Hcs; [left; reflexivity|].
    pose proof (gct_spec_holds V C g opts buf lexer s) as Hg.
    destruct (gctx s) as [[s1 ot] ev1]. destruct (gct_stacks Hg) as (Hcs1 & Hvs1 & _).
    destruct ot as [t|]; [|left; reflexivity].
    assert (Hex1 : exact s1) by (unfold exact in *; rewrite Hcs1, Hvs1; exact Hex).
    rewrite !act_eq.
    destruct (decide_cap s1 cur t Hex1) as [->|((ev & ->) & Hn & Hm)]; [left; destruct (perform _ _ _ _ _ _); reflexivity|].
    right. unfold height in *. split; [eexists; eexists; reflexivity|]. split; [rewrite <- Hcs, <- Hcs1; exact Hn|].
    destruct (decide V C g tbl buf None s1 cur t) as [| |x ?| | | | | | | |]; try contradiction; cbn [perform fst];
      simp_mv; cbn [length]; rewrite ?skipn_length; try lia.
    destruct Hm as [(-> & r0 & ri & Hri & Hle)|(-> & Hov)]; [left; rewrite Hcs1, Hcs in Hle; eauto 6|right; eauto 7].
  Qed.

  Definition same_run (x y : result V * pst * list event * list pst) : Prop := x = y.

  (* without capacity neither check of a reduce nor that of a shift fires *)
  Lemma step0_no_throw s : match fst (step0 s) with inl _ => True | inr (r, _) => r <> Throw end.
  Proof.
    apply step_moves; cbn [fst]; try discriminate.
    intros cur cs s1 t ev1 m _ _ _ Hd.
    destruct m as [| |[c|] ev| | | | | | | |]; cbn [perform fst to_result]; try exact I; try discriminate.
    - destruct (decided_unbounded V C g tbl buf None s1 cur t ev eq_refl Hd).
    - destruct (rev (ps_values s1)); discriminate.
  Qed.

  (* The two runs go together until a loop-head state x at which the bounded iteration differs from the unbounded one
     (by [step_cap]: it throws); the unbounded run goes on from x, to a state it visits or to its result. *)
  Lemma runs_part fuel : forall s out, hinv s ->
    let '(r, sf, o, v) := run_gh0 fuel s out [] in
    let '(r', sf', o', v') := run_ghn fuel s out [] in
    ((r', sf', o', v') = (r, sf, o, v) /\ Forall (fun x => height x <= n) (v ++ [sf])) \/
    (r' = Throw /\ exists x, In x v /\ hinv x /\ stepn x <> step0 x /\
       match fst (step0 x) with inl x' => In x' (v ++ [sf]) | inr (r1, _) => r = r1 end).
  Proof.
    induction fuel as [|f IH]; intros s out Hinv; cbn [run_gh].
    - left. split; [reflexivity|]. constructor; [apply Hinv|constructor].
    - pose proof (stepn_hinv s Hinv) as Hn.
      destruct (step_cap s Hinv) as [E|((s' & ev & E) & _)].
      + rewrite E in Hn |- *. destruct (step0 s) as [[s1|[r1 s1]] ev]; cbn [fst] in Hn.
        * rewrite (run_gh_shift (cap := None) f s1 _ ([] ++ [s])), (run_gh_shift (cap := Some n) f s1 _ ([] ++ [s])).
          specialize (IH s1 (out ++ filter (visible opts) ev) Hn).
          destruct (run_gh0 f s1 (out ++ filter (visible opts) ev) []) as [[[r sf] o] v].
          destruct (run_ghn f s1 (out ++ filter (visible opts) ev) []) as [[[r' sf'] o'] v'].
          destruct IH as [[Eq Hall]|(Ht & x & Hx & Hix & Hne & Hnext)].
          -- injection Eq as -> -> -> ->. left. split; [reflexivity|]. cbn [app]. constructor; [apply Hinv|exact Hall].
          -- right. split; [exact Ht|]. exists x. split; [right; exact Hx|]. split; [exact Hix|]. split; [exact Hne|].
             destruct (fst (step0 x)) as [x'|[r1 ?]]; [right; exact Hnext|exact Hnext].
        * left. split; [reflexivity|]. constructor; [apply Hinv|constructor; [exact Hn|constructor]].
      + assert (Hne : stepn s <> step0 s).
        { intros E'. pose proof (step0_no_throw s) as Hnt. rewrite <- E', E in Hnt. exact (Hnt eq_refl). }
        rewrite E. destruct (step0 s) as [[s1|[r1 s1]] ev0] eqn:E0; rewrite <- E0 in Hne.
        * rewrite (run_gh_shift f s1 _ ([] ++ [s])).
          pose proof (run_gh_first V C g tbl opts buf None lexer term_f err_f rule_f f s1 (out ++ filter (visible opts) ev0)) as Hfirst.
          destruct (run_gh0 f s1 (out ++ filter (visible opts) ev0) []) as [[[r sf] o] v].
          right. split; [reflexivity|]. exists s.
          split; [left; reflexivity|]. split; [exact Hinv|]. split; [exact Hne|]. rewrite E0. right. exact Hfirst.
        * right. split; [reflexivity|]. exists s.
          split; [left; reflexivity|]. split; [exact Hinv|]. split; [exact Hne|]. rewrite E0. reflexivity.
  Qed.

  (* [runs_part] with the state x at which the runs part replaced by what [step_cap] says of the heights there.
     [run_cap] below says it of [run] from the initial state, and is the form the capacity theorems use. *)
  Lemma lockstep fuel : forall s out, hinv s ->
    let '(r, sf, o, v) := run_gh0 fuel s out [] in
    let '(r', sf', o', v') := run_ghn fuel s out [] in
    ((r', sf', o', v') = (r, sf, o, v) /\ Forall (fun x => height x <= n) (v ++ [sf])) \/
    (r' = Throw /\ (exists x, In x v /\ n <= height x) /\
     ((exists y, In y (v ++ [sf]) /\ n < height y) \/ r = Crash CrGotoUninit \/ r = Crash CrBufferOverrun)).
  Proof.
    intros s out Hinv. pose proof (runs_part fuel s out Hinv) as L.
    destruct (run_gh0 fuel s out []) as [[[r sf] o] v]. destruct (run_ghn fuel s out []) as [[[r' sf'] o'] v'].
    destruct L as [L|(Ht & x & Hx & Hix & Hne & Hnext)]; [left; exact L|right].
    destruct (step_cap x Hix) as [E|(_ & Hle & Hm)]; [contradiction|].
    split; [exact Ht|]. split; [exists x; auto|].
    destruct (fst (step0 x)) as [x'|[r1 ?]]; [left; exists x'; auto|right; rewrite Hnext; destruct Hm as [[-> _]|[-> _]]; auto].
  Qed.
End Cap.

Arguments height {V C}.

(* a final state is not higher than the loop-head state it comes from, whatever the capacity *)
Lemma step_final_height V C g tbl opts buf cap lexer term_f err_f rule_f (s : pstate V C) :
  match fst (step V C g tbl opts buf cap lexer term_f err_f rule_f s) with
  | inl _ => True
  | inr (_, s') => height s' <= height s
  end.
Proof.
  unfold height. apply step_moves; cbn [fst].
  - intros _. lia.
  - intros s1 ev1 _ _ Hg. destruct (gct_stacks Hg) as (E & _). rewrite E. lia.
  - intros cur cs s1 t ev1 m Hcs _ Hg Ha. destruct (gct_stacks Hg) as (E & _). rewrite <- E.
    pose proof (perform_heights V C buf term_f err_f rule_f m s1) as Hp. cbv zeta in Hp. cbn [fst snd] in Hp.
    destruct (fst (perform buf term_f err_f rule_f m s1)) as [s'|[r s']]; [exact I|lia].
Qed.

Section CapRun.
  Variables V C : Type.
  Variable g : grammar.
  Variable tbl : table.
  Variable opts : options.
  Variable buf : list nat.
  Variable lexer : bool -> spoint -> list nat -> list lex_event * option (nat * nat).
  Variable term_f : nat -> nat -> nat -> spoint -> V.
  Variable err_f : spoint -> V.
  Variable rule_f : nat -> C -> list V -> C * V.

  Notation step0 := (step V C g tbl opts buf None lexer term_f err_f rule_f).
  Notation run_gh0 := (run_gh V C g tbl opts buf None lexer term_f err_f rule_f).
  Notation runc cap := (run V C g tbl opts buf cap lexer term_f err_f rule_f).

  Lemma hinv_init n c : 0 < n -> hinv V C n (init c).
  Proof. intros H. unfold hinv, exact, height; cbn. lia. Qed.

  (* every loop-head state of the unbounded run, and its last state, has at most n cursors *)
  Definition never_above (n fuel : nat) (c : C) : Prop :=
    let '(_, sf, _, v) := run_gh0 fuel (init c) [] [] in forall x, In x (v ++ [sf]) -> height x <= n.

  Lemma never_above_mono n m fuel c : n <= m -> never_above n fuel c -> never_above m fuel c.
  Proof.
    unfold never_above. destruct (run_gh0 fuel (init c) [] []) as [[[r sf] o] v].
    intros Hle H x Hx. specialize (H x Hx). lia.
  Qed.

  (* How a height bound is proved: by an invariant of the iteration that implies it.  Nothing is asked of the state an
     iteration ends the run in (Fin is whatever the lemma at hand says of it): it is not higher than the loop-head state
     it comes from, [step_final_height]. *)
  Lemma never_above_inv (Inv : pstate V C -> Prop) (Fin : result V -> pstate V C -> Prop) n fuel c :
    (forall s, Inv s -> height s <= n) ->
    (forall s, Inv s -> match fst (step0 s) with inl s' => Inv s' | inr (r, s') => Fin r s' end) ->
    Inv (init c) -> never_above n fuel c.
  Proof.
    intros Hh Hstep H0. unfold never_above.
    unshelve epose proof (run_gh_sinv V C g tbl opts buf None lexer term_f err_f rule_f Inv (fun _ s' => height s' <= n) Hh _
                            fuel (init c) [] [] H0 (Forall_nil _)) as H.
    { intros s Hs. specialize (Hstep s Hs). specialize (Hh s Hs).
      pose proof (step_final_height V C g tbl opts buf None lexer term_f err_f rule_f s).
      destruct (fst (step0 s)) as [s'|[r s']]; [exact Hstep|lia]. }
    destruct (run_gh0 fuel (init c) [] []) as [[[r sf] o] v]. destruct H as [Hf Hv]. rewrite Forall_forall in Hv.
    intros x Hx. apply in_app_or in Hx as [Hx|[<-|[]]]; [exact (Hh x (Hv x Hx))|exact Hf].
  Qed.

  (* [lockstep] from the initial state, in terms of [run] and [never_above] *)
  Lemma run_cap n fuel c : 0 < n ->
    (runc (Some n) fuel c = runc None fuel c /\ never_above n fuel c) \/
    (fst (fst (runc (Some n) fuel c)) = Throw /\ (forall m, m < n -> ~ never_above m fuel c) /\
     (~ never_above n fuel c \/ exists cr, fst (fst (runc None fuel c)) = Crash cr)).
  Proof.
    intros Hpos. rewrite !run_of_gh. unfold never_above.
    pose proof (lockstep V C g tbl opts buf lexer term_f err_f rule_f n fuel (init c) [] (hinv_init n c Hpos)) as L.
    destruct (run_gh0 fuel (init c) [] []) as [[[r sf] o] v].
    destruct (run_gh V C g tbl opts buf (Some n) lexer term_f err_f rule_f fuel (init c) [] []) as [[[r' sf'] o'] v'].
    destruct L as [[Eq Hall]|(Ht & (x & Hx & Hxn) & Hy)].
    - left. split; [inversion Eq; reflexivity|]. rewrite Forall_forall in Hall. exact Hall.
    - right. split; [exact Ht|]. split.
      + intros m Hm Hna. specialize (Hna x (in_or_app _ _ _ (or_introl Hx))). lia.
      + destruct Hy as [(y & Hy & Hyn)|[E|E]]; [left; intros Hna; specialize (Hna y Hy); lia|right; eexists; exact E..].
  Qed.

  (* the capacity is irrelevant when it exceeds what the unbounded run needs: same result, final state, output *)
  Theorem capacity_irrelevant : forall n fuel c,
    never_above n fuel c -> forall n', n < n' -> runc (Some n') fuel c = runc None fuel c.
  Proof.
    intros n fuel c Hna n' Hlt.
    destruct (run_cap n' fuel c ltac:(lia)) as [[E _]|(_ & H & _)]; [exact E|destruct (H n Hlt Hna)].
  Qed.

  (* the tight version: capacity = the height reached; the only difference is that a crash caused by a missing goto
     target or a lexeme beyond the buffer, at a moment when the stack is full, is pre-empted by the capacity check *)
  Theorem capacity_irrelevant_tight : forall n fuel c,
    0 < n -> never_above n fuel c -> (forall cr, fst (fst (runc None fuel c)) <> Crash cr) ->
    runc (Some n) fuel c = runc None fuel c.
  Proof.
    intros n fuel c Hpos Hna Hnc.
    destruct (run_cap n fuel c Hpos) as [[E _]|(_ & _ & [H|[cr H]])]; [exact E|contradiction|destruct (Hnc _ H)].
  Qed.

  (* whatever the capacity: the bounded run either IS the unbounded run, or it ends in Throw -- it never crashes where
     the unbounded run does not, and never produces a different value *)
  Theorem capacity_throw_or_same : forall n fuel c,
    0 < n -> fst (fst (runc (Some n) fuel c)) = Throw \/ runc (Some n) fuel c = runc None fuel c.
  Proof. intros n fuel c Hpos. destruct (run_cap n fuel c Hpos) as [[E _]|(H & _)]; [right; exact E|left; exact H]. Qed.

  (* a capacity that is too small: as soon as the unbounded run (same fuel) has a stack higher than n, the bounded
     run ends in Throw *)
  Theorem capacity_too_small : forall n fuel c,
    0 < n -> ~ never_above n fuel c -> fst (fst (runc (Some n) fuel c)) = Throw.
  Proof.
    intros n fuel c Hpos Hna. destruct (run_cap n fuel c Hpos) as [[_ H]|(H & _)]; [contradiction|exact H].
  Qed.

  (* and the bounded run keeps its stacks within the capacity *)
  Theorem capacity_respected : forall n fuel c, 0 < n ->
    let '(_, sf, _, v) := run_gh V C g tbl opts buf (Some n) lexer term_f err_f rule_f fuel (init c) [] [] in
    Forall (fun x => height x <= n) v.
  Proof.
    intros n fuel c Hpos.
    pose proof (run_gh_sinv V C g tbl opts buf (Some n) lexer term_f err_f rule_f (hinv V C n) (fun _ s' => height s' <= n)
                  (fun s Hs => proj2 Hs) (stepn_hinv V C g tbl opts buf lexer term_f err_f rule_f n)
                  fuel (init c) [] [] (hinv_init n c Hpos) (Forall_nil _)) as H.
    destruct (run_gh V C g tbl opts buf (Some n) lexer term_f err_f rule_f fuel (init c) [] []) as [[[r sf] o] v].
    eapply Forall_impl; [|exact (proj2 H)]. intros x Hx. apply Hx.
  Qed.
End CapRun.

Section Ext.
  Variables V C : Type.
  Variable g : grammar.
  Variable tbl : table.
  Variable opts : options.
  Variable buf : list nat.
  Variable cap : option nat.
  Variables lexer1 lexer2 : bool -> spoint -> list nat -> list lex_event * option (nat * nat).
  Variables term_f1 term_f2 : nat -> nat -> nat -> spoint -> V.
  Variables err_f1 err_f2 : spoint -> V.
  Variables rule_f1 rule_f2 : nat -> C -> list V -> C * V.
  (* the lexer is only ever asked at the verbosity of the options and on non-empty input *)
  Hypothesis Hlex : forall p c rest, lexer1 (o_verbose opts) p (c :: rest) = lexer2 (o_verbose opts) p (c :: rest).
  Hypothesis Hterm : forall t a l p, term_f1 t a l p = term_f2 t a l p.
  Hypothesis Herr : forall p, err_f1 p = err_f2 p.
  Hypothesis Hrule : forall r c args, rule_f1 r c args = rule_f2 r c args.

  Lemma gct_ext s : get_current_term V C g opts buf lexer1 s = get_current_term V C g opts buf lexer2 s.
  Proof.
    unfold get_current_term. destruct (ps_rec s); [reflexivity|].
    destruct (negb (Nat.eqb (ps_it s) (ps_end s))); [reflexivity|].
    destruct (skipn (if o_skip_ws opts then count_ws opts (skipn (ps_it s) buf) else 0) (skipn (ps_it s) buf)) as [|c rest];
      [reflexivity|].
    rewrite Hlex. reflexivity.
  Qed.

  (* [decide] does not take the functors at all *)
  Lemma perform_ext m s : perform buf term_f1 err_f1 rule_f1 m s = perform buf term_f2 err_f2 rule_f2 m s.
  Proof. destruct m; cbn [perform]; unfold reduced; now rewrite ?Hterm, ?Herr, ?Hrule. Qed.

  Lemma act_ext s cur t :
    act V C g tbl buf cap term_f1 err_f1 rule_f1 s cur t = act V C g tbl buf cap term_f2 err_f2 rule_f2 s cur t.
  Proof. now rewrite !act_eq, perform_ext. Qed.

  Lemma step_ext s :
    step V C g tbl opts buf cap lexer1 term_f1 err_f1 rule_f1 s = step V C g tbl opts buf cap lexer2 term_f2 err_f2 rule_f2 s.
  Proof.
    unfold step. destruct (ps_cursors s) as [|cur cs]; [reflexivity|]. rewrite gct_ext.
    destruct (get_current_term V C g opts buf lexer2 s) as [[s1 ot] ev1]. destruct ot as [t|]; [|reflexivity].
    rewrite act_ext. reflexivity.
  Qed.

  Theorem run_from_ext fuel : forall s out,
    run_from V C g tbl opts buf cap lexer1 term_f1 err_f1 rule_f1 fuel s out =
    run_from V C g tbl opts buf cap lexer2 term_f2 err_f2 rule_f2 fuel s out.
  Proof.
    induction fuel as [|f IH]; intros s out; cbn [run_from]; [reflexivity|]. rewrite step_ext.
    destruct (step V C g tbl opts buf cap lexer2 term_f2 err_f2 rule_f2 s) as [[s'|[r s']] ev]; [apply IH|reflexivity].
  Qed.

  Theorem run_ext fuel c :
    run V C g tbl opts buf cap lexer1 term_f1 err_f1 rule_f1 fuel c =
    run V C g tbl opts buf cap lexer2 term_f2 err_f2 rule_f2 fuel c.
  Proof. apply run_from_ext. Qed.
End Ext.

Print Assumptions capacity_irrelevant.
Print Assumptions capacity_irrelevant_tight.
Print Assumptions capacity_throw_or_same.
Print Assumptions capacity_too_small.
Print Assumptions capacity_respected.
Print Assumptions run_ext.
