(* A sufficient stack capacity in the presence of empty rules, for ACCEPTED inputs, read off the derivation tree.
   The number of empty rules does not bound the stack (Proofs/CapFormulaCex.v); the number of empty REDUCTIONS does:
   during an accepting run of the tree driver with a soundly validated table without error symbol, the cursor stack
   never holds more than
         length w  +  (number of nodes [Node r []] of the accepted tree)  +  1
   entries (the value stack one less).  Reason: the trees on the stack are valid trees whose yields concatenate to
   the consumed input (SInv, Proofs/LRSound.v); a tree contributes at least one token or at least one empty node;
   tokens and empty nodes on the stack only accumulate, and at acceptance they are those of the accepted tree.
   The bound is reached by the grammar of finding D8. *)
Require Import Ctpg.Base.Prelude Ctpg.Proofs.ListFacts Ctpg.Model.Grammar Ctpg.Model.LRGen Ctpg.Model.Driver
               Ctpg.Spec.Cfg Ctpg.Spec.LRSpec Ctpg.Valid.LRValid Ctpg.Proofs.LRReflect Ctpg.Proofs.LRMachine
               Ctpg.Proofs.LRValidFacts Ctpg.Proofs.LRSound Ctpg.Proofs.DriverBasics Ctpg.Proofs.SafeCap
               Ctpg.Proofs.SafeTerm Ctpg.Proofs.CapFormula.

(* nodes without children = reductions by an empty rule *)
Fixpoint empty_nodes (t : tree) : nat :=
  match t with
  | Leaf _ => 0
  | Node _ ch => (match ch with [] => 1 | _ => 0 end) + list_sum (map empty_nodes ch)
  end.

(* nodes with an empty yield (a coarser count: an empty-yield node with children has an empty node below it) *)
Fixpoint empty_yield_nodes (t : tree) : nat :=
  match t with
  | Leaf _ => 0
  | Node _ ch => (match flat_map yield ch with [] => 1 | _ => 0 end) + list_sum (map empty_yield_nodes ch)
  end.

Lemma empty_nodes_le_empty_yield t : empty_nodes t <= empty_yield_nodes t.
Proof.
  induction t as [a|r ch IH] using tree_ind'; [reflexivity|].
  cbn [empty_nodes empty_yield_nodes]. pose proof (lsum_le _ _ _ IH) as L.
  destruct ch as [|c ch]; [cbn; lia|]. lia.
Qed.

Notation ylen l := (lsum (fun t => length (yield t)) l).
Notation esum l := (lsum empty_nodes l).

(* a tree holds a token or an empty node *)
Lemma yield_or_empty t : 1 <= length (yield t) + empty_nodes t.
Proof.
  induction t as [a|r ch IH] using tree_ind'; [cbn; lia|].
  cbn [yield empty_nodes]. destruct ch as [|c ch]; [cbn; lia|].
  inversion IH as [|? ? Hc _]; subst. cbn [flat_map]. rewrite lsum_cons, app_length. lia.
Qed.

Lemma length_le_ylen_esum trs : length trs <= ylen trs + esum trs.
Proof.
  induction trs as [|t trs IH]; [cbn; lia|]. rewrite !lsum_cons. cbn [length].
  pose proof (yield_or_empty t). lia.
Qed.

Section MachineHeight.
  Variable g : grammar.
  Variable sts : list items.
  Variable tbl : table.
  Variable w : list nat.
  Hypothesis SF : sound_facts g sts tbl.

  (* tokens on the stack, tokens still to read, empty nodes on the stack: what a machine step never lowers *)
  Definition potential (c : cfg) : nat := let '(_, trs, rest) := c in ylen trs + length rest + esum trs.

  Lemma mstep_mono c c' : SInv g sts w c -> mstep g tbl c = Next c' -> potential c <= potential c'.
  Proof.
    destruct c as [[ss trs] rest], c' as [[ss' trs'] rest']. intros (syms & Hst & _ & _ & Hr) Hs.
    destruct (LRSound.step_cases g sts tbl SF _ _ _ _ _ _ _ Hst Hr Hs) as (syms' & Hto & _).
    destruct Hto; cbn [potential]; rewrite !lsum_cons; cbn [yield empty_nodes length].
    - destruct rest; cbn [tl length]; lia.
    - rewrite (lsum_split _ (ri_n (get_ri g r)) trs), (lsum_split empty_nodes (ri_n (get_ri g r)) trs).
      rewrite length_flat_map_yield, !lsum_rev. lia.
  Qed.

  Lemma msteps_mono k : forall c c', msteps g tbl k c c' -> SInv g sts w c -> potential c <= potential c'.
  Proof.
    induction k as [|k IH]; intros c c' H Hi; cbn [msteps] in H.
    - subst. lia.
    - destruct H as (c1 & Hs & H). apply IH in H; [|eapply SInv_next; eassumption].
      pose proof (mstep_mono _ _ Hi Hs). lia.
  Qed.

  (* at acceptance everything has been read, and the stack holds the accepted tree *)
  Lemma SInv_acc_potential ss trs rest t :
    SInv g sts w (ss, trs, rest) -> mstep g tbl (ss, trs, rest) = Acc t ->
    potential (ss, trs, rest) = length w + empty_nodes t.
  Proof.
    intros Hi Ha. destruct (SInv_accepting g sts tbl w SF _ _ _ _ Hi Ha) as (_ & -> & -> & s & _ & _ & Hy).
    cbn. rewrite Hy. lia.
  Qed.

  Theorem mach_height k c c' t :
    SInv g sts w c -> msteps g tbl k c c' -> mstep g tbl c' = Acc t ->
    length (fst (fst c)) <= length w + empty_nodes t + 1.
  Proof.
    intros Hi Hs Ha.
    pose proof (msteps_SInv g sts tbl w SF k _ _ Hs Hi) as Hi'.
    pose proof (msteps_mono _ _ _ Hs Hi) as Hm.
    destruct c' as [[ss' trs'] rest']. rewrite (SInv_acc_potential _ _ _ _ Hi' Ha) in Hm.
    destruct c as [[ss trs] rest].
    destruct Hi as (syms & Hst & Hv & _ & _).
    pose proof (stk_len g sts _ _ Hst) as Hlen. apply Forall2_length in Hv.
    pose proof (length_le_ylen_esum trs) as L. cbn [fst potential] in *. lia.
  Qed.
End MachineHeight.

(* A state of the tree driver from which the machine accepts t: kept by every iteration until the run accepts. *)
Section Follow.
  Variable g : grammar.
  Variable sts : list items.
  Variable tbl : table.
  Variable w : list nat.
  Variable t : tree.
  Hypothesis SF : sound_facts g sts tbl.

  Notation dstate := (pstate tree unit).
  Notation dstep := (step tree unit g tbl tree_opts w None id_lexer tf (ef g) rlf).

  Definition follows (s : dstate) : Prop :=
    normal w s /\ SInv g sts w (abs w s) /\ exists m, mrun g tbl m (abs w s) = Some t.

  Lemma follows_height s : follows s -> height s <= length w + empty_nodes t + 1.
  Proof.
    intros (_ & Hi & m & Hm). destruct (mrun_steps g tbl m _ _ Hm) as (k & c' & _ & Hs & Ha).
    exact (mach_height g sts tbl w SF k _ _ t Hi Hs Ha).
  Qed.

  Lemma step_follows s : follows s -> match fst (dstep s) with inl s' => follows s' | inr (_, _) => True end.
  Proof.
    intros (Hn & Hi & [|m] & Hm); [discriminate|].
    pose proof (tree_step_sim g tbl w s Hn) as Hs.
    cbn [mrun] in Hm. destruct (mstep g tbl (abs w s)) as [c'|v| |] eqn:Em; try discriminate.
    - destruct Hs as (s' & ev & Hs & _ & Hn' & <-). rewrite Hs.
      exact (conj Hn' (conj (SInv_next g sts tbl w SF _ _ Hi Em) (ex_intro _ m Hm))).
    - destruct Hs as (s' & ev & -> & _). exact I.
  Qed.
End Follow.

(* every loop-head state of an accepting run, and its final state, has at most
   length w + empty_nodes t + 1 cursors *)
Theorem height_le_tree : forall g sts tbl w t fuel,
  validate_sound g sts tbl = true -> no_error_symbol g tbl = true -> tokens_ok g w ->
  tree_run g tbl w fuel = Accept t ->
  never_above tree unit g tbl tree_opts w id_lexer tf (ef g) rlf (length w + empty_nodes t + 1) fuel tt.
Proof.
  intros g sts tbl w t fuel Hv Hne Hw Hacc.
  pose proof (sound_facts_of g sts tbl Hv) as SF.
  destruct (accepts_machine g sts tbl w t SF Hne Hw (ex_intro _ fuel Hacc)) as (n & Hn).
  assert (H0 : follows g sts tbl w t (init tt)).
  { split; [apply init_normal|]. rewrite init_abs. split; [apply SInv_init; assumption|eauto]. }
  exact (never_above_inv tree unit g tbl tree_opts w id_lexer tf (ef g) rlf (follows g sts tbl w t) (fun _ _ => True) _ fuel tt
           (follows_height g sts tbl w t SF) (step_follows g sts tbl w t SF) H0).
Qed.

(* hence every capacity from that height on yields the same run (result, final state, output) *)
Theorem capacity_from_tree_suffices : forall g sts tbl w t fuel,
  validate_sound g sts tbl = true -> no_error_symbol g tbl = true -> tokens_ok g w ->
  tree_run g tbl w fuel = Accept t ->
  forall n, length w + empty_nodes t + 1 <= n ->
    tree_run_cap g tbl (Some n) w fuel = tree_run_cap g tbl None w fuel /\
    fst (fst (tree_run_cap g tbl (Some n) w fuel)) = Accept t.
Proof.
  intros g sts tbl w t fuel Hv Hne Hw Hacc n Hn.
  pose proof (height_le_tree g sts tbl w t fuel Hv Hne Hw Hacc) as Hna.
  apply (never_above_mono _ _ _ _ _ _ _ _ _ _ _ n _ _ Hn) in Hna.
  assert (E : tree_run_cap g tbl (Some n) w fuel = tree_run_cap g tbl None w fuel).
  { unfold tree_run_cap. apply (capacity_irrelevant_tight tree unit g tbl tree_opts w id_lexer tf (ef g) rlf n fuel tt).
    - lia.
    - exact Hna.
    - intros cr. change (tree_run g tbl w fuel <> Crash cr). rewrite Hacc. discriminate. }
  split; [exact E|]. rewrite E. exact Hacc.
Qed.

(* with the coarser count: nodes with an empty yield *)
Corollary height_le_tree_empty_yield : forall g sts tbl w t fuel,
  validate_sound g sts tbl = true -> no_error_symbol g tbl = true -> tokens_ok g w ->
  tree_run g tbl w fuel = Accept t ->
  never_above tree unit g tbl tree_opts w id_lexer tf (ef g) rlf (length w + empty_yield_nodes t + 1) fuel tt.
Proof.
  intros g sts tbl w t fuel Hv Hne Hw Hacc.
  eapply never_above_mono; [|exact (height_le_tree g sts tbl w t fuel Hv Hne Hw Hacc)].
  pose proof (empty_nodes_le_empty_yield t). lia.
Qed.

(* the crude bound in the size of the tree: [height_le_tree] weakened by [empty_nodes t <= nodes t], the size being
   [length w + nodes t] ([accepted_fuel_exact]) *)
Corollary height_le_tsize : forall g sts tbl w t fuel,
  validate_sound g sts tbl = true -> no_error_symbol g tbl = true -> tokens_ok g w ->
  tree_run g tbl w fuel = Accept t ->
  never_above tree unit g tbl tree_opts w id_lexer tf (ef g) rlf (tsize t + 1) fuel tt.
Proof.
  intros g sts tbl w t fuel Hv Hne Hw Hacc.
  eapply never_above_mono; [|exact (height_le_tree g sts tbl w t fuel Hv Hne Hw Hacc)].
  destruct (accepted_fuel_exact g sts tbl w t Hv Hne Hw (ex_intro _ fuel Hacc)) as [E _].
  assert (empty_nodes t <= nodes t).
  { clear. induction t as [a|r ch IH] using tree_ind'; [reflexivity|]. cbn [empty_nodes nodes].
    pose proof (lsum_le _ _ _ IH). destruct ch; cbn in *; lia. }
  lia.
Qed.

Print Assumptions mach_height.
Print Assumptions height_le_tree.
Print Assumptions capacity_from_tree_suffices.
Print Assumptions height_le_tree_empty_yield.
Print Assumptions height_le_tsize.
