(* Part of the tie between the hand-written model and the facts tools/source_facts.py read out of ctpg.hpp on this run. *)
(* namespace stdex: the word layout of cbitset and the number of index-checked operations (C01 C03 C06 C12).
   The translator additionally fails closed when the text of any mirrored statement (set / set value / reset / flip / test /
   whole-set loops / add / check_idx; cvector push_back, emplace_back, pop_back, erase clamps, check_not_full; cqueue push / pop;
   the swap test of stdex::sort and its call on rule_infos) differs from the form Model/Containers.v mirrors. *)
Require Import Ctpg.Model.Containers Ctpg.Model.SourceFacts.
From Coq Require Import NArith.

Lemma tie_cb_word_bits : word_bits = N.of_nat sf_cb_word_bits.
Proof. reflexivity. Qed.
Lemma tie_cb_word_mask : word_mask = N.ones (N.of_nat sf_cb_word_bits).
Proof. reflexivity. Qed.
Lemma tie_size_max : size_max = N.ones (N.of_nat sf_cb_word_bits).
Proof. reflexivity. Qed.
(* set(idx), set(idx, value), reset(idx), flip(idx), test(idx): the five operations the mirror guards with `idx <? cb_n b` *)
Lemma tie_cb_guarded_ops : sf_cb_check_idx_calls = 5.
Proof. reflexivity. Qed.
