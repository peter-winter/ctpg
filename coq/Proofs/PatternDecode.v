(* The decoders (regex_char, string_view_to_subset) agree with the scanner: on every lexeme the scanner delivers as
   term 1 they read inside the lexeme only, and the character units they step over are the scanner's.
   (Bytes as at the head of Proofs/PatternLex.v; here also 46 '.' and 48 '0'.) *)
Require Import Ctpg.Base.Prelude Ctpg.Proofs.ListFacts Ctpg.Model.Driver Ctpg.Model.Dfa Ctpg.Model.RegexFront
               Ctpg.Proofs.PatternLex.

(* the decoders with checked reads: None / DOver = a read outside the string view. The tests are made in the order
   of the source: sv.size() is compared before sv[2] / sv[3] is read. *)
Definition regex_char_c (sv : list nat) : option (nat * nat) :=
  match nth_error sv 0 with
  | None => None
  | Some c0 =>
      if Nat.eqb c0 92 then
        match nth_error sv 1 with
        | None => None
        | Some c1 =>
            if Nat.eqb c1 120 then
              if Nat.eqb (length sv) 2 then Some (0, 2) else
              match nth_error sv 2 with
              | None => None
              | Some c2 =>
                  if negb (is_hex_digit c2) then Some (0, 2) else
                  if Nat.eqb (length sv) 3 then Some (hex_digits_to_char 48 c2, 3) else
                  match nth_error sv 3 with
                  | None => None
                  | Some c3 =>
                      if negb (is_hex_digit c3) then Some (hex_digits_to_char 48 c2, 3)
                      else Some (hex_digits_to_char c2 c3, 4)
                  end
              end
            else Some (c1, 2)
        end
      else Some (c0, 1)
  end.

(* result of the set loop: the set and the index of the ']' it stopped at, an out-of-range read, or fuel exhausted *)
Inductive dres := DOk (cs : charset) (stop : nat) | DOver | DFuel.

Fixpoint subset_items_c (fuel : nat) (sv : list nat) (i : nat) (cs : charset) : dres :=
  match fuel with
  | 0 => DFuel
  | S f =>
      match nth_error sv i with
      | None => DOver
      | Some c =>
          if Nat.eqb c 93 then DOk cs i else
          match regex_char_c (skipn i sv) with
          | None => DOver
          | Some (c1, len) =>
              let i1 := i + len in
              match nth_error sv i1 with
              | None => DOver
              | Some d =>
                  if Nat.eqb d 45 then
                    let i2 := S i1 in
                    match regex_char_c (skipn i2 sv) with
                    | None => DOver
                    | Some (c2, _) => subset_items_c f sv i2 (cs_add_range cs c1 c2)
                    end
                  else subset_items_c f sv i1 (update cs c1 true)
              end
          end
      end
  end.

Definition string_view_to_subset_c (sv : list nat) : option charset :=
  match nth_error sv 0 with
  | None => None
  | Some c0 =>
      if Nat.eqb c0 46 then Some (cs_flip cs_empty)
      else if Nat.eqb c0 91 then
        match nth_error sv 1 with
        | None => None
        | Some c1 =>
            let flip := Nat.eqb c1 94 in
            match subset_items_c (S (length sv)) sv (if flip then 2 else 1) cs_empty with
            | DOk cs _ => Some (if flip then cs_flip cs else cs)
            | _ => None
            end
        end
      else match regex_char_c sv with
           | Some (c, _) => Some (update cs_empty c true)
           | None => None
           end
  end.

(* at an exit  Some r0 = Some r -> ...  of the decoder: the result by computation, the bounds from the reads made *)
Ltac exit_here := intros [= <-]; cbn [snd]; split; [reflexivity|lia].

(* a successful checked decode is the model's, and its length lies inside the view *)
Lemma regex_char_c_inv sv r : regex_char_c sv = Some r -> regex_char sv = r /\ 1 <= snd r <= 4 /\ snd r <= length sv.
Proof.
  unfold regex_char_c, regex_char.
  destruct (nth_error sv 0) as [c0|] eqn:E0; [|discriminate].
  rewrite (nth_error_nth _ _ 0 E0). apply nth_error_Some_lt in E0.
  destruct (Nat.eqb c0 92); [|exit_here].
  destruct (nth_error sv 1) as [c1|] eqn:E1; [|discriminate].
  rewrite (nth_error_nth _ _ 0 E1). apply nth_error_Some_lt in E1.
  destruct (Nat.eqb c1 120); [|exit_here].
  destruct (Nat.eqb (length sv) 2); cbn [orb]; [exit_here|].
  destruct (nth_error sv 2) as [c2|] eqn:E2; [|discriminate].
  rewrite (nth_error_nth _ _ 0 E2). apply nth_error_Some_lt in E2.
  destruct (negb (is_hex_digit c2)); [exit_here|].
  destruct (Nat.eqb (length sv) 3); cbn [orb]; [exit_here|].
  destruct (nth_error sv 3) as [c3|] eqn:E3; [|discriminate].
  rewrite (nth_error_nth _ _ 0 E3). apply nth_error_Some_lt in E3.
  destruct (negb (is_hex_digit c3)); exit_here.
Qed.

Lemma regex_char_c_eq sv r : regex_char_c sv = Some r -> regex_char sv = r.
Proof. intros H. apply regex_char_c_inv in H. tauto. Qed.

Lemma subset_items_c_eq f : forall sv i cs cs' stop,
  subset_items_c f sv i cs = DOk cs' stop -> subset_items f sv i cs = cs'.
Proof.
  induction f as [|f IH]; intros sv i cs cs' stop; cbn [subset_items_c subset_items]; [discriminate|].
  destruct (nth_error sv i) as [c|] eqn:Ei; [|discriminate]. rewrite (nth_error_nth _ _ 93 Ei).
  destruct (Nat.eqb c 93); [intros H; inversion H; reflexivity|].
  destruct (regex_char_c (skipn i sv)) as [[c1 len]|] eqn:E1; [|discriminate].
  rewrite (regex_char_c_eq _ _ E1).
  destruct (nth_error sv (i + len)) as [d|] eqn:Ed; [|discriminate]. rewrite (nth_error_nth _ _ 0 Ed).
  destruct (Nat.eqb d 45); [|apply IH].
  destruct (regex_char_c (skipn (S (i + len)) sv)) as [[c2 l2]|] eqn:E2; [|discriminate].
  rewrite (regex_char_c_eq _ _ E2). apply IH.
Qed.

Theorem string_view_to_subset_c_eq sv cs : string_view_to_subset_c sv = Some cs -> string_view_to_subset sv = cs.
Proof.
  unfold string_view_to_subset_c, string_view_to_subset.
  destruct (nth_error sv 0) as [c0|] eqn:E0; [|discriminate]. rewrite (nth_error_nth _ _ 0 E0).
  destruct (Nat.eqb c0 46); [apply some_eq|].
  destruct (Nat.eqb c0 91).
  - destruct (nth_error sv 1) as [c1|] eqn:E1; [|discriminate]. rewrite (nth_error_nth _ _ 0 E1).
    destruct (subset_items_c (S (length sv)) sv (if Nat.eqb c1 94 then 2 else 1) cs_empty) as [cs' stop| |] eqn:Es;
      try discriminate.
    rewrite (subset_items_c_eq _ _ _ _ _ _ Es). apply some_eq.
  - destruct (regex_char_c sv) as [[c l]|] eqn:Ec; [|discriminate]. rewrite (regex_char_c_eq _ _ Ec).
    apply some_eq.
Qed.


(* one iteration of the set loop: on a single character, on a range *)
Lemma items_c_single f sv j c c1 l d cs :
  nth_error sv j = Some c -> c <> 93 -> regex_char_c (skipn j sv) = Some (c1, l) ->
  nth_error sv (j + l) = Some d -> d <> 45 ->
  subset_items_c (S f) sv j cs = subset_items_c f sv (j + l) (update cs c1 true).
Proof.
  intros H1 H2 H3 H4 H5. cbn [subset_items_c]. rewrite H1. destruct (Nat.eqb_spec c 93); [contradiction|].
  rewrite H3, H4. destruct (Nat.eqb_spec d 45); [contradiction|]. reflexivity.
Qed.

Lemma items_c_range f sv j c c1 l c2 l2 cs :
  nth_error sv j = Some c -> c <> 93 -> regex_char_c (skipn j sv) = Some (c1, l) ->
  nth_error sv (j + l) = Some 45 -> regex_char_c (skipn (S (j + l)) sv) = Some (c2, l2) ->
  subset_items_c (S f) sv j cs = subset_items_c f sv (S (j + l)) (cs_add_range cs c1 c2).
Proof.
  intros H1 H2 H3 H4 H5. cbn [subset_items_c]. rewrite H1. destruct (Nat.eqb_spec c 93); [contradiction|].
  rewrite H3, H4, Nat.eqb_refl, H5. reflexivity.
Qed.

(* in a range the decoder continues AT the end character, not behind it: the end character is decoded a second
   time as a single character (or as the start of a further range when a '-' follows,
   see [dash_after_range_sample]) *)
Lemma range_end_decoded_twice f sv j c c1 l c' c2 l2 d cs :
  nth_error sv j = Some c -> c <> 93 -> regex_char_c (skipn j sv) = Some (c1, l) ->
  nth_error sv (j + l) = Some 45 ->
  nth_error sv (S (j + l)) = Some c' -> c' <> 93 -> regex_char_c (skipn (S (j + l)) sv) = Some (c2, l2) ->
  nth_error sv (S (j + l) + l2) = Some d -> d <> 45 ->
  subset_items_c (S (S f)) sv j cs = subset_items_c f sv (S (j + l) + l2) (update (cs_add_range cs c1 c2) c2 true).
Proof.
  intros H1 H2 H3 H4 H5 H6 H7 H8 H9. rewrite (items_c_range _ _ _ _ _ _ _ _ _ H1 H2 H3 H4 H7).
  exact (items_c_single _ _ _ _ _ _ _ _ H5 H6 H7 H8 H9).
Qed.

(* the positions the set loop visits: starts of decoder characters up to the closing bracket *)
Inductive decoder_path (sv : list nat) : nat -> Prop :=
| DpEnd j : nth_error sv j = Some 93 -> S j = length sv -> decoder_path sv j
| DpStep j c ch ul : nth_error sv j = Some c -> c <> 93 -> regex_char_c (skipn j sv) = Some (ch, ul) ->
                     decoder_path sv (j + ul) -> decoder_path sv j.

Lemma decoder_path_read sv j : decoder_path sv j -> exists d, nth_error sv j = Some d.
Proof. intros [j' H1 H2|j' c ch ul H1 H2 H3 H4]; eauto. Qed.

Lemma regex_char_c_plain sv c : nth_error sv 0 = Some c -> c <> 92 -> regex_char_c sv = Some (c, 1).
Proof. intros H Hc. unfold regex_char_c. rewrite H. destruct (Nat.eqb_spec c 92); [contradiction|reflexivity]. Qed.

Lemma decoder_path_char sv j : decoder_path sv j -> exists ch ul, regex_char_c (skipn j sv) = Some (ch, ul).
Proof.
  intros Hu. inversion Hu as [j' H1 H2|j' c ch ul H1 H2 H3 H4]; subst j'; [|eauto].
  exists 93, 1. apply regex_char_c_plain; [|lia]. rewrite nth_error_skipn, Nat.add_0_r. exact H1.
Qed.

Lemma decoder_path_dash sv j : decoder_path sv j -> nth_error sv j = Some 45 -> decoder_path sv (S j).
Proof.
  intros Hu Hd. inversion Hu as [j' H1 H2|j' c ch ul H1 H2 H3 H4]; subst j'; [congruence|].
  rewrite (regex_char_c_plain (skipn j sv) 45) in H3.
  - inversion H3; subst. rewrite Nat.add_1_r in H4. exact H4.
  - rewrite nth_error_skipn, Nat.add_0_r. exact Hd.
  - lia.
Qed.

(* on a string view segmented that way the loop reads in range, does not run out of fuel, and stops at the last byte *)
Lemma subset_items_c_decoder_path sv f : forall j cs, decoder_path sv j -> length sv - j < f ->
  exists cs', subset_items_c f sv j cs = DOk cs' (length sv - 1).
Proof.
  induction f as [|f IH]; intros j cs Hu Hf; [lia|].
  destruct Hu as [j H1 H2|j c ch ul H1 H2 H3 H4].
  - cbn [subset_items_c]. rewrite H1, Nat.eqb_refl. exists cs. f_equal. lia.
  - destruct (regex_char_c_inv _ _ H3) as [_ Hl]. cbn [snd] in Hl.
    destruct (decoder_path_read _ _ H4) as (d & Hd). pose proof (nth_error_Some_lt _ _ _ Hd) as Hlt.
    destruct (Nat.eq_dec d 45) as [->|Hne].
    + pose proof (decoder_path_dash _ _ H4 Hd) as H5. destruct (decoder_path_char _ _ H5) as (c2 & l2 & Hc2).
      rewrite (items_c_range _ _ _ _ _ _ _ _ _ H1 H2 H3 Hd Hc2).
      destruct (decoder_path_read _ _ H5) as (d2 & Hd2). apply nth_error_Some_lt in Hd2. apply IH; [assumption|lia].
    + rewrite (items_c_single _ _ _ _ _ _ _ _ H1 H2 H3 Hd Hne). apply IH; [assumption|lia].
Qed.

Section View.
  Variable p : list nat.
  Notation E := (length p).
  Notation pr := (pr p).

  (* the m bytes of p from a *)
  Definition view (a m : nat) : list nat := firstn m (skipn a p).

  Lemma view_length a m : a + m <= E -> length (view a m) = m.
  Proof. intros H. unfold view. rewrite firstn_length, skipn_length. lia. Qed.

  (* x, y : a position of the pattern and its offset in the view, tied by an equation left to the caller's arithmetic *)
  Lemma view_at i n x y : x = i + y -> y < n -> i + n <= E -> nth_error (view i n) y = Some (pr x).
  Proof.
    intros -> Hy H. unfold view, PatternLex.pr. rewrite nth_error_firstn_lt by exact Hy.
    rewrite nth_error_skipn. apply nth_error_nth'. lia.
  Qed.

  Lemma view_skipn a m j : skipn j (view a m) = view (a + j) (m - j).
  Proof. unfold view. rewrite skipn_firstn_comm, skipn_add. reflexivity. Qed.

  (* a unit of the scanner is a character of the decoder, with the same length *)
  Lemma unit_regex_char a l m : unit_at p a l -> l <= m -> a + m <= E ->
    exists c, regex_char_c (view a m) = Some (c, l).
  Proof.
    intros Hu Hl Hm. unfold regex_char_c.
    assert (Hv : forall k, k < m -> nth_error (view a m) k = Some (pr (a + k))) by (intros; apply view_at; lia).
    rewrite (view_length a m Hm).
    destruct Hu as [H1 H2 H3|H1 H2 H3 H4|H1 H2 H3].
    - rewrite Hv by lia. rewrite Nat.add_0_r. destruct (Nat.eqb_spec (pr a) 92); [contradiction|]. eauto.
    - rewrite Hv by lia. rewrite Nat.add_0_r, H1, Nat.eqb_refl.
      rewrite Hv by lia. rewrite Nat.add_1_r. destruct (Nat.eqb_spec (pr (S a)) 120); [contradiction|]. eauto.
    - pose proof (xlen_bounds _ _ H2) as Hb.
      rewrite Hv by lia. rewrite Nat.add_0_r, H1, Nat.eqb_refl.
      rewrite Hv by lia. rewrite Nat.add_1_r, H3, Nat.eqb_refl.
      (* the view may end where the pattern goes on: the decoder stops at its end, the scanner at a byte that is no hex digit *)
      unfold xlen in *.
      destruct (Nat.eqb_spec m 2); [destruct (is_hex_digit (pr (a + 2))); [destruct (is_hex_digit (pr (a + 3))); lia|eauto]|].
      rewrite Hv by lia. destruct (is_hex_digit (pr (a + 2))); cbn [negb]; [|eauto].
      destruct (Nat.eqb_spec m 3); [destruct (is_hex_digit (pr (a + 3))); [lia|eauto]|].
      rewrite Hv by lia. destruct (is_hex_digit (pr (a + 3))); cbn [negb]; eauto.
  Qed.

  Lemma view_unit_char i n x y l : x = i + y -> unit_at p x l -> y + l <= n -> i + n <= E ->
    exists c, regex_char_c (skipn y (view i n)) = Some (c, l).
  Proof. intros -> Hu Hl Hn. rewrite view_skipn. apply unit_regex_char; [exact Hu|lia|lia]. Qed.

  (* the scanner's set body is segmented into decoder characters *)
  (* y, y' : the offsets of a and of a + l in the view, left to the caller's arithmetic *)
  Lemma decoder_path_unit i n a l y y' : y = a - i -> y' = a + l - i ->
    unit_at p a l -> pr a <> 93 -> i <= a -> a + l <= i + n -> i + n <= E ->
    decoder_path (view i n) y' -> decoder_path (view i n) y.
  Proof.
    intros -> -> Hu H93 Hi Hl Hn Hnext. pose proof (unit_at_bounds _ _ _ Hu) as Hb.
    destruct (view_unit_char i n a (a - i) l ltac:(lia) Hu ltac:(lia) Hn) as (ch & Hch).
    apply DpStep with (c := pr a) (ch := ch) (ul := l).
    - apply view_at; lia.
    - exact H93.
    - exact Hch.
    - replace (a - i + l) with (a + l - i) by lia. exact Hnext.
  Qed.

  Lemma items_decoder_path i n a k : items_to p a k -> i <= a -> n = S k - i -> decoder_path (view i n) (a - i).
  Proof.
    induction 1 as [a H1 H2|a il k H1 H2 H3 H4 IH]; intros Hi Hn.
    - apply DpEnd.
      + rewrite <- H2. apply view_at; lia.
      + rewrite view_length by lia. lia.
    - pose proof (items_to_bounds _ _ _ H4) as Hb.
      specialize (IH ltac:(lia) Hn).
      destruct (item_true p a il ltac:(lia) H3) as [l1 Hu Hnd|l1 rl Hu H45 Hlt H93 Hu2].
      + apply (decoder_path_unit i n a l1 _ _ eq_refl eq_refl); auto; lia.
      + pose proof (unit_at_bounds _ _ _ Hu) as Hb1. pose proof (unit_at_bounds _ _ _ Hu2) as Hb2.
        assert (Hdash : unit_at p (a + l1) 1).
        { apply UPlain; [lia|rewrite H45; lia|rewrite H45; reflexivity]. }
        apply (decoder_path_unit i n a l1 _ _ eq_refl eq_refl); auto; try lia.
        apply (decoder_path_unit i n (a + l1) 1 _ (S (a + l1) - i) eq_refl); auto; try lia.
        apply (decoder_path_unit i n (S (a + l1)) rl _ (a + (l1 + 1 + rl) - i) eq_refl); auto; lia.
  Qed.

  (* the lexeme of a term-1 token, as the string view handed to string_view_to_subset *)
  Definition lexeme (i len : nat) : list nat := slice_of p i (i + len).

  Lemma lexeme_view i len : lexeme i len = view i len.
  Proof. unfold lexeme, view, slice_of. f_equal. lia. Qed.

  (* a set lexeme: the loop starts behind "[" or "[^", reads inside the lexeme only, and the ']' it stops at is the
     lexeme's last byte *)
  Theorem set_decoder_in_range i len : lex_at p i = Tok 1 len -> pr i = 91 ->
    exists cs, subset_items_c (S len) (lexeme i len) (set_hd p i) cs_empty = DOk cs (len - 1) /\
               subset_items (S len) (lexeme i len) (set_hd p i) cs_empty = cs /\
               nth_error (lexeme i len) (len - 1) = Some 93 /\ length (lexeme i len) = len.
  Proof.
    intros H H91. rewrite lexeme_view. destruct (lex_at_set _ _ _ _ H H91) as (_ & k & Hc & ->).
    pose proof (items_to_bounds _ _ _ Hc) as Hb'. pose proof (set_hd_bounds p i) as Hs.
    pose proof (items_decoder_path i (S k - i) _ _ Hc ltac:(lia) eq_refl) as Hu.
    replace (i + set_hd p i - i) with (set_hd p i) in Hu by lia.
    destruct (subset_items_c_decoder_path (view i (S k - i)) (S (S k - i)) (set_hd p i) cs_empty Hu) as (cs & Hcs).
    { rewrite view_length by lia. lia. }
    rewrite view_length in Hcs by lia. exists cs. split; [exact Hcs|]. split; [apply (subset_items_c_eq _ _ _ _ _ _ Hcs)|].
    split; [|apply view_length; lia].
    replace 93 with (pr k) by tauto. apply view_at; lia.
  Qed.

  (* every term-1 lexeme: no read outside the lexeme, and the checked decoder computes the model's set *)
  Theorem decoder_in_range i len : lex_at p i = Tok 1 len ->
    string_view_to_subset_c (lexeme i len) = Some (string_view_to_subset (lexeme i len)).
  Proof.
    intros H.
    assert (Hex : exists cs, string_view_to_subset_c (lexeme i len) = Some cs).
    { pose proof (lex_at_in_range _ _ _ _ H) as (Hl1 & Hl2 & _).
      pose proof (lex_at_tok1 _ _ _ H) as Hp.
      unfold string_view_to_subset_c.
      assert (H0 : nth_error (lexeme i len) 0 = Some (pr i)).
      { rewrite lexeme_view. apply view_at; lia. }
      rewrite H0. destruct (Nat.eqb_spec (pr i) 46) as [H46|H46]; [eauto|].
      destruct (Nat.eqb_spec (pr i) 91) as [H91|H91].
      - destruct (set_decoder_in_range i len H H91) as (cs & Hcs & _ & _ & Hlen).
        pose proof (lexeme_set_closed _ _ _ _ H H91) as (H2 & _).
        assert (H1 : nth_error (lexeme i len) 1 = Some (pr (S i))).
        { rewrite lexeme_view. apply view_at; lia. }
        rewrite H1, Hlen.
        replace (if Nat.eqb (pr (S i)) 94 then 2 else 1) with (set_hd p i) by reflexivity.
        rewrite Hcs. eauto.
      - pose proof (prim_at_unit _ _ _ Hp H91) as Hu. rewrite lexeme_view. destruct (unit_regex_char i len len Hu (Nat.le_refl _) Hl2) as (c & Hc). rewrite Hc. eauto. }
    destruct Hex as (cs & Hcs). rewrite Hcs. f_equal. symmetry. apply string_view_to_subset_c_eq. exact Hcs.
  Qed.

  (* an escape the scanner measured with match_escaped has that length for regex_char, whatever string view
     (of at least that length, inside the pattern) it is read through *)
  Theorem escaped_len_agrees a l m : a <= E -> match_escaped p a 0 = LOk true l -> l <> 0 -> l <= m -> a + m <= E ->
    regex_char_c (view a m) = Some (regex_char (view a m)) /\ snd (regex_char (view a m)) = l.
  Proof.
    intros Ha He Hl Hm HE. pose proof (esc_unit p a Ha) as Hu. rewrite He in Hu.
    destruct (Nat.eqb_spec l 0); [contradiction|]. destruct Hu as [_ Hu].
    destruct (unit_regex_char a l m Hu Hm HE) as (c & Hc). rewrite Hc, (regex_char_c_eq _ _ Hc). auto.
  Qed.

  (* no escape (match_escaped leaves the length 0): one byte, itself *)
  Theorem plain_len_agrees a m : a <= E -> match_escaped p a 0 = LOk true 0 -> 1 <= m -> a + m <= E ->
    regex_char_c (view a m) = Some (pr a, 1) /\ regex_char (view a m) = (pr a, 1).
  Proof.
    intros Ha He Hm HE. pose proof (esc_unit p a Ha) as Hu. rewrite He in Hu. cbn [Nat.eqb] in Hu.
    assert (Hc : regex_char_c (view a m) = Some (pr a, 1)).
    { apply regex_char_c_plain; [apply view_at; lia|exact Hu]. }
    split; [exact Hc|]. apply regex_char_c_eq. exact Hc.
  Qed.

  (* one item of the scanner inside a set lexeme view, not directly followed by '-': the decoder is at the item's end
     after one iteration (single character) or two (range: the end character is decoded a second time,
     [range_end_decoded_twice]) *)
  Theorem item_boundary_agrees i n a il k cs :
    i <= a -> n = S k - i -> a < E -> pr a <> 93 -> match_range_item p a = LOk true il -> items_to p (a + il) k ->
    pr (a + il) <> 45 ->
    exists iters cs', 1 <= iters <= 2 /\
      forall f, subset_items_c (iters + f) (view i n) (a - i) cs = subset_items_c f (view i n) (a + il - i) cs'.
  Proof.
    intros Hi Hn HaE H93 Hit Hits Hnd.
    pose proof (items_to_bounds _ _ _ Hits) as Hb.
    destruct (item_true p a il ltac:(lia) Hit) as [l1 Hu Hnd'|l1 rl Hu H45 Hlt H93' Hu2].
    - destruct (view_unit_char i n a (a - i) l1 ltac:(lia) Hu ltac:(lia) ltac:(lia)) as (c1 & Hc1).
      exists 1, (update cs c1 true). split; [lia|]. intros f.
      replace (a + l1 - i) with (a - i + l1) by lia.
      eapply items_c_single; [apply (view_at i n a); lia|exact H93|exact Hc1|apply (view_at i n (a + l1)); lia|exact Hnd].
    - pose proof (unit_at_bounds _ _ _ Hu) as Hb1. pose proof (unit_at_bounds _ _ _ Hu2) as Hb2.
      destruct (view_unit_char i n a (a - i) l1 ltac:(lia) Hu ltac:(lia) ltac:(lia)) as (c1 & Hc1).
      destruct (view_unit_char i n (S (a + l1)) (S (a - i + l1)) rl ltac:(lia) Hu2 ltac:(lia) ltac:(lia)) as (c2 & Hc2).
      exists 2, (update (cs_add_range cs c1 c2) c2 true). split; [lia|]. intros f.
      replace (a + (l1 + 1 + rl) - i) with (S (a - i + l1) + rl) by lia.
      eapply range_end_decoded_twice;
        [apply (view_at i n a); lia|exact H93|exact Hc1|rewrite <- H45; apply (view_at i n (a + l1)); lia
        |apply (view_at i n (S (a + l1))); lia|exact H93'|exact Hc2|apply (view_at i n (a + (l1 + 1 + rl))); lia|exact Hnd].
  Qed.
End View.

(* the decoder applied by the term functor of the pattern parse: the lexeme of a term-1 token the driver shifts *)
Theorem term1_decoder_in_range pat start c rest v sp len :
  skipn start pat = c :: rest -> snd (regex_lexer v sp (c :: rest)) = Some (1, len) ->
  string_view_to_subset_c (slice_of pat start (start + len)) = Some (string_view_to_subset (slice_of pat start (start + len))).
Proof.
  intros Hsk Hl. apply regex_lexer_inv in Hl. pose proof (decoder_in_range (c :: rest) 0 len Hl) as H.
  unfold lexeme, slice_of in *. cbn [Nat.add skipn] in H. rewrite Nat.sub_0_r in H.
  replace (start + len - start) with len by lia. rewrite Hsk. exact H.
Qed.

(* a reversed range adds nothing as a range; only its end character gets into the set *)
Lemma cs_add_range_reversed cs c1 c2 : c2 < c1 -> cs_add_range cs c1 c2 = cs.
Proof. intros H. unfold cs_add_range. replace (S c2 - c1) with 0 by lia. reflexivity. Qed.

Lemma reversed_range_is_end_char f sv j c c1 l c' c2 l2 d cs :
  nth_error sv j = Some c -> c <> 93 -> regex_char_c (skipn j sv) = Some (c1, l) ->
  nth_error sv (j + l) = Some 45 ->
  nth_error sv (S (j + l)) = Some c' -> c' <> 93 -> regex_char_c (skipn (S (j + l)) sv) = Some (c2, l2) ->
  nth_error sv (S (j + l) + l2) = Some d -> d <> 45 -> c2 < c1 ->
  subset_items_c (S (S f)) sv j cs = subset_items_c f sv (S (j + l) + l2) (update cs c2 true).
Proof.
  intros H1 H2 H3 H4 H5 H6 H7 H8 H9 Hlt.
  rewrite (range_end_decoded_twice f sv j c c1 l c' c2 l2 d cs) by assumption.
  now rewrite cs_add_range_reversed.
Qed.

Definition cs_members (cs : charset) : list nat := filter (fun c => nth c cs false) (seq 0 256).

(* "[b-a]" is scanned as one term-1 token and denotes {a}; "[a-b]" denotes {a, b} *)
Example reversed_range_sample :
  lex_at [91; 98; 45; 97; 93] 0 = Tok 1 5 /\
  cs_members (string_view_to_subset [91; 98; 45; 97; 93]) = [97] /\
  cs_members (string_view_to_subset [91; 97; 45; 98; 93]) = [97; 98].
Proof. vm_compute. repeat split. Qed.

(* \x without hex digits denotes byte 0 *)
Lemma regex_char_x_nohex rest :
  rest = [] \/ is_hex_digit (hd 0 rest) = false -> regex_char (92 :: 120 :: rest) = (0, 2).
Proof.
  intros H. unfold regex_char. cbn [nth Nat.eqb length].
  destruct H as [->|H]; [reflexivity|]. destruct rest as [|c2 rest]; [reflexivity|]. cbn [hd] in H.
  cbn [nth length]. rewrite H. cbn [negb]. now rewrite orb_true_r.
Qed.

Example x_nohex_sample :
  lex_at [92; 120] 0 = Tok 1 2 /\ cs_members (string_view_to_subset [92; 120]) = [0] /\
  lex_at [92; 120; 103] 0 = Tok 1 2 /\
  cs_members (string_view_to_subset [91; 92; 120; 93]) = [0] /\
  cs_members (string_view_to_subset [92; 120; 52]) = [4] /\ cs_members (string_view_to_subset [92; 120; 52; 49]) = [65].
Proof. vm_compute. repeat split. Qed.

(* COUNTEREXAMPLE to "the decoder's item boundaries coincide with the scanner's item by item":
   in "[a-b-c]" the scanner sees the items  a-b , - , c  (boundaries 1, 4, 5, closing bracket at 6) and accepts;
   the decoder, standing on the 'b' after the first range, takes the following '-' for a range operator: it visits
   1, 3, 5, 6 and the set is {a, b, c}: the literal '-' the scanner accepted is not in it.  (Both end on the closing
   bracket, and every read is inside the lexeme: set_decoder_in_range.)  The same with "[a-b-]": the scanner's last
   item is a literal '-', the decoder builds the (empty, reversed) range b-']' instead. *)
Example dash_after_range_sample :
  let p := [91; 97; 45; 98; 45; 99; 93] in
  lex_at p 0 = Tok 1 7 /\
  match_range_item p 1 = LOk true 3 /\ match_range_item p 4 = LOk true 1 /\ match_range_item p 5 = LOk true 1 /\
  (forall f cs, subset_items_c (S f) p 1 cs = subset_items_c f p 3 (cs_add_range cs 97 98)) /\
  (forall f cs, subset_items_c (S f) p 3 cs = subset_items_c f p 5 (cs_add_range cs 98 99)) /\
  cs_members (string_view_to_subset p) = [97; 98; 99] /\
  lex_at [91; 97; 45; 98; 45; 93] 0 = Tok 1 6 /\
  cs_members (string_view_to_subset [91; 97; 45; 98; 45; 93]) = [97; 98].
Proof.
  cbv zeta. set (p := [91; 97; 45; 98; 45; 99; 93]).
  (* the conjunction is taken apart by hand: [split] on an equation between closed terms first tries to close it by
     unification, which evaluates scanner and decoder lazily *)
  refine (conj _ (conj _ (conj _ (conj _ (conj _ (conj _ (conj _ (conj _ _)))))))).
  5: exact (fun f cs => items_c_range f p 1 97 97 1 98 1 cs eq_refl ltac:(discriminate) eq_refl eq_refl eq_refl).
  5: exact (fun f cs => items_c_range f p 3 98 98 1 99 1 cs eq_refl ltac:(discriminate) eq_refl eq_refl eq_refl).
  all: vm_compute; reflexivity.
Qed.

Print Assumptions decoder_in_range.
Print Assumptions set_decoder_in_range.
Print Assumptions term1_decoder_in_range.
Print Assumptions escaped_len_agrees.
Print Assumptions item_boundary_agrees.
Print Assumptions range_end_decoded_twice.
Print Assumptions reversed_range_is_end_char.
Print Assumptions regex_char_x_nohex.
