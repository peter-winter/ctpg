(* C19: the helper functors pick exactly the documented positions, for every arity, and read nothing else. *)
Require Import Ctpg.Base.Prelude Ctpg.Proofs.ListFacts Ctpg.Model.Helpers.

Section C19.
  Variable V : Type.

  Lemma pick_after_eq k (args : list V) :
    pick_after V k args = match nth_error args k with Some x => Some (x, skipn (S k) args) | None => None end.
  Proof. unfold pick_after. revert args. induction k as [|k IH]; intros [|a args]; try reflexivity. apply IH. Qed.

  (* _eN returns the N-th right-side value (1-based), unchanged. The C++ has no _e0; in the model x = 0 reads position 0
     like x = 1 (x - 1 truncates), so the proof has no use for the hypothesis. *)
  Theorem element_is_nth x (args : list V) : 1 <= x -> element V x args = nth_error args (x - 1).
  Proof. intros _. unfold element. rewrite pick_after_eq. destruct (nth_error args (x - 1)); reflexivity. Qed.

  (* it inspects no other argument: replacing any other position leaves the result unchanged *)
  Theorem element_reads_only_its_position x (args args' : list V) :
    1 <= x -> nth_error args (x - 1) = nth_error args' (x - 1) -> element V x args = element V x args'.
  Proof. intros Hx H. rewrite !element_is_nth by assumption. exact H. Qed.

  Theorem construct_is_mk_nth mk i (args : list V) : 1 <= i -> construct V mk i args = option_map mk (nth_error args (i - 1)).
  Proof. intros H. unfold construct. rewrite element_is_nth by assumption. reflexivity. Qed.

  (* two skip lists in a row: positions lo < hi, counted from 1 *)
  Lemma pick_two {B} (K : V -> V -> option B) lo hi (args : list V) : 1 <= lo < hi ->
    match pick_after V (lo - 1) args with
    | None => None
    | Some (first, rest) => match pick_after V (hi - lo - 1) rest with None => None | Some (second, _) => K first second end
    end = match nth_error args (lo - 1), nth_error args (hi - 1) with Some x, Some y => K x y | _, _ => None end.
  Proof.
    intros H. rewrite pick_after_eq. destruct (nth_error args (lo - 1)); [|reflexivity].
    rewrite pick_after_eq, nth_error_skipn. replace (S (lo - 1) + (hi - lo - 1)) with (hi - 1) by lia.
    destruct (nth_error args (hi - 1)); reflexivity.
  Qed.

  (* push_back<C,A> / emplace_back<C,A>, C <> A, container before or after the element *)
  Theorem append_to_picks_C_and_A app c a (args : list V) :
    1 <= c -> 1 <= a -> c <> a ->
    append_to V app c a args =
    match nth_error args (c - 1), nth_error args (a - 1) with
    | Some cont, Some x => Some (app cont x)
    | _, _ => None
    end.
  Proof.
    intros Hc Ha Hne. unfold append_to. cbv zeta. rewrite pick_two by lia.
    destruct (Nat.ltb_spec c a).
    - rewrite Nat.min_l, Nat.max_r by lia. reflexivity.
    - rewrite Nat.min_r, Nat.max_l by lia. destruct (nth_error args (a - 1)), (nth_error args (c - 1)); reflexivity.
  Qed.

  Theorem append_to_reads_only_C_and_A app c a (args args' : list V) :
    1 <= c -> 1 <= a -> c <> a ->
    nth_error args (c - 1) = nth_error args' (c - 1) -> nth_error args (a - 1) = nth_error args' (a - 1) ->
    append_to V app c a args = append_to V app c a args'.
  Proof. intros Hc Ha Hne E1 E2. rewrite !append_to_picks_C_and_A by assumption. rewrite E1, E2. reflexivity. Qed.

  Theorem val_ignores_arguments v (args args' : list V) : val V v args = val V v args' /\ val V v args = v.
  Proof. split; reflexivity. Qed.
  Theorem create_ignores_arguments d (args args' : list V) : create V d args = create V d args' /\ create V d args = d.
  Proof. split; reflexivity. Qed.
End C19.

(* non-vacuity: arity 5, container at 4, element at 2 *)
Example append_example : append_to (list nat) (fun c x => c ++ x) 4 2 [[1]; [2]; [3]; [40]; [5]] = Some [40; 2].
Proof. reflexivity. Qed.
