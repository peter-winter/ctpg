(* Completeness of the LR machine relative to a set [bad] of (rule, lookahead) pairs whose reduction the table may
   lack (the cells where a shift/reduce conflict was resolved in favour of the shift): every derivation tree that
   never needs such a reduction ([tok]) is run by the abstract machine in exactly (number of leaves + number of
   nodes + 1) steps. With [bad = fun _ _ => false] this is the completeness of the full validator
   (Proofs/LRComplete.v); Proofs/PatternCompleteTrees.v uses it for the pattern grammar, whose table has the resolved
   conflict of  alt -> alt '|' alt .
   The induction over the tree (Section Loop) is done for any machine [runs] describes, and in two forms: the tree
   is run to its end ([parses_all]), or down to its first leaf ([reaches_all]; the machine with error recovery of
   Proofs/TermRecMachine.v rests on it). *)
Require Import Ctpg.Base.Prelude Ctpg.Proofs.ListFacts Ctpg.Model.Grammar Ctpg.Model.LRGen Ctpg.Model.Driver
               Ctpg.Spec.Cfg Ctpg.Valid.LRValid Ctpg.Proofs.LRReflect Ctpg.Proofs.LRMachine Ctpg.Proofs.LRValidFacts
               Ctpg.Proofs.LRSound.

(* [table_ok] of Valid/LRValid.v, except that a completed item whose (rule, lookahead) is in [bad] need not have its
   reduction in the table. The disjunct is put in so that reduce_okx (fun _ _ => false) computes to reduce_ok:
   LRComplete.complete_facts_of passes a proof of table_ok for one of table_okx. *)
Section CheckX.
  Variable bad : nat -> nat -> bool.      (* r_idx of the rule, lookahead term *)
  Variable g : grammar.
  Variable sts : list items.
  Variable tbl : table.

  Definition reduce_okx (s : nat) : bool :=
    forallb (fun i =>
      if is_complete g i then
        let e := cell_at tbl s (col_of_term g (it_t i)) in
        if Nat.eqb (it_r i) (root_rule_idx g)
        then kind_eqb (e_kind e) KSuccess && Nat.eqb (it_t i) (eof_idx g)
        else bad (ri_r (get_ri g (it_r i))) (it_t i) ||
             (kind_eqb (e_kind e) KReduce && match e_arg e with Some r => Nat.eqb r (it_r i) | None => false end)
      else true) (state_items sts s).

  Definition table_okx (ne : bset) (nf : list bset) : bool :=
    table_sound_ok g sts tbl && tables_closed g ne nf &&
    forallb (fun s => closure_ok g sts ne nf s && goto_ok g sts tbl s && reduce_okx s) (seq 0 (length sts)).
End CheckX.

Definition validate_except (bad : nat -> nat -> bool) (g : grammar) (sts : list items) (tbl : table) : bool :=
  let ne := nterm_empty g in
  let nf := nterm_first g ne in
  table_okx bad g sts tbl ne nf.

Record completex_facts (bad : nat -> nat -> bool) (g : grammar) (sts : list items) (tbl : table) (ne : bset) (nf : list bset) : Prop := {
  cx_sound : sound_facts g sts tbl;
  cx_len_nf : length nf = nterm_count g;
  cx_nf_len : forall f, In f nf -> length f = term_count g;
  cx_null_closed : forall ri, In ri (rule_infos g) ->
      all_nullable ne (get_rhs g (ri_r ri)) = true -> bset_test ne (ri_l ri) = true;
  cx_first_closed : forall ri t, In ri (rule_infos g) -> t < term_count g ->
      bset_test (first_of_syms g ne nf (bset_empty (term_count g)) (get_rhs g (ri_r ri))) t = true ->
      bset_test (nth (ri_l ri) nf []) t = true;
  cx_closure : forall s i b, s < length sts -> In i (state_items sts s) ->
      next_sym g i = Some (NT b) -> is_complete g i = false ->
      forall k t', k < snd (nth b (slices g) (0, 0)) -> t' < term_count g ->
        bset_test (first_tail g ne nf (skipn (S (it_d i)) (rhs_of g i)) (it_t i)) t' = true ->
        In (mkItem (fst (nth b (slices g) (0, 0)) + k) 0 t') (state_items sts s);
  cx_goto : forall s i, s < length sts -> In i (state_items sts s) -> is_complete g i = false ->
      exists x s', next_sym g i = Some x /\ goto_target g tbl s x = Some s' /\ s' < length sts /\
                   In (mkItem (it_r i) (S (it_d i)) (it_t i)) (state_items sts s');
  cx_reduce : forall s i, s < length sts -> In i (state_items sts s) -> is_complete g i = true ->
      (it_r i = root_rule_idx g -> e_kind (cell_at tbl s (nterm_count g + it_t i)) = KSuccess) /\
      (it_r i <> root_rule_idx g -> bad (ri_r (get_ri g (it_r i))) (it_t i) = false ->
       e_kind (cell_at tbl s (nterm_count g + it_t i)) = KReduce /\
       e_arg (cell_at tbl s (nterm_count g + it_t i)) = Some (it_r i))
}.
Arguments cx_sound {bad g sts tbl ne nf}. Arguments cx_null_closed {bad g sts tbl ne nf}.
Arguments cx_first_closed {bad g sts tbl ne nf}. Arguments cx_closure {bad g sts tbl ne nf}.
Arguments cx_goto {bad g sts tbl ne nf}. Arguments cx_reduce {bad g sts tbl ne nf}.

Lemma completex_facts_of bad g sts tbl ne nf : table_okx bad g sts tbl ne nf = true -> completex_facts bad g sts tbl ne nf.
Proof.
  unfold table_okx, tables_closed.
  intros ((Hs & (((_ & Lnf%Nat.eqb_eq)%andb_prop & Hfl)%andb_prop & Hcl)%andb_prop)%andb_prop & Hst)%andb_prop.
  rewrite forallb_seq0 in Hst. rewrite forallb_forall in Hfl, Hcl.
  assert (Hst3 : forall s, s < length sts ->
            closure_ok g sts ne nf s = true /\ goto_ok g sts tbl s = true /\ reduce_okx bad g sts tbl s = true).
  { intros s Hlt. destruct (andb_prop _ _ (Hst s Hlt)) as [H Hr]. apply andb_prop in H. tauto. }
  constructor.
  - exact (sound_facts_of g sts tbl Hs).
  - exact Lnf.
  - intros f Hf. apply Nat.eqb_eq, Hfl, Hf.
  - intros ri Hri Hn. destruct (andb_prop _ _ (Hcl ri Hri)) as [H _]. rewrite Hn in H. exact H.
  - intros ri t Hri Ht Hb. destruct (andb_prop _ _ (Hcl ri Hri)) as [_ H].
    rewrite forallb_seq0 in H. specialize (H t Ht). rewrite Hb in H. exact H.
  - intros s i b Hlt. exact (closure_ok_closed g sts ne nf s i b (proj1 (Hst3 s Hlt))).
  - intros s i Hlt Hi Hic. destruct (Hst3 s Hlt) as (_ & Hc & _).
    unfold goto_ok in Hc. rewrite forallb_forall in Hc. specialize (Hc i Hi). rewrite Hic in Hc.
    destruct (next_sym g i) as [x|]; [|discriminate]. destruct (goto_target g tbl s x) as [s'|] eqn:Eg; [|discriminate].
    apply andb_prop in Hc as [Hc1%Nat.ltb_lt Hc2%mem_item_In]. exists x, s'. auto.
  - intros s i Hlt Hi Hic. destruct (Hst3 s Hlt) as (_ & _ & Hc).
    unfold reduce_okx in Hc. rewrite forallb_forall in Hc. specialize (Hc i Hi). rewrite Hic in Hc.
    unfold col_of_term in Hc. split.
    + intros Hr%Nat.eqb_eq. rewrite Hr in Hc. apply kind_eqb_eq. exact (proj1 (andb_prop _ _ Hc)).
    + intros Hr%Nat.eqb_neq Hbad. rewrite Hr, Hbad in Hc.
      apply andb_prop in Hc as [Hc1%kind_eqb_eq Hc2]. split; [exact Hc1|].
      destruct (e_arg (cell_at tbl s (nterm_count g + it_t i))) as [r|]; [|discriminate].
      apply Nat.eqb_eq in Hc2. congruence.
Qed.

(* number of machine steps a tree costs: one shift per leaf, one reduction per node *)
Fixpoint tsize (t : tree) : nat :=
  match t with
  | Leaf _ => 1
  | Node _ ch => S (list_sum (map tsize ch))
  end.

(* [run n c c']: n moves of a machine that makes the reductions of [mstep], and its shifts of the terms in P.
   The completeness argument is the same for each such machine: [msteps] itself, and the machine with error
   recovery of Proofs/TermRecMachine.v, where the reductions alone are followed (P empty). *)
Record runs (g : grammar) (tbl : table) (P : nat -> Prop) (run : nat -> cfg -> cfg -> Prop) : Prop := {
  run_P : forall a, P a -> a < eof_idx g;
  run_0 : forall c, run 0 c c;
  run_trans : forall n m c1 c2 c3, run n c1 c2 -> run m c2 c3 -> run (n + m) c1 c3;
  run_mstep : forall cur ss trs rest e c',
      cell tbl cur (nterm_count g + look g rest) = inl e -> e_kind e = KReduce \/ P (look g rest) ->
      mstep g tbl (cur :: ss, trs, rest) = Next c' -> run 1 (cur :: ss, trs, rest) c'
}.

Arguments run_P {g tbl P run}. Arguments run_0 {g tbl P run}.
Arguments run_trans {g tbl P run}. Arguments run_mstep {g tbl P run}.

Lemma msteps_runs g tbl : runs g tbl (fun a => a < eof_idx g) (msteps g tbl).
Proof.
  constructor; [auto|reflexivity|apply msteps_trans|].
  intros cur ss trs rest e c' _ _ H. exists c'. split; [exact H|reflexivity].
Qed.

Section CompleteX.
  Variable bad : nat -> nat -> bool.
  Variable g : grammar.
  Variable sts : list items.
  Variable tbl : table.
  Variable ne : bset.
  Variable nf : list bset.
  Hypothesis CF : completex_facts bad g sts tbl ne nf.

  (* the tree, followed by the terms v, never needs a reduction the table may lack *)
  Inductive tok : tree -> list nat -> Prop :=
  | tok_leaf a v : tok (Leaf a) v
  | tok_node r ch v : bad r (look g v) = false -> toks ch v -> tok (Node r ch) v
  with toks : list tree -> list nat -> Prop :=
  | toks_nil v : toks [] v
  | toks_cons c cs v : tok c (flat_map yield cs ++ v) -> toks cs v -> toks (c :: cs) v.

  Let SF : sound_facts g sts tbl := cx_sound CF.
  Notation items_of := (state_items sts).
  Notation tc := (term_count g).

  (* The checked nullable / FIRST tables contain the true ones. *)
  Definition nf_sound (t : tree) : Prop :=
    forall X, valid_tree g X t ->
      (yield t = [] -> exists l, X = NT l /\ bset_test ne l = true) /\
      (forall a u, yield t = a :: u -> a < tc ->
                   match X with T b => a = b | NT l => bset_test (nth l nf []) a = true end).

  Lemma nullable_list beta trees :
    Forall2 (valid_tree g) beta trees -> Forall nf_sound trees ->
    flat_map yield trees = [] -> all_nullable ne beta = true.
  Proof.
    induction 1 as [|x t beta trees Hx Hrest IH]; intros Hall Hy; cbn in *; [reflexivity|].
    inversion Hall as [|? ? Ht Hts]; subst. apply app_eq_nil in Hy. destruct Hy as [Hy1 Hy2].
    destruct (Ht x Hx) as [Hn _]. destruct (Hn Hy1) as (l & El & Hl). subst x.
    rewrite Hl. cbn. apply IH; assumption.
  Qed.

  Lemma nth_nf_default l a : bset_test (nth l nf []) a = true -> nth l nf (bset_empty tc) = nth l nf [].
  Proof.
    intros H. apply nth_indep. destruct (Nat.lt_ge_cases l (length nf)) as [|Hge]; [assumption|].
    rewrite (nth_overflow nf [] Hge) in H. unfold bset_test in H. destruct a; discriminate.
  Qed.

  Lemma first_list beta trees :
    Forall2 (valid_tree g) beta trees -> Forall nf_sound trees ->
    forall a u acc, flat_map yield trees = a :: u -> a < tc -> length acc = tc ->
                    bset_test (first_of_syms g ne nf acc beta) a = true.
  Proof.
    induction 1 as [|x t beta trees Hx Hrest IH]; intros Hall a u acc Hy Ha Hacc; cbn in Hy; [discriminate|].
    inversion Hall as [|? ? Ht Hts]; subst. destruct (Ht x Hx) as [Hn Hf].
    destruct (yield t) as [|b u'] eqn:Ey.
    - destruct (Hn eq_refl) as (l & El & Hl). subst x. cbn. rewrite Hl.
      apply (IH Hts a u); [assumption|assumption|]. rewrite bset_or_length. assumption.
    - cbn in Hy. inversion Hy; subst b. specialize (Hf a u' eq_refl Ha). destruct x as [b|l]; cbn.
      + subst b. apply bset_set_same. lia.
      + assert (bset_test (bset_or acc (nth l nf (bset_empty tc))) a = true) as Hor.
        { apply bset_or_mono_r; [lia|]. rewrite (nth_nf_default _ _ Hf). assumption. }
        destruct (bset_test ne l); [apply first_of_syms_mono|]; assumption.
  Qed.

  Lemma nf_sound_all t : nf_sound t.
  Proof.
    induction t as [a|r ch IH] using tree_ind'; intros X Hv.
    - inversion Hv; subst. cbn. split; [discriminate|]. intros b u E _. inversion E; reflexivity.
    - inversion Hv as [|r' l rhs ch' Hrule Hch]; subst. cbn [yield].
      destruct Hrule as (i & ri & Hi & Hr & Hl & Hrhs).
      assert (get_rhs g (ri_r ri) = rhs) as Erhs by (rewrite Hr; apply nth_error_nth; assumption).
      pose proof (nth_error_In _ _ Hi) as Hin. split.
      + intros Hy. exists l. split; [reflexivity|]. rewrite <- Hl.
        apply (cx_null_closed CF ri Hin). rewrite Erhs. eapply nullable_list; eassumption.
      + intros a u Hy Ha. rewrite <- Hl. apply (cx_first_closed CF ri a Hin Ha). rewrite Erhs.
        eapply first_list; try eassumption. apply bset_empty_length.
  Qed.

  Lemma Forall_nf_sound trees : Forall nf_sound trees.
  Proof. apply Forall_forall. intros t _. apply nf_sound_all. Qed.

  (* FIRST(beta t) contains the first token of whatever beta derives, followed by something starting with t *)
  Lemma first_tail_sound beta trees v t :
    Forall2 (valid_tree g) beta trees -> Forall (fun a => a < tc) (flat_map yield trees) ->
    look g v = t -> t < tc ->
    bset_test (first_tail g ne nf beta t) (look g (flat_map yield trees ++ v)) = true.
  Proof.
    intros Hv Hu Hl Ht. unfold first_tail.
    assert (length (first_of_syms g ne nf (bset_empty tc) beta) = tc) as Hlen
        by (rewrite first_of_syms_length; apply bset_empty_length).
    destruct (flat_map yield trees) as [|a u] eqn:Ey.
    - cbn [app]. rewrite Hl. rewrite (nullable_list _ _ Hv (Forall_nf_sound _) Ey).
      apply bset_set_same. lia.
    - cbn. inversion Hu; subst.
      assert (bset_test (first_of_syms g ne nf (bset_empty tc) beta) a = true) as Hf.
      { eapply first_list; try eassumption; [apply Forall_nf_sound|apply bset_empty_length]. }
      destruct (all_nullable ne beta); [apply bset_set_mono|]; assumption.
  Qed.

  Notation lt_tc := (fun a => a < term_count g).
  Notation yields := (flat_map yield).

  Lemma item_yields_lt s i : s < length sts -> In i (items_of s) ->
    forall ts d, Forall2 (valid_tree g) (skipn d (rhs_of g i)) ts -> Forall lt_tc (yields ts).
  Proof.
    intros Hs Hi. induction ts as [|t ts IH]; intros d Hv; cbn [flat_map]; [constructor|].
    apply Forall2_cons_r_inv in Hv. destruct Hv as (x & rest & Esk & Hx & Hrest).
    apply skipn_cons_nth_error in Esk. destruct Esk as [Hnth <-]. apply Forall_app. split; [|exact (IH _ Hrest)].
    apply (valid_yield_Forall g _ (rhs_term_lt _ _ _ SF) t x Hx). intros b ->.
    apply Nat.ltb_lt. exact (proj1 (item_next_sym_ok _ _ _ SF s i d _ Hs Hi Hnth)).
  Qed.

  (* the trees ts still to come for the item i of state s, before an input v that begins with its lookahead: the term
     the machine then looks at is one the item's tail foresees *)
  Lemma tail_foreseen s i v : s < length sts -> In i (items_of s) -> it_t i < tc -> look g v = it_t i ->
    forall ts d, Forall2 (valid_tree g) (skipn d (rhs_of g i)) ts ->
      look g (yields ts ++ v) < tc /\
      bset_test (first_tail g ne nf (skipn d (rhs_of g i)) (it_t i)) (look g (yields ts ++ v)) = true.
  Proof.
    intros Hs Hi Hla Hlook ts d Hv. pose proof (item_yields_lt s i Hs Hi ts d Hv) as Hlt.
    split; [|apply first_tail_sound; assumption].
    destruct (yields ts) as [|a u]; cbn [app]; [rewrite Hlook; exact Hla|]. inversion Hlt; assumption.
  Qed.

  Lemma root_entry X : root_symbol g = Some X ->
    rhs_of g (root_item g) = [X] /\ next_sym g (root_item g) = Some X /\
    bset_test (first_tail g ne nf (skipn 1 (rhs_of g (root_item g))) (eof_idx g)) (eof_idx g) = true.
  Proof.
    intros Hroot. destruct (sf_root_rhs _ _ _ SF) as (x & Hrhs).
    rewrite (root_symbol_eq _ _ _ SF x Hrhs) in Hroot. inversion Hroot; subst X.
    assert (rhs_of g (root_item g) = [NT x]) as Erhs.
    { unfold rhs_of, root_item; cbn [it_r]. rewrite (sf_root_r _ _ _ SF). assumption. }
    unfold next_sym. rewrite Erhs. split; [reflexivity|]. split; [reflexivity|].
    cbn. apply bset_set_same. rewrite bset_empty_length. apply (eof_lt_tc _ _ _ SF).
  Qed.

  Lemma root_accept top : top < length sts ->
    In (mkItem (root_rule_idx g) (length (rhs_of g (root_item g))) (eof_idx g)) (items_of top) ->
    cell tbl top (nterm_count g + eof_idx g) = inl (cell_at tbl top (nterm_count g + eof_idx g)) /\
    e_kind (cell_at tbl top (nterm_count g + eof_idx g)) = KSuccess.
  Proof.
    intros Htop Hi. split; [exact (cell_in_range _ _ _ SF top _ Htop (col_lt g _ (eof_lt_tc _ _ _ SF)))|].
    refine (proj1 (cx_reduce CF top _ Htop Hi _) eq_refl).
    unfold is_complete; cbn [it_r it_d]. rewrite (proj2 (proj2 (sf_ri _ _ _ SF _ (root_lt _ _ _ SF)))). apply Nat.leb_refl.
  Qed.

  (* a state that holds an item with X after the dot holds, for every lookahead t' that may follow the item,
     the dot-0 item of the rule at the root of any tree for X *)
  Lemma node_entry X r ch s i t' :
    valid_tree g X (Node r ch) -> s < length sts -> In i (items_of s) -> next_sym g i = Some X ->
    t' < tc -> bset_test (first_tail g ne nf (skipn (S (it_d i)) (rhs_of g i)) (it_t i)) t' = true ->
    exists i' ri, nth_error (rule_infos g) i' = Some ri /\ get_ri g i' = ri /\ ri_r ri = r /\
      next_sym g i = Some (NT (ri_l ri)) /\ Forall2 (valid_tree g) (get_rhs g (ri_r ri)) ch /\
      In (mkItem i' 0 t') (items_of s).
  Proof.
    intros Hv Hs Hi Hnx Ht' Hft. inversion Hv as [|r' l rhs ch' (i' & ri & Hi' & Hr & Hl & Hrhs) Hch]; subst.
    destruct (get_ri_nth_error _ _ _ SF _ _ Hi') as [Eri Hi'lt].
    exists i', ri. split; [exact Hi'|]. split; [exact Eri|]. split; [reflexivity|]. split; [exact Hnx|]. split.
    - unfold get_rhs. rewrite (nth_error_nth _ _ _ Hrhs). exact Hch.
    - pose proof (next_sym_incomplete _ _ _ SF s i _ Hs Hi Hnx) as Hic.
      destruct (sf_ri _ _ _ SF i' Hi'lt) as (_ & Hllt & _). rewrite Eri in Hllt.
      destruct (proj1 (sf_slice _ _ _ SF (ri_l ri) i' Hllt Hi'lt)) as [Hlo Hhi]; [rewrite Eri; reflexivity|].
      replace i' with (fst (nth (ri_l ri) (slices g) (0, 0)) + (i' - fst (nth (ri_l ri) (slices g) (0, 0)))) by lia.
      apply (cx_closure CF s i (ri_l ri) Hs Hi Hnx Hic); [lia|assumption|assumption].
  Qed.

  Lemma goto_next s i X : s < length sts -> In i (items_of s) -> next_sym g i = Some X ->
    exists s', goto_target g tbl s X = Some s' /\ s' < length sts /\
               In (mkItem (it_r i) (S (it_d i)) (it_t i)) (items_of s').
  Proof.
    intros Hs Hi Hnx. pose proof (next_sym_incomplete _ _ _ SF s i _ Hs Hi Hnx) as Hic.
    destruct (cx_goto CF s i Hs Hi Hic) as (x & s' & Hnx' & H). exists s'. congruence.
  Qed.

  Section Loop.
    Variable run : nat -> cfg -> cfg -> Prop.
    Variable P : nat -> Prop.
    Hypothesis M : runs g tbl P run.

    Lemma shift_step s ss trs i a v : s < length sts -> In i (items_of s) -> next_sym g i = Some (T a) -> P a ->
      exists s', run 1 (s :: ss, trs, a :: v) (s' :: s :: ss, Leaf a :: trs, v) /\
                 s' < length sts /\ In (mkItem (it_r i) (S (it_d i)) (it_t i)) (items_of s').
    Proof.
      intros Hs Hi Hnx Ha. destruct (goto_next s i _ Hs Hi Hnx) as (s' & Hg & Hs').
      exists s'. split; [|exact Hs'].
      pose proof (run_P M a Ha) as Hlt. pose proof (err_eq _ _ _ SF) as Herr. pose proof (eof_lt_tc _ _ _ SF) as Heof.
      destruct (goto_T _ _ _ _ _ Hg) as [Hk Harg]; [lia|].
      assert (cell tbl s (nterm_count g + a) = inl (cell_at tbl s (nterm_count g + a))) as Hc
        by (apply (cell_in_range _ _ _ SF s _ Hs), col_lt; lia).
      apply (run_mstep M s ss trs (a :: v) _ _ Hc (or_intror Ha)).
      exact (mstep_shift g tbl s ss trs (a :: v) _ s' Hc Hk Harg).
    Qed.

    (* the reduction of a completed item [i', n, la] that was entered from item i of state s: es are the states
       pushed for its right side *)
    Lemma node_exit s ss i i' ri es ch trs rest top stk :
      s < length sts -> In i (items_of s) -> next_sym g i = Some (NT (ri_l ri)) ->
      nth_error (rule_infos g) i' = Some ri -> length es = ri_n ri -> length ch = ri_n ri ->
      es ++ s :: ss = top :: stk -> top < length sts ->
      In (mkItem i' (ri_n ri) (look g rest)) (items_of top) -> look g rest < tc ->
      bad (ri_r ri) (look g rest) = false ->
      exists s', run 1 (es ++ s :: ss, rev ch ++ trs, rest) (s' :: s :: ss, Node (ri_r ri) ch :: trs, rest) /\
                 s' < length sts /\ In (mkItem (it_r i) (S (it_d i)) (it_t i)) (items_of s').
    Proof.
      intros Hs Hi Hnx Hi' Hes Hch Etop Htop Hcomp Hla Hbad.
      destruct (get_ri_nth_error _ _ _ SF _ _ Hi') as [Eri Hi'lt].
      destruct (sf_ri _ _ _ SF i' Hi'lt) as (_ & Hllt & _). rewrite Eri in Hllt.
      assert (i' <> root_rule_idx g) as Hnr.
      { intros E. destruct (item_next_sym_ok _ _ _ SF s i _ _ Hs Hi Hnx) as (_ & Hne' & _).
        apply Hne'. rewrite <- Eri, E, (sf_root_l _ _ _ SF). reflexivity. }
      assert (is_complete g (mkItem i' (ri_n ri) (look g rest)) = true) as Hc.
      { unfold is_complete; cbn [it_r it_d]. rewrite Eri. apply Nat.leb_refl. }
      destruct (proj2 (cx_reduce CF top _ Htop Hcomp Hc) Hnr) as [Hk Harg]; [cbn [it_r it_t]; rewrite Eri; exact Hbad|].
      cbn [it_r it_t] in Hk, Harg.
      destruct (goto_next s i _ Hs Hi Hnx) as (s' & Hg & Hs'). apply goto_NT in Hg.
      exists s'. split; [|exact Hs']. rewrite Etop.
      pose proof (cell_in_range _ _ _ SF top _ Htop (col_lt g _ Hla)) as Hcell.
      apply (run_mstep M top stk _ rest _ _ Hcell (or_introl Hk)).
      eapply mstep_reduce; try eassumption.
      - rewrite <- Etop, <- Hes. apply skipn_app_exact.
      - apply (cell_in_range _ _ _ SF s _ Hs). unfold symbol_count. lia.
    Qed.

    (* the machine, started in a state s holding an item with the dot before X, runs a tree for X followed by v
       (whose first term the item's FIRST set foresees) to the goto state of s on X *)
    Definition parses (tau : tree) : Prop :=
      forall X s ss trs i v,
        valid_tree g X tau -> tok tau v -> Forall P (yield tau) -> look g v < tc ->
        s < length sts -> In i (items_of s) -> next_sym g i = Some X ->
        bset_test (first_tail g ne nf (skipn (S (it_d i)) (rhs_of g i)) (it_t i)) (look g v) = true ->
        exists s', run (tsize tau) (s :: ss, trs, yield tau ++ v) (s' :: s :: ss, tau :: trs, v) /\
                   s' < length sts /\ In (mkItem (it_r i) (S (it_d i)) (it_t i)) (items_of s').

    (* the children chs of a node, from dot position d of rule (rule_info index) r with lookahead la, to the end of
       its right side; v begins with la *)
    Lemma children r la v : la < tc -> look g v = la ->
      forall chs, Forall parses chs -> toks chs v -> Forall P (yields chs) ->
      forall d s ss trs,
        Forall2 (valid_tree g) (skipn d (get_rhs g (ri_r (get_ri g r)))) chs ->
        s < length sts -> In (mkItem r d la) (items_of s) ->
        exists es top stk,
          run (list_sum (map tsize chs)) (s :: ss, trs, yields chs ++ v) (es ++ s :: ss, rev chs ++ trs, v) /\
          length es = length chs /\ es ++ s :: ss = top :: stk /\
          top < length sts /\ In (mkItem r (d + length chs) la) (items_of top).
    Proof.
      intros Hla Hlook. induction 1 as [|c chs Hc _ IH]; intros Htoks Hy d s ss trs Hval Hs Hi.
      - exists [], s, ss. cbn. rewrite Nat.add_0_r. split; [apply (run_0 M)|auto].
      - inversion Htoks as [|c' cs' v' Htc Htcs]; subst c' cs' v'.
        apply Forall2_cons_r_inv in Hval. destruct Hval as (x & rest & Esk & Hx & Hrest).
        apply skipn_cons_nth_error in Esk. destruct Esk as [Hnth <-].
        cbn [flat_map] in Hy. apply Forall_app in Hy. destruct Hy as [Hy1 Hy2].
        destruct (tail_foreseen s (mkItem r d la) v Hs Hi Hla Hlook chs (S d) Hrest) as [Hlk Hft].
        destruct (Hc x s ss trs (mkItem r d la) (yields chs ++ v) Hx Htc Hy1) as (s1 & Hm1 & Hs1 & Hi1); try assumption.
        destruct (IH Htcs Hy2 (S d) s1 (s :: ss) (c :: trs) Hrest Hs1 Hi1) as (es & top & stk & Hm2 & Hes & Etop & Htop).
        exists (es ++ [s1]), top, stk. cbn [flat_map rev length map list_sum].
        rewrite <- !app_assoc, app_length, Nat.add_succ_r. cbn [app length].
        split; [eapply (run_trans M); eassumption|]. split; [lia|auto].
    Qed.

    Lemma parses_all tau : parses tau.
    Proof.
      induction tau as [a|r ch IH] using tree_ind'; intros X s ss trs i v Hval Htok Hy Hv Hs Hi Hnx Hla.
      - inversion Hval; subst. inversion Hy; subst. apply shift_step; assumption.
      - cbn [yield] in *. inversion Htok as [|r' ch' v' Hbad Htoks]; subst.
        destruct (node_entry _ _ _ _ _ _ Hval Hs Hi Hnx Hv Hla) as (i' & ri & Hi' & Eri & <- & Hnx' & Hch & Hi0).
        destruct (children i' (look g v) v Hv eq_refl ch IH Htoks Hy 0 s ss trs) as (es & top & stk & Hm & Hes & Etop & Htop & Hif);
          try assumption.
        { rewrite Eri. exact Hch. }
        assert (length ch = ri_n ri) as Hlen.
        { destruct (sf_ri _ _ _ SF i' (proj2 (get_ri_nth_error _ _ _ SF _ _ Hi'))) as (_ & _ & Hn).
          rewrite Eri in Hn. rewrite Hn. symmetry. exact (Forall2_length _ _ _ Hch). }
        cbn [Nat.add] in Hif. rewrite Hlen in Hif, Hes.
        destruct (node_exit s ss i i' ri es ch trs v top stk) as (s' & Hr & Hs'); try assumption.
        exists s'. split; [|exact Hs']. cbn [tsize]. rewrite <- Nat.add_1_r. eapply (run_trans M); eassumption.
    Qed.

    Lemma Forall_parses l : Forall parses l.
    Proof. apply Forall_forall. intros t _. apply parses_all. Qed.

    (* Down to the first leaf a of a tree: what stands after a in the yield is not looked at. With nothing excepted
       (Hbad): what follows a is then any v, and tok would have to hold of the tree before every v. *)
    Section Reach.
      Hypothesis Hbad : forall r t, bad r t = false.

      Lemma tok_all t : forall v, tok t v.
      Proof.
        induction t as [a|r ch IH] using tree_ind'; intros v; constructor; [apply Hbad|].
        induction IH; constructor; auto.
      Qed.

      Lemma toks_all ts v : toks ts v.
      Proof. induction ts; constructor; auto using tok_all. Qed.

      (* the machine comes, on the input [rest], to a state some item of which has a right after its dot *)
      Definition reached (s : nat) (ss : list nat) (trs : list tree) (a : nat) (rest : list nat) : Prop :=
        exists n s1 ss1 trs1 j, run n (s :: ss, trs, rest) (s1 :: ss1, trs1, rest) /\
                                s1 < length sts /\ In j (items_of s1) /\ next_sym g j = Some (T a).

      Definition reaches (tau : tree) : Prop :=
        forall X s ss trs i a q rest,
          valid_tree g X tau -> yield tau = a :: q -> look g rest = a ->
          s < length sts -> In i (items_of s) -> next_sym g i = Some X ->
          (exists t', t' < tc /\ bset_test (first_tail g ne nf (skipn (S (it_d i)) (rhs_of g i)) (it_t i)) t' = true) ->
          reached s ss trs a rest.

      (* the trees ts, still to come for item [r, d, la]: those that derive the empty string are run, the first other
         one is entered *)
      Lemma reach_list r la a q rest : la < tc -> look g rest = a ->
        forall ts, Forall reaches ts -> forall d s ss trs,
          Forall2 (valid_tree g) (skipn d (get_rhs g (ri_r (get_ri g r)))) ts -> yields ts = a :: q ->
          s < length sts -> In (mkItem r d la) (items_of s) ->
          reached s ss trs a rest.
      Proof.
        intros Hla Hlook. induction 1 as [|c ts Hc _ IH]; intros d s ss trs Hval Hy Hs Hi; [discriminate|].
        apply Forall2_cons_r_inv in Hval. destruct Hval as (x & rest' & Esk & Hx & Hrest).
        apply skipn_cons_nth_error in Esk. destruct Esk as [Hnth <-].
        destruct (tail_foreseen s (mkItem r d la) [la] Hs Hi Hla eq_refl ts (S d) Hrest) as [Hlk Hft].
        cbn [flat_map] in Hy. destruct (yield c) as [|b u] eqn:Ey.
        - cbn [app] in Hy. rewrite Hy in Hlk, Hft. cbn [app look hd] in Hlk, Hft. rewrite <- Hlook in Hlk, Hft.
          destruct (parses_all c x s ss trs (mkItem r d la) rest Hx (tok_all c _)) as (s1 & Hm & Hs1 & Hi1);
            try assumption; [rewrite Ey; constructor|].
          rewrite Ey in Hm. cbn [app] in Hm.
          destruct (IH (S d) s1 (s :: ss) (c :: trs) Hrest Hy Hs1 Hi1) as (n & s2 & ss2 & trs2 & j & Hm2 & Hj).
          exists (tsize c + n), s2, ss2, trs2, j. split; [eapply (run_trans M); eassumption|exact Hj].
        - injection Hy as -> _. apply (Hc x s ss trs (mkItem r d la) a u rest Hx Ey Hlook Hs Hi Hnth). eauto.
      Qed.

      Lemma reaches_all tau : reaches tau.
      Proof.
        induction tau as [b|r ch IH] using tree_ind'; intros X s ss trs i a q rest Hval Hy Hlook Hs Hi Hnx Hft.
        - inversion Hval; subst. injection Hy as -> _. exists 0, s, ss, trs, i. split; [apply (run_0 M)|auto].
        - destruct Hft as (t' & Ht' & Hft). cbn [yield] in Hy.
          destruct (node_entry _ _ _ _ _ _ Hval Hs Hi Hnx Ht' Hft) as (i' & ri & _ & Eri & _ & _ & Hch & Hi0).
          apply (reach_list i' t' a q rest Ht' Hlook ch IH 0 s ss trs); try assumption. rewrite Eri. exact Hch.
      Qed.

      Lemma Forall_reaches l : Forall reaches l.
      Proof. apply Forall_forall. intros t _. apply reaches_all. Qed.
    End Reach.
  End Loop.

  (* the run, step by step: tsize t steps lead to the configuration [s'; 0] / [t] / (no input left), whose next step
     is the acceptance of t *)
  Theorem completex_msteps w t : tokens_ok g w -> derives_tree g t w -> tok t [] ->
    exists s', msteps g tbl (tsize t) ([0], [], w) ([s'; 0], [t], []) /\ mstep g tbl ([s'; 0], [t], []) = Acc t.
  Proof.
    intros Hw (X & Hroot & Hval & Hy) Htok. destruct (root_entry X Hroot) as (Erhs & Hnx & Hft).
    pose proof (eof_lt_tc _ _ _ SF) as Heof.
    destruct (parses_all _ _ (msteps_runs g tbl) t X 0 [] [] (root_item g) []) as (s' & Hm & Hs' & Hi'); try assumption.
    - rewrite Hy. exact Hw.
    - apply (sf_dims2 _ _ _ SF).
    - apply (sf_st0_root _ _ _ SF).
    - rewrite Hy, app_nil_r in Hm. exists s'. split; [exact Hm|].
      destruct (root_accept s' Hs') as [Hc Hk]; [rewrite Erhs; exact Hi'|].
      unfold mstep. cbn [look hd]. rewrite Hc, Hk. reflexivity.
  Qed.

  Theorem completex_mrun w t : tokens_ok g w -> derives_tree g t w -> tok t [] ->
    mrun g tbl (tsize t + 1) ([0], [], w) = Some t.
  Proof.
    intros Hw Hd Htok. destruct (completex_msteps w t Hw Hd Htok) as (s' & Hm & Ha).
    eapply msteps_mrun; [exact Hm|]. cbn [mrun]. rewrite Ha. reflexivity.
  Qed.
End CompleteX.
(* the facts CF and the machine M explicit, what they determine implicit: LRComplete and TermRecMachine apply these to
   their own facts and machines *)
Arguments root_entry {bad g sts tbl ne nf} CF. Arguments root_accept {bad g sts tbl ne nf} CF. Arguments goto_next {bad g sts tbl ne nf} CF.
Arguments shift_step {bad g sts tbl ne nf} CF {run P} M. Arguments node_exit {bad g sts tbl ne nf} CF {run P} M.
Arguments children {bad g sts tbl ne nf} CF {run P} M. Arguments parses_all {bad g sts tbl ne nf} CF {run P} M.
Arguments Forall_parses {bad g sts tbl ne nf} CF {run P} M. Arguments reach_list {bad g sts tbl ne nf} CF {run P} M.
Arguments reaches_all {bad g sts tbl ne nf} CF {run P} M. Arguments Forall_reaches {bad g sts tbl ne nf} CF {run P} M.

Theorem lr_complete_except : forall bad g sts tbl w t,
  validate_except bad g sts tbl = true ->
  tokens_ok g w -> derives_tree g t w -> tok bad g t [] ->
  mrun g tbl (tsize t + 1) ([0], [], w) = Some t.
Proof.
  intros bad g sts tbl w t Hv Hw Hd Ht. unfold validate_except in Hv.
  exact (completex_mrun bad g sts tbl _ _ (completex_facts_of _ _ _ _ _ _ Hv) w t Hw Hd Ht).
Qed.

Theorem lr_complete_except_steps : forall bad g sts tbl w t,
  validate_except bad g sts tbl = true ->
  tokens_ok g w -> derives_tree g t w -> tok bad g t [] ->
  exists s', msteps g tbl (tsize t) ([0], [], w) ([s'; 0], [t], []) /\ mstep g tbl ([s'; 0], [t], []) = Acc t.
Proof.
  intros bad g sts tbl w t Hv Hw Hd Ht. unfold validate_except in Hv.
  exact (completex_msteps bad g sts tbl _ _ (completex_facts_of _ _ _ _ _ _ Hv) w t Hw Hd Ht).
Qed.

Print Assumptions lr_complete_except.
Print Assumptions lr_complete_except_steps.
