(* The item behind a shift: what the scan of a cell puts into the kernel of the target state. *)
Require Import Ctpg.Base.Prelude Ctpg.Model.Grammar Ctpg.Model.LRGen.

(* the same function as [advance] of Spec/Conflict.v: the two are convertible *)
Definition adv (i : item) : item := mkItem (it_r i) (S (it_d i)) (it_t i).
