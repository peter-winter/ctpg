(* Shared by every proof about the driver loop: the Driver, Safe, CapFormula, Recovery, Report, Term and Pattern
   families of files.
   [run_gh] is [run_from] with a ghost, the list of loop-head
   states visited: everything an iteration did is a function of that state, so the lines written, the values
   popped and the like are derived from it; [run_gh_inv] and [run_gh_sinv] carry an invariant of one iteration
   along a run. [gct_spec] is [get_current_term] as a relation, so that no client unfolds it;
   [gct_rec] and [gct_pending] are its two cases that do not consult the lexer, as equations, and [step_empty],
   [step_gct], [step_lexfail], [step_rec] the iteration around it. What [act] does is the subject of Proofs/DriverIter.v. *)
Require Import Ctpg.Base.Prelude Ctpg.Proofs.ListFacts Ctpg.Model.Grammar Ctpg.Model.LRGen Ctpg.Model.Driver.

(* the two lines [pop_stacks] writes *)
Definition is_pop_ev (e : event) : bool :=
  match e with EvRecoveringTo _ _ | EvCouldNotRecover _ => true | _ => false end.

Lemma flat_map_snoc {A B} (f : A -> list B) l x : flat_map f (l ++ [x]) = flat_map f l ++ f x.
Proof. rewrite flat_map_app. cbn. now rewrite app_nil_r. Qed.

Lemma slice_of_add (buf : list nat) i d : slice_of buf i (i + d) = firstn d (skipn i buf).
Proof. unfold slice_of. replace (i + d - i) with d by lia. reflexivity. Qed.

Lemma slice_of_nil buf i j : j <= i -> slice_of buf i j = [].
Proof. intros H. unfold slice_of. now replace (j - i) with 0 by lia. Qed.

Lemma verbose_visible opts l : o_verbose opts = true -> filter (visible opts) l = l.
Proof. intros H. apply filter_true_id. intros e _. unfold visible. now rewrite H. Qed.

Lemma quiet_visible opts l : o_verbose opts = false -> filter (visible opts) l = filter is_nonverbose l.
Proof. intros H. apply filter_ext. intros e. unfold visible. now rewrite H. Qed.

Lemma kind_error_dec k : k = KError \/ k <> KError.
Proof. destruct k; auto; right; discriminate. Qed.

Lemma count_ws_le o l : count_ws o l <= length l.
Proof. induction l as [|b l IH]; cbn; [lia|]. destruct (is_ws o b); lia. Qed.

Section Basics.
  Variables V C : Type.
  Variable g : grammar.
  Variable tbl : table.
  Variable opts : options.
  Variable buf : list nat.
  Variable cap : option nat.
  Variable lexer : bool -> spoint -> list nat -> list lex_event * option (nat * nat).
  Variable term_f : nat -> nat -> nat -> spoint -> V.
  Variable err_f : spoint -> V.
  Variable rule_f : nat -> C -> list V -> C * V.

  Notation pst := (pstate V C).
  Notation stepx := (step V C g tbl opts buf cap lexer term_f err_f rule_f).
  Notation actx := (act V C g tbl buf cap term_f err_f rule_f).
  Notation gctx := (get_current_term V C g opts buf lexer).
  Notation run_fromx := (run_from V C g tbl opts buf cap lexer term_f err_f rule_f).

  Fixpoint run_gh (fuel : nat) (s : pst) (out : list event) (vis : list pst)
    : result V * pst * list event * list pst :=
    match fuel with
    | 0 => (OutOfFuel, s, out, vis)
    | S f => match stepx s with
             | (inl s', ev) => run_gh f s' (out ++ filter (visible opts) ev) (vis ++ [s])
             | (inr (r, s'), ev) => (r, s', out ++ filter (visible opts) ev, vis ++ [s])
             end
    end.

  Lemma run_gh_run fuel s out vis :
    run_fromx fuel s out = let '(r, s', out', _) := run_gh fuel s out vis in (r, s', out').
  Proof.
    revert s out vis; induction fuel as [|f IH]; intros s out vis; cbn [run_from run_gh]; [reflexivity|].
    destruct (stepx s) as [[s'|[r s']] ev]; [apply IH | reflexivity].
  Qed.

  Lemma run_of_gh fuel c :
    run V C g tbl opts buf cap lexer term_f err_f rule_f fuel c =
    let '(r, s', out', _) := run_gh fuel (init c) [] [] in (r, s', out').
  Proof. apply run_gh_run. Qed.

  (* every line of the visited iterations, whether it reaches the stream or not *)
  Definition all_events (vis : list pst) : list event := flat_map (fun s => snd (stepx s)) vis.
  Definition no_pop (vis : list pst) : Prop := forall e, In e (all_events vis) -> is_pop_ev e = false.
  (* the values removed from the value stack by pop_stacks *)
  Definition popped_at (s : pst) : list V :=
    if existsb is_pop_ev (snd (stepx s)) then firstn 1 (ps_values s) else [].
  Definition popped (vis : list pst) : list V := flat_map popped_at vis.

  Lemma all_events_app a b : all_events (a ++ b) = all_events a ++ all_events b.
  Proof. apply flat_map_app. Qed.
  Lemma popped_app a b : popped (a ++ b) = popped a ++ popped b.
  Proof. apply flat_map_app. Qed.
  Lemma all_events_snoc vis s : all_events (vis ++ [s]) = all_events vis ++ snd (stepx s).
  Proof. exact (flat_map_snoc _ vis s). Qed.

  Lemma no_pop_nil : no_pop [].
  Proof. intros e []. Qed.

  Lemma no_pop_snoc vis s : no_pop (vis ++ [s]) <-> no_pop vis /\ (forall e, In e (snd (stepx s)) -> is_pop_ev e = false).
  Proof.
    unfold no_pop. rewrite all_events_snoc. split.
    - intros H; split; intros e He; apply H, in_or_app; auto.
    - intros [H1 H2] e He. apply in_app_or in He as [He|He]; auto.
  Qed.

  Lemma run_gh_out fuel : forall s out vis out0,
    out = out0 ++ filter (visible opts) (all_events vis) ->
    let '(_, _, out', vis') := run_gh fuel s out vis in out' = out0 ++ filter (visible opts) (all_events vis').
  Proof.
    induction fuel as [|f IH]; intros s out vis out0 Hout; cbn [run_gh]; [assumption|].
    assert (E : out ++ filter (visible opts) (snd (stepx s)) = out0 ++ filter (visible opts) (all_events (vis ++ [s]))).
    { now rewrite all_events_snoc, filter_app, app_assoc, <- Hout. }
    destruct (stepx s) as [[s'|[r s']] ev]; cbn [snd] in E; [apply IH; assumption | assumption].
  Qed.

  (* with verbose on every line reaches the stream: the ghost's lines are the output *)
  Lemma run_gh_out_verbose fuel s : o_verbose opts = true ->
    let '(_, _, out, vis) := run_gh fuel s [] [] in out = all_events vis.
  Proof.
    intros Hv. pose proof (run_gh_out fuel s [] [] [] eq_refl) as H.
    destruct (run_gh fuel s [] []) as [[[r s'] out] vis]. subst out. exact (verbose_visible _ _ Hv).
  Qed.

  (* the visited states only grow: a run started with [vis] is the run started with [] put after [vis] *)
  Lemma run_gh_shift fuel : forall s out vis,
    run_gh fuel s out vis = let '(r, sf, o, v) := run_gh fuel s out [] in (r, sf, o, vis ++ v).
  Proof.
    induction fuel as [|f IH]; intros s out vis; cbn [run_gh].
    - now rewrite app_nil_r.
    - destruct (stepx s) as [[s'|[r s']] ev]; [|reflexivity].
      rewrite (IH s' _ (vis ++ [s])), (IH s' _ ([] ++ [s])).
      destruct (run_gh f s' (out ++ filter (visible opts) ev) []) as [[[r sf] o] v]. now rewrite <- app_assoc.
  Qed.

  Lemma run_gh_first fuel s out : let '(_, sf, _, v) := run_gh fuel s out [] in In s (v ++ [sf]).
  Proof.
    destruct fuel as [|f]; cbn [run_gh]; [left; reflexivity|].
    destruct (stepx s) as [[s'|[r s']] ev]; [|left; reflexivity].
    rewrite (run_gh_shift f s' _ ([] ++ [s])).
    destruct (run_gh f s' (out ++ filter (visible opts) ev) []) as [[[r sf] o] v]. left; reflexivity.
  Qed.

  (* the i-th state visited is where the run stands after i iterations *)
  Lemma run_gh_nth fuel : forall s0 out0 i s,
    nth_error (snd (run_gh fuel s0 out0 [])) i = Some s ->
    exists out_i, forall m, run_fromx (i + m) s0 out0 = run_fromx m s out_i.
  Proof.
    induction fuel as [|f IH]; intros s0 out0 i s H; cbn [run_gh] in H; [destruct i; discriminate|].
    destruct (stepx s0) as [[s'|[r s']] ev] eqn:Es.
    - rewrite (run_gh_shift f s' _ ([] ++ [s0])) in H. specialize (IH s' (out0 ++ filter (visible opts) ev)).
      destruct (run_gh f s' (out0 ++ filter (visible opts) ev) []) as [[[r sf] o] v]. cbn [snd app] in H, IH.
      destruct i as [|i]; [injection H as <-; exists out0; reflexivity|].
      destruct (IH i s H) as (out_i & Ho). exists out_i. intros m. cbn [Nat.add run_from]. rewrite Es. apply Ho.
    - destruct i as [|[|i]]; [injection H as <-; exists out0; reflexivity|discriminate..].
  Qed.

  (* the last visited state of a finished run, and the run that stops just before its last iteration *)
  Lemma run_gh_last fuel : forall s out vis r s' out' vis',
    run_gh fuel s out vis = (r, s', out', vis') -> r <> OutOfFuel ->
    exists vis0 sl ev n o,
      vis' = vis0 ++ [sl] /\ stepx sl = (inr (r, s'), ev) /\ out' = o ++ filter (visible opts) ev /\
      run_gh n s out vis = (OutOfFuel, sl, o, vis0).
  Proof.
    induction fuel as [|f IH]; intros s out vis r s' out' vis' H Hr; cbn [run_gh] in H.
    { inversion H; subst. congruence. }
    destruct (stepx s) as [[s1|[r1 s1]] ev1] eqn:Hs.
    - destruct (IH _ _ _ _ _ _ _ H Hr) as (vis0 & sl & ev & n & o & H1 & H2 & H3 & H4).
      exists vis0, sl, ev, (S n), o. repeat split; try assumption. cbn [run_gh]. now rewrite Hs.
    - inversion H; subst. exists vis, s, ev1, 0, out. repeat split; auto.
  Qed.

  (* invariants that may mention the ghost *)
  Section GhostInv.
    Variable Inv : list pst -> pst -> Prop.
    Variable Fin : list pst -> result V -> pst -> Prop.
    Hypothesis Hfuel : forall vis s, Inv vis s -> Fin vis OutOfFuel s.
    Hypothesis Hstep : forall vis s, Inv vis s ->
      match fst (stepx s) with
      | inl s' => Inv (vis ++ [s]) s'
      | inr (r, s') => Fin (vis ++ [s]) r s'
      end.

    Lemma run_gh_inv fuel : forall s out vis, Inv vis s ->
      let '(r, s', _, vis') := run_gh fuel s out vis in Fin vis' r s'.
    Proof.
      induction fuel as [|f IH]; intros s out vis HI; cbn [run_gh]; [auto|].
      specialize (Hstep vis s HI). destruct (stepx s) as [[s'|[r s']] ev]; cbn [fst] in Hstep; [apply IH|]; assumption.
    Qed.
  End GhostInv.

  (* state-only invariants: they also hold of every visited state *)
  Section StateInv.
    Variable Inv : pst -> Prop.
    Variable Fin : result V -> pst -> Prop.
    Hypothesis Hfuel : forall s, Inv s -> Fin OutOfFuel s.
    Hypothesis Hstep : forall s, Inv s ->
      match fst (stepx s) with
      | inl s' => Inv s'
      | inr (r, s') => Fin r s'
      end.

    Lemma run_gh_sinv fuel s out vis : Inv s -> Forall Inv vis ->
      let '(r, s', _, vis') := run_gh fuel s out vis in Fin r s' /\ Forall Inv vis'.
    Proof.
      intros HI HV.
      apply (run_gh_inv (fun vis s => Inv s /\ Forall Inv vis) (fun vis r s => Fin r s /\ Forall Inv vis)); [| |auto].
      - intros vis0 s0 [H1 H2]; auto.
      - intros vis0 s0 [H1 H2]. specialize (Hstep s0 H1).
        assert (Forall Inv (vis0 ++ [s0])) by (apply Forall_app; auto).
        destruct (fst (stepx s0)) as [s'|[r s']]; auto.
    Qed.
  End StateInv.

  Lemma set_modes_id (s : pst) : set_modes s (ps_rec s) (ps_cons s) = s.
  Proof. destruct s; reflexivity. Qed.
  Lemma set_stacks_id (s : pst) : set_stacks s (ps_cursors s) (ps_values s) = s.
  Proof. destruct s; reflexivity. Qed.

  (* the "leave consume mode" prologue of every non-error action *)
  Definition clr (s1 : pst) : pst := if ps_cons s1 then set_modes s1 (ps_rec s1) false else s1.
  Definition lc (s1 : pst) : list event := if ps_cons s1 then [EvLeaveConsume (ps_sp s1)] else [].

  Lemma clr_cursors s : ps_cursors (clr s) = ps_cursors s. Proof. unfold clr; destruct (ps_cons s); reflexivity. Qed.
  Lemma clr_values s : ps_values (clr s) = ps_values s. Proof. unfold clr; destruct (ps_cons s); reflexivity. Qed.
  Lemma clr_sp s : ps_sp (clr s) = ps_sp s. Proof. unfold clr; destruct (ps_cons s); reflexivity. Qed.
  Lemma clr_it s : ps_it (clr s) = ps_it s. Proof. unfold clr; destruct (ps_cons s); reflexivity. Qed.
  Lemma clr_end s : ps_end (clr s) = ps_end s. Proof. unfold clr; destruct (ps_cons s); reflexivity. Qed.
  Lemma clr_term s : ps_term (clr s) = ps_term s. Proof. unfold clr; destruct (ps_cons s); reflexivity. Qed.
  Lemma clr_rec s : ps_rec (clr s) = ps_rec s. Proof. unfold clr; destruct (ps_cons s); reflexivity. Qed.
  Lemma clr_ctx s : ps_ctx (clr s) = ps_ctx s. Proof. unfold clr; destruct (ps_cons s); reflexivity. Qed.
  Lemma clr_cons s : ps_cons (clr s) = false. Proof. unfold clr; destruct (ps_cons s) eqn:E; [reflexivity|assumption]. Qed.
  Lemma clr_id (s1 : pst) : ps_cons s1 = false -> clr s1 = s1 /\ lc s1 = [].
  Proof. unfold clr, lc. now intros ->. Qed.

  (* the white space [get_current_term] skips at [pos] *)
  Definition wsk (pos : nat) : nat := if o_skip_ws opts then count_ws opts (skipn pos buf) else 0.

  Lemma wsk_le pos : wsk pos <= length buf - pos.
  Proof. unfold wsk. destruct (o_skip_ws opts); [|lia]. rewrite <- skipn_length. apply count_ws_le. Qed.

  Inductive gct_spec (s : pst) : pst * option nat * list event -> Prop :=
  | GRec : ps_rec s = true -> gct_spec s (s, Some (err_idx g), [])
  | GPend : ps_rec s = false -> ps_it s <> ps_end s -> gct_spec s (s, ps_term s, [])
  | GEof sp1 it1 :
      ps_rec s = false -> ps_it s = ps_end s ->
      it1 = ps_it s + wsk (ps_it s) -> sp1 = sp_update (ps_sp s) (slice_of buf (ps_it s) it1) ->
      skipn it1 buf = [] ->
      gct_spec s (set_pos s sp1 it1 (ps_end s) (Some (eof_idx g)), Some (eof_idx g), [EvRecognized sp1 (eof_idx g)])
  | GFail sp1 it1 c rest lx :
      ps_rec s = false -> ps_it s = ps_end s ->
      it1 = ps_it s + wsk (ps_it s) -> sp1 = sp_update (ps_sp s) (slice_of buf (ps_it s) it1) ->
      skipn it1 buf = c :: rest ->
      lexer (o_verbose opts) sp1 (c :: rest) = (lx, None) ->
      gct_spec s (set_pos s sp1 it1 (ps_end s) None, None, map EvLex lx ++ [EvUnexpectedChar sp1 c])
  | GTok sp1 it1 c rest lx t len :
      ps_rec s = false -> ps_it s = ps_end s ->
      it1 = ps_it s + wsk (ps_it s) -> sp1 = sp_update (ps_sp s) (slice_of buf (ps_it s) it1) ->
      skipn it1 buf = c :: rest ->
      lexer (o_verbose opts) sp1 (c :: rest) = (lx, Some (t, len)) ->
      gct_spec s (set_pos s sp1 it1 (it1 + len) (Some t), Some t, map EvLex lx ++ [EvRecognized sp1 t]).

  Lemma gct_spec_holds s : gct_spec s (gctx s).
  Proof.
    unfold get_current_term.
    destruct (ps_rec s) eqn:Hr; [now constructor|].
    destruct (Nat.eqb (ps_it s) (ps_end s)) eqn:Hit; cbn [negb].
    2:{ apply Nat.eqb_neq in Hit. now constructor. }
    apply Nat.eqb_eq in Hit.
    fold (wsk (ps_it s)). rewrite <- slice_of_add, skipn_add.
    destruct (skipn (ps_it s + wsk (ps_it s)) buf) as [|c rest] eqn:Hsk.
    - eapply GEof; eauto.
    - destruct (lexer (o_verbose opts) _ (c :: rest)) as [lx [[t len]|]] eqn:Hlx.
      + eapply GTok; eauto.
      + eapply GFail; eauto.
  Qed.

  Lemma gct_rec s : ps_rec s = true -> gctx s = (s, Some (err_idx g), []).
  Proof. intros H. unfold get_current_term. now rewrite H. Qed.

  Lemma gct_pending s : ps_rec s = false -> ps_it s <> ps_end s -> gctx s = (s, ps_term s, []).
  Proof. intros Hr Hne. unfold get_current_term. apply Nat.eqb_neq in Hne. now rewrite Hr, Hne. Qed.

  Lemma cell_inr s c x : cell tbl s c = inr x -> x = CrTableRow \/ x = CrTableCol.
  Proof.
    unfold cell. destruct (nth_error tbl s) as [row|]; [|intros H; inversion H; auto].
    destruct (nth_error row c); intros H; inversion H; auto.
  Qed.

  Lemma cell_inl s c e :
    cell tbl s c = inl e <-> exists row, nth_error tbl s = Some row /\ nth_error row c = Some e.
  Proof.
    unfold cell. destruct (nth_error tbl s) as [row|]; [destruct (nth_error row c) as [e'|] eqn:E|].
    - split; [intros [= <-]; eauto|intros (r & [= <-] & H); congruence].
    - split; [discriminate|intros (r & [= <-] & H); congruence].
    - split; [discriminate|intros (r & H & _); discriminate].
  Qed.

  (* the iteration around [get_current_term] and [act], as equations *)
  Lemma step_gct s cursor cs s1 t ev1 :
    ps_cursors s = cursor :: cs -> gctx s = (s1, Some t, ev1) ->
    stepx s = (fst (actx s1 cursor t), ev1 ++ snd (actx s1 cursor t)).
  Proof. intros Hc Hg. unfold step. rewrite Hc, Hg. now destruct (actx s1 cursor t). Qed.

  Lemma step_empty s : ps_cursors s = [] -> stepx s = (inr (Crash CrEmptyStack, s), []).
  Proof. intros H. unfold step. now rewrite H. Qed.

  Lemma step_lexfail s cursor cs s1 ev1 :
    ps_cursors s = cursor :: cs -> gctx s = (s1, None, ev1) -> stepx s = (inr (Reject, s1), ev1).
  Proof. intros Hc Hg. unfold step. now rewrite Hc, Hg. Qed.

  Lemma step_rec s cursor cs :
    ps_rec s = true -> ps_cursors s = cursor :: cs -> stepx s = actx s cursor (err_idx g).
  Proof. intros Hr Hc. rewrite (step_gct s cursor cs s _ [] Hc (gct_rec s Hr)). now destruct (actx s cursor (err_idx g)). Qed.

  (* [cur] is the place in the input here, not an entry of [ps_cursors] *)
  Definition same_cur (s s' : pst) : Prop :=
    ps_sp s' = ps_sp s /\ ps_it s' = ps_it s /\ ps_end s' = ps_end s /\ ps_term s' = ps_term s.

  (* a pending lexeme has a term: kept by every iteration, in every mode ([DriverIter.step_term_inv]) *)
  Definition term_inv (s : pst) : Prop := ps_it s = ps_end s \/ ps_term s <> None.

  (* the term handed to [act] is the error token in recovery mode and the recorded term otherwise *)
  Lemma gct_term s s1 t ev : gct_spec s (s1, Some t, ev) ->
    (ps_rec s1 = true /\ t = err_idx g) \/ (ps_rec s1 = false /\ ps_term s1 = Some t).
  Proof. intros H; inversion H; subst; auto. Qed.

  Lemma gct_stacks s s1 ot ev : gct_spec s (s1, ot, ev) ->
    ps_cursors s1 = ps_cursors s /\ ps_values s1 = ps_values s /\ ps_ctx s1 = ps_ctx s /\
    ps_rec s1 = ps_rec s /\ ps_cons s1 = ps_cons s.
  Proof. intros H. change s1 with (fst (fst (s1, ot, ev))). destruct H; cbn; auto 6. Qed.

  (* No validity is assumed of the table. This much C10, C14 and C18 need (DriverPos, DriverLinear, DriverTokens): a shift
     with <eof> pending behind trailing white space lets consume_term move the cursor back ([DriverPos.no_eof_shift]). *)
  Definition no_shift_col (col : nat) : Prop :=
    forall st e, cell tbl st (nterm_count g + col) = inl e -> e_kind e <> KShift.
  Definition eof_err_not_shifted : Prop := no_shift_col (eof_idx g) /\ no_shift_col (err_idx g).
End Basics.

Arguments clr {V C}. Arguments lc {V C}.

Arguments gct_term {V C g opts buf lexer s s1 t ev}.
Arguments gct_stacks {V C g opts buf lexer s s1 ot ev}.
Arguments same_cur {V C}.
Arguments run_gh_shift {V C g tbl opts buf cap lexer term_f err_f rule_f}.
Arguments run_gh_nth {V C g tbl opts buf cap lexer term_f err_f rule_f}.
Arguments run_gh_last {V C g tbl opts buf cap lexer term_f err_f rule_f}.
Arguments step_gct {V C g tbl opts buf cap lexer term_f err_f rule_f s cursor cs s1 t ev1}.
Arguments step_lexfail {V C g tbl opts buf cap lexer term_f err_f rule_f s cursor cs s1 ev1}.
Arguments step_empty {V C g tbl opts buf cap lexer term_f err_f rule_f s}.
Arguments step_rec {V C g tbl opts buf cap lexer term_f err_f rule_f s cursor cs}.
Arguments gct_rec {V C g opts buf lexer s}.
Arguments gct_pending {V C g opts buf lexer s}.

(* reduce projections of states built with the setters / clr *)
Ltac simp_ps :=
  unfold consume_term, set_pos, set_modes, set_stacks, set_ctx;
  cbn [ps_cursors ps_values ps_sp ps_it ps_end ps_term ps_rec ps_cons ps_ctx];
  rewrite ?clr_cursors, ?clr_values, ?clr_sp, ?clr_it, ?clr_end, ?clr_term, ?clr_rec, ?clr_ctx, ?clr_cons.
Ltac simp_ps_in H :=
  unfold consume_term, set_pos, set_modes, set_stacks, set_ctx in H;
  cbn [ps_cursors ps_values ps_sp ps_it ps_end ps_term ps_rec ps_cons ps_ctx] in H;
  rewrite ?clr_cursors, ?clr_values, ?clr_sp, ?clr_it, ?clr_end, ?clr_term, ?clr_rec, ?clr_ctx, ?clr_cons in H.

(* the table hypothesis is decidable: a checker to discharge it by computation on a concrete table *)
Definition no_shift_colb (tbl : table) (c : nat) : bool :=
  forallb (fun row => match nth_error row c with
                      | Some e => match e_kind e with KShift => false | _ => true end
                      | None => true
                      end) tbl.
Definition eof_err_not_shiftedb (g : grammar) (tbl : table) : bool :=
  no_shift_colb tbl (nterm_count g + eof_idx g) && no_shift_colb tbl (nterm_count g + err_idx g).

Lemma no_shift_colb_ok g tbl col : no_shift_colb tbl (nterm_count g + col) = true -> no_shift_col g tbl col.
Proof.
  intros H st e (row & Hr & He)%cell_inl Hk. unfold no_shift_colb in H. rewrite forallb_forall in H.
  specialize (H row (nth_error_In _ _ Hr)). rewrite He, Hk in H. discriminate.
Qed.

Lemma eof_err_not_shiftedb_ok g tbl : eof_err_not_shiftedb g tbl = true -> eof_err_not_shifted g tbl.
Proof. unfold eof_err_not_shiftedb. intros H. apply andb_true_iff in H as [H1 H2]. split; apply no_shift_colb_ok; assumption. Qed.
