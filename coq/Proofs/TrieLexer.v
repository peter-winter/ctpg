(* The in-place merging lexer builder is correct on plain term sets.

   In general the builder of Model/Dfa.v is wrong (in-place merging is not a subset construction: see
   Proofs/DfaValidTest.v, pattern a*a), which is why Props/Properties_C04.v states longest-match tokenisation only
   for automata accepted by the validator [lexer_ok].  For term sets that consist of character terms and string
   terms only (keywords, punctuation) no per-instance validation is needed: [create_lexer] succeeds and the
   automaton satisfies the conclusion of [C04_validated] on every byte string.

   The part of the automaton reachable from state 0 is a trie: walks from the root are injective, and the first
   recognition slot of the state reached by a byte string x is the least index of a term whose string is x. *)
Require Import Ctpg.Base.Prelude Ctpg.Proofs.ListFacts Ctpg.Model.Driver Ctpg.Model.Dfa Ctpg.Spec.Lang
               Ctpg.Proofs.DfaValidSound Ctpg.Proofs.BuilderSize Ctpg.Proofs.BuilderTerm Ctpg.Proofs.SafeDfa
               Ctpg.Proofs.TrieLexerBase Ctpg.Proofs.TrieLexerChain Ctpg.Proofs.TrieLexerMerge
               Ctpg.Model.Grammar Ctpg.Proofs.UtilsCorrect.

(* [Grammar.find_str ws x] is the least index of the word x among ws: a word appended at the end answers for itself
   only, and only if it was absent *)
Lemma find_str_snoc : forall (ws : list (list nat)) x w,
  find_str (ws ++ [w]) x =
  match find_str ws x with
  | Some a => Some a
  | None => if list_eq_dec Nat.eq_dec x w then Some (length ws) else None
  end.
Proof.
  induction ws as [|w0 ws IH]; intros x w; cbn [app find_str length].
  - destruct (ident_eqb w x) eqn:E; destruct (list_eq_dec Nat.eq_dec x w) as [->|Hne]; try reflexivity.
    + apply ident_eqb_spec in E. congruence.
    + rewrite (proj2 (ident_eqb_spec w w) eq_refl) in E. discriminate.
  - destruct (ident_eqb w0 x); [reflexivity|]. rewrite IH.
    destruct (find_str ws x); [reflexivity|]. destruct (list_eq_dec Nat.eq_dec x w); reflexivity.
Qed.

(* what the matcher sees after reading x from the root *)
Definition obs (sm : dfa) (x : list nat) : option nat :=
  match walk sm 0 x with Some q => hd_error (d_rec (get sm q)) | None => None end.

(* third conjunct: merged marks are state indices. The chain of the next term starts at length sm, so no trie node is
   marked with one of its states: the fourth premise of merge_chain. *)
Definition trie_inv (sm : dfa) (ws : list (list nat)) : Prop :=
  0 < length sm /\ wf p256 sm /\
  (forall q m, In m (d_merged (get sm q)) -> m < length sm) /\
  (forall x y q, walk sm 0 x = Some q -> walk sm 0 y = Some q -> x = y) /\
  (forall x, bytes_ok x -> obs sm x = find_str ws x).

(* along the chain of W only W itself is recognised *)
Lemma chain_obs : forall sm N from W idx x,
  chain sm N from W [idx] -> bytes_ok x ->
  match walk sm from x with Some q => hd_error (d_rec (get sm q)) | None => None end =
  if list_eq_dec Nat.eq_dec x W then Some idx else None.
Proof.
  intros sm N from W idx x Hc Hx. destruct (walk sm from x) as [q|] eqn:Ew.
  - destruct (chain_walk _ _ _ _ _ _ _ Hc Ew) as (z & E & Hz & _).
    destruct z as [|c z]; cbn [chain] in Hz; destruct Hz as (_ & _ & Hz); [destruct Hz as (_ & -> & _) | destruct Hz as (-> & _)].
    + rewrite app_nil_r in E. destruct (list_eq_dec Nat.eq_dec x W); [reflexivity | congruence].
    + destruct (list_eq_dec Nat.eq_dec x W) as [->|]; [|reflexivity].
      apply (f_equal (@length nat)) in E. rewrite app_length in E. cbn [length] in E. lia.
  - destruct (list_eq_dec Nat.eq_dec x W) as [->|]; [|reflexivity].
    destruct (chain_walk_full _ _ _ _ _ Hx Hc) as (q & Hq). congruence.
Qed.

Lemma add_term_inv : forall sm ws t sm',
  (sm = [] /\ ws = [] \/ trie_inv sm ws) -> is_plain t ->
  add_term sm t (length ws) = Some sm' ->
  trie_inv sm' (ws ++ [word_of t]).
Proof.
  intros sm ws t sm' Hinv Hpl H.
  destruct (regex_of_plain t Hpl) as (c0 & w & HW & Hre). rewrite HW.
  set (Wd := c0 :: w) in *. set (idx := length ws) in *.
  assert (Wsm : wf p256 sm).
  { destruct Hinv as [[-> _]|(_ & Wf & _)]; [apply wf_nil | assumption]. }
  unfold add_term in H. rewrite Hre in H.
  destruct (build (regex_of_string Wd) sm) as [[sm1 s]|] eqn:EB; [|discriminate].
  pose proof (build_wf p256 eq_refl _ _ _ _ (sets_ok_word w c0) Wsm EB) as W1.
  apply build_word in EB; [|assumption]. destruct EB as [-> CB].
  destruct (chain_of_built sm sm1 Wd idx ltac:(discriminate) CB) as (C1 & C2 & C3 & C4).
  change (mark_end_states sm1 (mkSl (length sm) (2 * S (length w))) idx) with (marked_chain sm sm1 Wd idx) in H.
  set (sm2 := marked_chain sm sm1 Wd idx) in *.
  assert (W2 : wf p256 sm2).
  { eapply (msteps_wf p256 eq_refl); [apply mark_end_states_msteps | exact W1]. }
  unfold b_alt in H. cbn [sl_start sl_n] in H.
  destruct (merge (merge_fuel sm2) sm2 0 (length sm) true true) as [smm|] eqn:EM; [|discriminate].
  cbn [option_map fst] in H. inversion H; subst smm. clear H.
  assert (Hlen : 0 < length Wd) by (unfold Wd; cbn [length]; lia).
  destruct Hinv as [[-> ->]|(I1 & I2 & I3 & I4 & I5)].
  - (* the first term: the automaton is the chain itself *)
    cbn [length] in *. unfold merge_fuel in EM. rewrite merge_S in EM. cbn [Nat.eqb] in EM. inversion EM; subst sm'.
    cbn [app]. split; [lia|]. split; [assumption|].
    split. { intros q m Hm. apply (C3 q m); [lia | assumption]. }
    split. { intros x y q. apply (chain_walk_inj _ _ _ _ _ _ _ _ C4). }
    intros x Hx. unfold obs. rewrite (chain_obs _ _ _ _ _ _ C4 Hx). symmetry. exact (find_str_snoc [] x Wd).
  - (* a later term: its chain is merged into the trie *)
    set (N := length sm) in *.
    assert (Wk : forall x q, q < N -> walk sm2 q x = walk sm q x).
    { intros x q Hq. apply walk_same. intros z q' Hz c. unfold tr. rewrite C2; [reflexivity | eapply walk_bound; eauto]. }
    assert (Hold : forall x q, walk sm2 0 x = Some q -> q < N).
    { intros x q Hq. rewrite Wk in Hq by assumption. eapply walk_bound; eauto. }
    destruct (merge_chain (merge_fuel sm2) Wd sm2 0 N [idx] N sm') as (P2 & _ & P4 & P5 & P6); auto.
    { intros x y q. rewrite !Wk by assumption. apply I4. }
    { intros q m Hq Hm. rewrite C2 in Hm by assumption. apply I3 in Hm. assumption. }
    pose proof (merge_length _ _ _ _ _ _ _ EM) as P1.
    split; [lia|].
    split. { eapply (merge_wf p256 eq_refl); eauto. }
    split. { intros q m Hm. rewrite P1. destruct (P6 _ _ Hm) as [Hm'|Hm']; auto.
             destruct (Nat.lt_ge_cases q N) as [Hq|Hq].
             - rewrite C2 in Hm' by assumption. apply I3 in Hm'. lia.
             - eapply C3; eauto. }
    split.
    { intros x y q Hx Hy. rewrite P2 in Hx, Hy.
      destruct (walk sm2 0 x) as [qx|] eqn:Ex; destruct (walk sm2 0 y) as [qy|] eqn:Ey.
      - inversion Hx; inversion Hy; subst. rewrite Wk in Ex, Ey by assumption. eapply I4; eauto.
      - inversion Hx; subst. pose proof (Hold _ _ Ex). pose proof (chain_walk_lo _ _ _ _ _ _ _ C4 Hy). lia.
      - inversion Hy; subst. pose proof (Hold _ _ Ey). pose proof (chain_walk_lo _ _ _ _ _ _ _ C4 Hx). lia.
      - eapply chain_walk_inj; eauto. }
    intros x Hx. rewrite find_str_snoc. fold idx.
    pose proof (I5 x Hx) as Ho. unfold obs in Ho. rewrite <- (Wk x 0) in Ho by assumption.
    unfold obs. rewrite P2. destruct (walk sm2 0 x) as [q|] eqn:Ex.
    + (* an old node: its slots change only if it is the one where the new chain ends *)
      pose proof (Hold _ _ Ex) as Hq. rewrite (P5 q Hq).
      rewrite <- (C2 q Hq) in Ho. unfold reaches.
      destruct (list_eq_dec Nat.eq_dec x Wd) as [->|Hne].
      * rewrite Ex, Nat.eqb_refl, fold_add_conflicted_hd, Ho. reflexivity.
      * destruct (walk sm2 0 Wd) as [qu|] eqn:Eu; [destruct (Nat.eqb_spec qu q) as [->|_]|]; rewrite ?Ho.
        -- destruct Hne. rewrite Wk in Ex, Eu by assumption. eapply I4; eauto.
        -- destruct (find_str ws x); reflexivity.
        -- destruct (find_str ws x); reflexivity.
    + rewrite <- Ho, <- (chain_obs _ _ _ _ _ _ C4 Hx).
      destruct (walk sm2 N x) as [q|] eqn:Eq; auto.
      destruct (P4 q (chain_walk_lo _ _ _ _ _ _ _ C4 Eq)) as (_ & -> & _). reflexivity.
Qed.

Lemma create_lexer_aux_inv : forall ts done sm sm',
  Forall is_plain ts ->
  (sm = [] /\ done = [] \/ trie_inv sm (map word_of done)) ->
  create_lexer_aux ts (length done) sm = Some sm' ->
  (sm' = [] /\ done ++ ts = [] \/ trie_inv sm' (map word_of (done ++ ts))).
Proof.
  induction ts as [|t ts IH]; intros done sm sm' Hpl Hinv H; cbn [create_lexer_aux] in H.
  - inversion H; subst. rewrite app_nil_r. exact Hinv.
  - inversion Hpl as [|t' ts' Ht Hts]; subst.
    destruct (add_term sm t (length done)) as [sm1|] eqn:EA; [|discriminate].
    assert (Inv1 : trie_inv sm1 (map word_of (done ++ [t]))).
    { rewrite map_app. cbn [map]. apply (add_term_inv sm (map word_of done) t sm1); auto.
      - destruct Hinv as [[-> ->]|Hinv]; auto.
      - rewrite map_length. exact EA. }
    replace (S (length done)) with (length (done ++ [t])) in H by (rewrite app_length; cbn; lia).
    apply (IH (done ++ [t])) in H; auto.
    rewrite <- app_assoc in H. exact H.
Qed.

Theorem plain_lexer_trie : forall ts sm,
  Forall is_plain ts -> ts <> [] -> create_lexer ts = Some sm -> trie_inv sm (map word_of ts).
Proof.
  intros ts sm Hpl Hne H. unfold create_lexer in H.
  destruct (create_lexer_aux_inv ts [] [] sm Hpl (or_introl (conj eq_refl eq_refl)) H) as [[_ E]|Hinv].
  - cbn [app] in E. contradiction.
  - exact Hinv.
Qed.

Lemma matches_single : forall c x, matches (RSet (cs_single c)) x <-> x = [c] /\ c < 256.
Proof.
  intros c x. split.
  - intros H. inversion H; subst. rewrite cs_single_nth in H1.
    apply andb_true_iff in H1. destruct H1 as [H1 H2]. apply Nat.eqb_eq in H1. apply Nat.ltb_lt in H2. subst. auto.
  - intros [-> H]. constructor. rewrite cs_single_nth, Nat.eqb_refl. apply Nat.ltb_lt. assumption.
Qed.

Lemma matches_word : forall w c0 x,
  matches (regex_of_string (c0 :: w)) x <-> x = c0 :: w /\ bytes_ok (c0 :: w).
Proof.
  induction w as [|c w IH] using rev_ind; intros c0 x.
  - cbn [regex_of_string fold_left]. split.
    + intros H. apply matches_single in H. destruct H as [-> H]. split; auto. unfold bytes_ok. auto.
    + intros [-> H]. apply matches_single. split; [reflexivity|]. exact (Forall_inv H).
  - rewrite regex_of_string_snoc. split.
    + intros H. inversion H; subst. apply IH in H2. destruct H2 as [-> Ho].
      apply matches_single in H4. destruct H4 as [-> Hc].
      split; [reflexivity|]. unfold bytes_ok in *. change (c0 :: w ++ [c]) with ((c0 :: w) ++ [c]).
      apply Forall_app. split; auto.
    + intros [-> H]. unfold bytes_ok in H. change (c0 :: w ++ [c]) with ((c0 :: w) ++ [c]) in *.
      apply Forall_app in H. destruct H as [H1 H2]. constructor.
      * apply IH. split; auto.
      * apply matches_single. split; [reflexivity|]. exact (Forall_inv H2).
Qed.

Lemma plain_term_matches : forall t x, is_plain t ->
  (term_matches t x <-> x = word_of t /\ bytes_ok (word_of t)).
Proof.
  intros t x H. destruct (regex_of_plain t H) as (c0 & w & HW & Hre).
  unfold term_matches. rewrite Hre, HW. apply matches_word.
Qed.

Section Run.
Variable ts : list term_data.
Variable sm : dfa.
Hypothesis Hpl : Forall is_plain ts.
Hypothesis Hinv : trie_inv sm (map word_of ts).

Lemma nth_matches : forall j t x, nth_error ts j = Some t ->
  (term_matches t x <-> x = word_of t /\ bytes_ok (word_of t)).
Proof. intros j t x H. apply plain_term_matches. rewrite Forall_forall in Hpl. apply Hpl. eapply nth_error_In; eauto. Qed.

(* the slots of the state reached by pre say which term, if any, matches pre *)
Lemma slot_best : forall pre rest q rt,
  bytes_ok pre -> walk sm 0 pre = Some q ->
  best ts (pre ++ rest) (length pre) rt ->
  best ts (pre ++ rest) (S (length pre)) (rec_step (get sm q) (length pre) rt).
Proof.
  intros pre rest q rt Hok Hw Hb. destruct Hinv as (_ & _ & _ & _ & I5).
  pose proof (I5 pre Hok) as Ho. unfold obs in Ho. rewrite Hw in Ho. unfold rec_step.
  destruct (d_rec (get sm q)) as [|t0 l]; cbn [hd_error] in Ho; symmetry in Ho.
  - eapply best_extend; eauto. intros len' j t Ha Hb' Hj Hm.
    assert (len' = length pre) by lia. subst len'. rewrite firstn_app_exact in Hm.
    apply (nth_matches _ _ _ Hj) in Hm. destruct Hm as [Hm _].
    apply find_str_none in Ho. apply Ho. rewrite Hm. apply in_map. eapply nth_error_In; eauto.
  - apply find_str_some in Ho. destruct Ho as (Hlt & Hn & Hless). rewrite map_length in Hlt.
    destruct (nth_error ts t0) as [t|] eqn:Et; [|apply nth_error_None in Et; lia].
    rewrite (nth_error_nth _ _ _ (map_nth_error word_of _ _ Et)) in Hn.
    cbn [best]. split; [lia|]. split; [|split].
    + exists t. split; auto. rewrite firstn_app_exact.
      apply (nth_matches _ _ _ Et). split; [auto|]. rewrite Hn. assumption.
    + intros j t' Hj Ht Hm. rewrite firstn_app_exact in Hm.
      apply (nth_matches _ _ _ Ht) in Hm. destruct Hm as [Hm _].
      apply (Hless j Hj). rewrite (nth_error_nth _ _ _ (map_nth_error word_of _ _ Ht)). auto.
    + intros; lia.
Qed.

Lemma run_trie : forall rest pre q rt,
  bytes_ok (pre ++ rest) -> walk sm 0 pre = Some q ->
  best ts (pre ++ rest) (length pre) rt ->
  is_longest_match ts (pre ++ rest) (fst (run sm q (length pre) rest rt)).
Proof.
  induction rest as [|c rest IH]; intros pre q rt Hok Hw Hb.
  - pose proof Hinv as (I1 & I2 & _ & _ & I5).
    assert (Hq : q < length sm) by (eapply walk_bound; eauto).
    assert (Hok' : bytes_ok pre) by (rewrite app_nil_r in Hok; assumption).
    pose proof (slot_best pre [] q rt Hok' Hw Hb) as Hb1.
    rewrite run_eq. destruct (nth_error sm q) as [d|] eqn:Ed; [|apply nth_error_None in Ed; lia].
    rewrite <- (get_nth_error _ _ _ Ed). cbn [fst]. apply best_final. rewrite app_length. cbn [length].
    rewrite Nat.add_0_r. exact Hb1.
  - pose proof Hinv as (I1 & I2 & _ & _ & I5).
    assert (Hq : q < length sm) by (eapply walk_bound; eauto).
    assert (Hok' : bytes_ok pre) by (unfold bytes_ok in *; apply Forall_app in Hok; tauto).
    pose proof (slot_best pre (c :: rest) q rt Hok' Hw Hb) as Hb1.
    rewrite run_eq. destruct (nth_error sm q) as [d|] eqn:Ed; [|apply nth_error_None in Ed; lia].
    rewrite <- (get_nth_error _ _ _ Ed). fold (tr sm q c).
    assert (Es : pre ++ c :: rest = (pre ++ [c]) ++ rest) by (rewrite <- app_assoc; reflexivity).
    assert (El : length (pre ++ [c]) = S (length pre)) by (rewrite app_length; cbn; lia).
    destruct (tr sm q c) as [nx|] eqn:Et.
    + rewrite Es, <- El. apply IH.
      * rewrite <- Es. assumption.
      * rewrite walk_app, Hw. cbn [walk]. rewrite Et. reflexivity.
      * rewrite El, <- Es. exact Hb1.
    + cbn [fst]. apply best_final. eapply best_extend; [exact Hb1 | rewrite app_length; cbn; lia |].
      intros len' j t Ha Hb' Hj Hm.
      apply (nth_matches _ _ _ Hj) in Hm. destruct Hm as [Hm Hmo].
      assert (Hin : In (word_of t) (map word_of ts)) by (apply in_map; eapply nth_error_In; eauto).
      destruct (find_str (map word_of ts) (word_of t)) as [k|] eqn:Ek.
      2:{ apply find_str_none in Ek. contradiction. }
      pose proof (I5 _ Hmo) as Ho. rewrite Ek in Ho. unfold obs in Ho.
      rewrite <- Hm in Ho. rewrite Es, firstn_long in Ho by lia. rewrite <- app_assoc in Ho. cbn [app] in Ho.
      rewrite walk_app, Hw in Ho. cbn [walk] in Ho. rewrite Et in Ho. discriminate.
Qed.
End Run.

(* For every term set made of character terms and string terms only - duplicates, the empty string (which the
   library treats as the one-byte string "\0") and any number of equal strings included - the builder succeeds
   and the automaton computes the longest match with first-listed priority on every byte string: the conclusion
   of Props/Properties_C04.v [C04_validated], without the hypothesis [lexer_ok sm ts = true]. *)
Theorem plain_lexer_correct : forall ts,
  Forall is_plain ts ->
  exists sm, create_lexer ts = Some sm /\
             forall s, bytes_ok s -> is_longest_match ts s (snd (dfa_match sm false sp0 s)).
Proof.
  intros ts Hpl. destruct (create_lexer ts) as [sm|] eqn:E; [|exfalso; eapply create_lexer_total; eauto].
  exists sm. split; auto. intros s Hs. rewrite dfa_match_run.
  destruct ts as [|t ts'].
  - unfold create_lexer in E. cbn in E. inversion E; subst. rewrite run_eq. cbn.
    intros len' j t _ Hj. destruct j; discriminate.
  - assert (Hinv : trie_inv sm (map word_of (t :: ts'))) by (apply plain_lexer_trie; auto; discriminate).
    apply (run_trie (t :: ts') sm Hpl Hinv s [] 0 None); auto.
    cbn. intros; lia.
Qed.

(* the same statement in the form of C04_validated *)
Corollary plain_lexer_correct' : forall ts sm s,
  Forall is_plain ts -> create_lexer ts = Some sm -> bytes_ok s ->
  is_longest_match ts s (snd (dfa_match sm false sp0 s)).
Proof.
  intros ts sm s Hpl E Hs. destruct (plain_lexer_correct ts Hpl) as (sm0 & E0 & H).
  rewrite E in E0. inversion E0; subst. auto.
Qed.

Corollary plain_lexer_total : forall ts, Forall is_plain ts -> exists sm, create_lexer ts = Some sm.
Proof. intros ts H. destruct (plain_lexer_correct ts H) as (sm & E & _). eauto. Qed.

(* the verdict does not depend on the verbose flag nor on the source point *)
Corollary plain_lexer_correct_any : forall ts sm vb p s,
  Forall is_plain ts -> create_lexer ts = Some sm -> bytes_ok s ->
  is_longest_match ts s (snd (dfa_match sm vb p s)).
Proof.
  intros ts sm vb p s Hpl E Hs. rewrite (dfa_match_verdict_independent sm vb false p sp0 s).
  apply plain_lexer_correct'; assumption.
Qed.

(* the matcher never indexes the automaton out of range (for the empty term set the automaton is empty and
   state 0 itself is out of range) *)
Theorem plain_lexer_no_oob : forall ts sm s,
  Forall is_plain ts -> ts <> [] -> create_lexer ts = Some sm -> dfa_match_oob sm s = false.
Proof. intros ts sm s _. apply lexer_no_oob_nonempty. Qed.

Print Assumptions plain_lexer_trie.
Print Assumptions plain_lexer_no_oob.
Print Assumptions plain_lexer_correct_any.
Print Assumptions plain_lexer_correct.
Print Assumptions plain_lexer_correct'.
