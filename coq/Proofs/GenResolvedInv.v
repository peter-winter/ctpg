(* The invariant of the generator's two loops (states_loop, trans_loop), with no hypothesis about conflict marks:
   - [cell_rec]  : every finished cell is exactly what transitions() writes for the scan (scan_cell) of the
                   bucket of the FINAL item set of its state: the default entry for an empty bucket, the non-shift
                   entry of the scan, or a shift into a state whose kernel is the scan's kernel.
   - [st_good]   : every state is non-empty, and every dot-0 item other than the root item of state 0 was appended
                   by the closure of an item standing EARLIER in the same state ([gen_by] of Proofs/GenClosure.v).
   [inv nclo cur col] says where the generator is: [nclo] states are closed, the rows below [cur] and the columns
   below [col] of row [cur] are finished, every other cell is still the default entry. The generator does three things,
   and each is shown once to keep it: it closes state [cur] (inv_close), writes a cell of row [cur] (inv_write),
   appends the state of a new kernel (inv_new). A transition into an existing state changes no state (the kernel found
   equals the new kernel, so adding its items adds nothing: do_shift_cases of Proofs/GenTrans.v).
   Proofs/GenCorrect.v reads the cells of the finished table off [cell_rec]; Proofs/GenTermChecks.v uses [st_good]. *)
Require Import Ctpg.Base.Prelude Ctpg.Proofs.ListFacts Ctpg.Model.Grammar Ctpg.Model.LRGen Ctpg.Valid.LRValid
               Ctpg.Proofs.GenLists Ctpg.Proofs.GenWf Ctpg.Proofs.CellBasics
               Ctpg.Proofs.GenClosure Ctpg.Proofs.GenScan Ctpg.Proofs.GenTrans.

Definition cell_rec (g : grammar) (sts : list lrstate) (tb : table) (s c : nat) : Prop :=
  let B := bucket g (st_all (stn sts s)) c in
  let Sc := scan_cell g B scan0 in
  (B = [] /\ cell_at tb s c = entry_default) \/
  (B <> [] /\ sc_kind Sc <> KShift /\ cell_at tb s c = nonshift_entry Sc) \/
  (B <> [] /\ sc_kind Sc = KShift /\
   exists idx, cell_at tb s c = mkE (kd g c) (Some idx) (sc_sr Sc) /\ idx < length sts /\ idx <> 0 /\
               forall j, In j (st_kernel (stn sts idx)) <-> In j (sc_kernel Sc)).

Lemma cell_rec_frame g sts sts' tb tb' s c :
  length sts <= length sts' ->
  (forall s, s < length sts -> st_kernel (stn sts' s) = st_kernel (stn sts s)) ->
  stn sts' s = stn sts s -> cell_at tb' s c = cell_at tb s c ->
  cell_rec g sts tb s c -> cell_rec g sts' tb' s c.
Proof.
  intros Hl Hk Hs Hc H. unfold cell_rec in *. rewrite Hs, Hc.
  destruct H as [H|[H|(A & B & idx & C & D & E & F)]]; auto.
  right; right. split; [assumption|]. split; [assumption|]. exists idx.
  split; [assumption|]. split; [lia|]. split; [assumption|]. rewrite Hk by assumption. assumption.
Qed.

Section Order.
  Variable g : grammar.
  Variable ne : bset.
  Variable nf : list bset.

  Definition dot0_generated (s : nat) (its : list item) : Prop :=
    forall j y, nth_error its j = Some y -> it_d y = 0 -> (s = 0 /\ y = root_item g) \/ gen_by g ne nf its j y.

  Definition st_good (s : nat) (its : list item) : Prop := its <> [] /\ dot0_generated s its.

  Lemma close_good (WF : wf_facts g) (WFX : wfx_facts g) s pre :
    NoDup pre -> Forall (item_okP g) pre -> st_good s pre ->
    st_good s (close_loop (S (address_space g)) g ne nf pre 0).
  Proof.
    intros Hnd Hok (Hne & Hord).
    destruct (close_loop_closure_ok g WF WFX ne nf pre Hnd Hok) as (_ & _ & _ & (ext & -> & _) & Hext).
    split; [destruct pre; [congruence|discriminate]|].
    intros j y Hj Hd. destruct (Nat.lt_ge_cases j (length pre)) as [Hlt|Hge]; [|right; apply Hext; assumption].
    rewrite nth_error_app1 in Hj by assumption. destruct (Hord j y Hj Hd) as [H|H]; [left; assumption|].
    right. apply gen_by_app. assumption.
  Qed.

  Lemma init_good : st_good 0 [root_item g].
  Proof.
    split; [discriminate|]. intros j y Hj _. left. split; [reflexivity|].
    destruct j as [|j]; cbn in Hj; [congruence|destruct j; discriminate].
  Qed.
End Order.

Lemma stn_update_eq sts n x : n < length sts -> stn (update sts n x) n = x.
Proof. intros H. unfold stn. apply nth_update_eq. assumption. Qed.

Lemma stn_update_neq sts n m x : n <> m -> stn (update sts n x) m = stn sts m.
Proof. intros H. unfold stn. apply nth_update_neq. assumption. Qed.

Lemma cell_at_repeat n m s c : cell_at (repeat (repeat entry_default n) m) s c = entry_default.
Proof.
  unfold cell_at. destruct (Nat.lt_ge_cases s m) as [Hs|Hs].
  - rewrite nth_repeat_lt by assumption. 
    destruct (Nat.lt_ge_cases c n) as [Hc|Hc].
    + apply nth_repeat_lt. assumption.
    + apply nth_overflow. rewrite repeat_length. assumption.
  - rewrite (nth_overflow _ _ (n:=s)) by (rewrite repeat_length; assumption). destruct c; reflexivity.
Qed.

Section Loop.
  Variable g : grammar.
  Hypothesis WF : wf_facts g.
  Hypothesis WFX : wfx_facts g.
  Variable lim : limits.
  Variable ne : bset.
  Variable nf : list bset.

  Definition done_cell (cur col s c : nat) : Prop := s < cur \/ (s = cur /\ c < col).

  Record inv (nclo cur col : nat) (sts : list lrstate) (tb : table) : Prop := {
    iv_clo : nclo <= length sts;
    iv_pos : 0 < length sts;
    iv_cap : length sts <= state_cap lim;
    iv_tbl : length tb = state_cap lim;
    iv_rows : forall s, s < length tb -> length (nth s tb []) = symbol_count g;
    iv_disc : all_disc g sts;
    iv_good : forall s, s < length sts -> st_good g ne nf s (st_all (stn sts s));
    iv_closed : forall s, s < nclo -> closure_ok_list g ne nf (st_all (stn sts s)) = true;
    iv_fin : forall s c, done_cell cur col s c -> c < symbol_count g -> cell_rec g sts tb s c;
    iv_def : forall s c, ~ done_cell cur col s c -> cell_at tb s c = entry_default
  }.

  Lemma close_disc cur st :
    st_disc g cur st ->
    let res := close_loop (S (address_space g)) g ne nf (st_all st) 0 in
    st_disc g cur (mkSt res (st_kernel st)) /\ closure_ok_list g ne nf res = true.
  Proof.
    intros D. cbn zeta.
    destruct (close_loop_closure_ok g WF WFX ne nf (st_all st) (sd_nodup _ _ _ D))
      as (Hcl & Hnd & Hok & (ext & Eres & Hext) & _).
    { apply Forall_forall. apply (sd_ok _ _ _ D). }
    split; [|assumption].
    set (res := close_loop (S (address_space g)) g ne nf (st_all st) 0) in *.
    rewrite Forall_forall in Hok, Hext.
    assert (forall i, In i res -> In i (st_all st) \/ (it_d i = 0 /\ it_r i <> root_rule_idx g)) as Hsplit.
    { intros i Hi. rewrite Eres in Hi. apply in_app_iff in Hi. destruct Hi as [Hi|Hi]; [left; assumption|].
      right. apply Hext. assumption. }
    constructor; cbn [st_all st_kernel].
    - assumption.
    - assumption.
    - intros i Hi Er. destruct (Hsplit i Hi) as [Ho|(_ & Hn)]; [|contradiction]. apply (sd_rootla _ _ _ D); assumption.
    - intros i Hi. rewrite Eres. apply in_app_iff. left. apply (sd_ker_all _ _ _ D). assumption.
    - intros i Hi Hd. destruct (Hsplit i Hi) as [Ho|(Hz & _)]; [|contradiction]. apply (sd_dot_ker _ _ _ D); assumption.
    - intros E. destruct (sd_zero _ _ _ D E) as (Hk & Hz). split; [assumption|].
      intros i Hi. destruct (Hsplit i Hi) as [Ho|(Hz' & _)]; auto.
    - intros E. destruct (sd_nonzero _ _ _ D E) as (Hk & Hz). split; [assumption|].
      intros i Hi Hd0. destruct (Hsplit i Hi) as [Ho|(_ & Hn)]; auto.
  Qed.

  Lemma init_disc : all_disc g [mkSt [root_item g] [root_item g]].
  Proof.
    intros s Hs. cbn in Hs. assert (s = 0) as -> by lia. unfold stn; cbn [nth].
    constructor; cbn [st_all st_kernel].
    - constructor; [intros []|constructor].
    - intros i [<-|[]]. unfold item_okP, root_item; cbn.
      split; [apply wf_root_lt; assumption|]. split; [lia|apply wf_eof_lt; assumption].
    - intros i [<-|[]] _. reflexivity.
    - auto.
    - intros i [<-|[]] H. cbn in H. congruence.
    - intros _. split; [reflexivity|]. intros i [<-|[]]. reflexivity.
    - intros H. congruence.
  Qed.

  Lemma set_cell_same (tb : table) s c : set_cell tb s c (cell_at tb s c) = tb.
  Proof. unfold set_cell, cell_at. rewrite !update_nth_same. reflexivity. Qed.

  Lemma inv_close cur sts tb st :
    inv cur cur 0 sts tb -> nth_error sts cur = Some st ->
    inv (S cur) cur 0 (update sts cur (mkSt (close_loop (S (address_space g)) g ne nf (st_all st) 0) (st_kernel st))) tb.
  Proof.
    intros I Est.
    assert (cur < length sts) as Hcur by (eapply nth_error_Some_lt; eassumption).
    assert (stn sts cur = st) as Estn by (unfold stn; apply nth_error_nth; assumption).
    pose proof (iv_disc _ _ _ _ _ I cur Hcur) as D. rewrite Estn in D.
    destruct (close_disc cur st D) as (D1 & Hclo).
    set (res := close_loop (S (address_space g)) g ne nf (st_all st) 0) in *.
    set (sts1 := update sts cur (mkSt res (st_kernel st))).
    assert (length sts1 = length sts) as L1 by apply update_length.
    assert (forall s, s <> cur -> stn sts1 s = stn sts s) as O1 by (intros s Hs; apply stn_update_neq; congruence).
    assert (stn sts1 cur = mkSt res (st_kernel st)) as C1 by (apply stn_update_eq; assumption).
    destruct I as [Hclo0 Hpos Hcap Htbl Hrows Hdisc Hgood Hclosed Hfin Hdef].
    constructor; try assumption; try lia.
    - intros s Hs. destruct (Nat.eq_dec s cur) as [->|Hne]; [rewrite C1; assumption|].
      rewrite O1 by assumption. apply Hdisc. lia.
    - intros s Hs. destruct (Nat.eq_dec s cur) as [->|Hne]; [|rewrite O1 by assumption; apply Hgood; lia].
      rewrite C1. cbn [st_all].
      apply close_good; [assumption|assumption|apply (sd_nodup _ _ _ D)|apply Forall_forall, (sd_ok _ _ _ D)|].
      rewrite <- Estn. apply Hgood. assumption.
    - intros s Hs. destruct (Nat.eq_dec s cur) as [->|Hne]; [rewrite C1; assumption|].
      rewrite O1 by assumption. apply Hclosed. lia.
    - intros s c Hf Hc. assert (s < cur) as Hs by (unfold done_cell in Hf; lia).
      apply (cell_rec_frame g sts sts1 tb tb); [lia| |apply O1; lia|reflexivity|apply Hfin; assumption].
      intros s' _. destruct (Nat.eq_dec s' cur) as [->|Hne]; [rewrite C1, Estn; reflexivity|rewrite O1 by assumption; reflexivity].
  Qed.

  (* writing the cell under the cursor *)
  Lemma inv_write cur sts tb c e :
    inv (S cur) cur c sts tb -> cell_rec g sts (set_cell tb cur c e) cur c ->
    inv (S cur) cur (S c) sts (set_cell tb cur c e).
  Proof.
    intros [Hclo Hpos Hcap Htbl Hrows Hdisc Hgood Hclosed Hfin Hdef] Hrec.
    constructor; try assumption.
    - rewrite set_cell_length. assumption.
    - intros s. rewrite set_cell_length, set_cell_row_length. apply Hrows.
    - intros s c' Hf Hc'. assert (s = cur /\ c' = c \/ (s <> cur \/ c' <> c)) as [(-> & ->)|Hne] by lia; [assumption|].
      apply (cell_rec_frame g sts sts tb); auto; [apply cell_at_set_other; assumption|].
      apply Hfin; [unfold done_cell in *; lia|assumption].
    - intros s c' Hf. unfold done_cell in *. rewrite cell_at_set_other; [apply Hdef|]; lia.
  Qed.

  Lemma inv_new cur col sts tb K :
    inv (S cur) cur col sts tb -> K <> [] -> (forall j, In j K -> kitem_ok g j) -> S (length sts) <= state_cap lim ->
    inv (S cur) cur col (sts ++ [kstate K]) tb.
  Proof.
    intros [Hclo Hpos Hcap Htbl Hrows Hdisc Hgood Hclosed Hfin Hdef] HK HKok Hcap'.
    assert (forall j, In j (st_all (kstate K)) -> kitem_ok g j) as HKKok by (intros j Hj; apply HKok, kstate_In, Hj).
    constructor; rewrite ?app_length; cbn [length]; try assumption; try lia.
    - intros s Hs. rewrite app_length in Hs. cbn [length] in Hs.
      destruct (Nat.eq_dec s (length sts)) as [->|Hne]; [|rewrite stn_app_l by lia; apply Hdisc; lia].
      rewrite stn_app_last. constructor; cbn [kstate st_all st_kernel]; auto.
      + apply fold_add_NoDup. constructor.
      + intros i Hi. apply (HKKok i Hi).
      + intros i Hi. apply (HKKok i Hi).
      + intros E. lia.
      + intros _. split; [intros i Hi; apply (HKKok i Hi)|].
        intros i Hi E. destruct (HKKok i Hi) as (Hi' & _). congruence.
    - intros s Hs.
      destruct (Nat.eq_dec s (length sts)) as [->|Hne]; [|rewrite stn_app_l by lia; apply Hgood; lia].
      rewrite stn_app_last. split; cbn [kstate st_all].
      + destruct K as [|x K]; [congruence|]. intros E. apply (in_nil (a:=x)). rewrite <- E. apply (kstate_In (x :: K)). left. reflexivity.
      + intros j y Hj Hy. exfalso. apply (HKKok y); [eapply nth_error_In; eassumption|assumption].
    - intros s Hs. rewrite stn_app_l by lia. apply Hclosed. assumption.
    - intros s c Hf Hc. assert (s < length sts) as Hs by (unfold done_cell in Hf; lia).
      apply (cell_rec_frame g sts _ tb tb); [rewrite app_length; lia| |apply stn_app_l; assumption|reflexivity|apply Hfin; assumption].
      intros s' Hs'. rewrite stn_app_l by assumption. reflexivity.
  Qed.

  Lemma inv_column cur sts tb c sts' tb' :
    inv (S cur) cur c sts tb -> c < symbol_count g ->
    do_transitions g lim cur c sts tb = inl (sts', tb') -> inv (S cur) cur (S c) sts' tb'.
  Proof.
    intros I Hcs H. rewrite do_transitions_eq in H.
    assert (cur < length sts) as Hcur by apply (iv_clo _ _ _ _ _ I).
    assert (cell_at tb cur c = entry_default) as Hdef by (apply (iv_def _ _ _ _ _ I); unfold done_cell; lia).
    assert (forall e, cell_at (set_cell tb cur c e) cur c = e) as Hset.
    { intros e. pose proof (iv_cap _ _ _ _ _ I). pose proof (iv_tbl _ _ _ _ _ I).
      apply cell_at_set_same; [lia|]. rewrite (iv_rows _ _ _ _ _ I); [assumption|lia]. }
    set (B := bucket g (st_all (stn sts cur)) c) in *.
    destruct B as [|b0 B0] eqn:EB.
    - inversion H; subst sts' tb'. rewrite <- (set_cell_same tb cur c). apply inv_write; try assumption.
      rewrite set_cell_same. left. fold B. rewrite EB. auto.
    - assert (B <> []) as Hne by (rewrite EB; discriminate). rewrite <- EB in H. cbn zeta in H.
      set (Sc := scan_cell g B scan0) in *.
      assert (sc_kind Sc = KShift \/ sc_kind Sc <> KShift) as [Ek|Ek]
          by (destruct (sc_kind Sc); auto; right; discriminate).
      + rewrite Ek in H. pose proof (scan_kshift_kernel g WF cur _ (iv_disc _ _ _ _ _ I cur Hcur) c Ek) as HK.
        assert (forall j, In j (sc_kernel Sc) -> kitem_ok g j) as HKok
            by (intros j Hj; eapply (scan_kernel_ok g WF); [apply (iv_disc _ _ _ _ _ I cur Hcur)|eassumption]).
        apply do_shift_cases in H as (idx & -> & [(-> & Hidx & Hidx0 & Hker)|(-> & -> & Hcap)]);
          [| |apply (iv_disc _ _ _ _ _ I)|assumption|assumption].
        * apply inv_write; try assumption. right; right. fold B Sc. rewrite Hset. eauto 10.
        * assert (inv (S cur) cur c (sts ++ [kstate (sc_kernel Sc)]) tb) as I1 by (apply inv_new; assumption).
          apply inv_write; try assumption. right; right. rewrite stn_app_l by assumption. fold B Sc. rewrite Hset.
          split; [assumption|]. split; [assumption|]. exists (length sts). rewrite app_length, stn_app_last. cbn [length kstate st_kernel].
          pose proof (iv_pos _ _ _ _ _ I). split; [reflexivity|]. split; [lia|]. split; [lia|].
          apply kstate_In.
      + assert (sts' = sts /\ tb' = set_cell tb cur c (nonshift_entry Sc)) as (-> & ->).
        { destruct (sc_kind Sc); try congruence; inversion H; auto. }
        apply inv_write; try assumption. right; left. fold B Sc. rewrite Hset. auto.
  Qed.

  Lemma inv_row cur n : forall col sts tb sts' tb',
    inv (S cur) cur col sts tb -> col + n <= symbol_count g ->
    trans_loop g lim cur (seq col n) sts tb = inl (sts', tb') -> inv (S cur) cur (col + n) sts' tb'.
  Proof.
    induction n as [|n IH]; intros col sts tb sts' tb' I Hn H; cbn [seq trans_loop] in H.
    - inversion H; subst. rewrite Nat.add_0_r. exact I.
    - destruct (do_transitions g lim cur col sts tb) as [[sts1 tb1]|err] eqn:E1; [|discriminate].
      rewrite Nat.add_succ_r. apply (IH (S col) sts1 tb1); [eapply inv_column; [exact I|lia|exact E1]|lia|exact H].
  Qed.

  Lemma states_loop_inv fuel : forall cur sts tb sts' tb',
    inv cur cur 0 sts tb -> states_loop fuel g lim ne nf cur sts tb = inl (sts', tb') ->
    inv (length sts') (length sts') 0 sts' tb'.
  Proof.
    induction fuel as [|f IH]; intros cur sts tb sts' tb' I H; cbn [states_loop] in H; [discriminate|].
    destruct (nth_error sts cur) as [st|] eqn:Est.
    - cbn zeta in H. destruct (Nat.ltb _ _); [discriminate|].
      destruct (trans_loop _ _ _ _ _ _) as [[sts2 tb2]|e] eqn:Et; [|discriminate].
      apply (IH (S cur) sts2 tb2); [|exact H].
      apply (inv_row cur _ 0) in Et; [|apply inv_close; assumption|lia].
      (* the row is done: the cursor moves to the next state *)
      destruct Et as [Hclo Hpos Hcap Htbl Hrows Hdisc Hgood Hclosed Hfin Hdef].
      constructor; try assumption; unfold done_cell in *.
      + intros s c Hf Hc. apply Hfin; lia.
      + intros s c Hf. apply Hdef. lia.
    - inversion H; subst sts' tb'. apply nth_error_None in Est. pose proof (iv_clo _ _ _ _ _ I).
      replace (length sts) with cur by lia. assumption.
  Qed.

  Lemma init_inv : 0 < state_cap lim ->
    inv 0 0 0 [mkSt [root_item g] [root_item g]] (repeat (repeat entry_default (symbol_count g)) (state_cap lim)).
  Proof.
    intros Hcap. constructor; cbn [length]; try lia.
    - apply repeat_length.
    - intros s Hs. rewrite repeat_length in Hs. rewrite nth_repeat_lt by assumption. apply repeat_length.
    - apply init_disc.
    - intros s Hs. replace s with 0 by lia. apply init_good.
    - unfold done_cell. intros s c Hf. lia.
    - intros s c _. apply cell_at_repeat.
  Qed.
End Loop.

Lemma gen_with_cap0 g lim sts tbl : state_cap lim = 0 -> gen_with g lim = inl (sts, tbl) -> False.
Proof.
  intros Hcap H. unfold gen_with in H. rewrite Hcap in H. cbn [states_loop nth_error] in H.
  destruct (Nat.ltb _ _); [discriminate|].
  destruct (trans_loop _ _ _ _ _ _) as [[? ?]|]; discriminate.
Qed.

Record gen_facts (g : grammar) (lim : limits) (sts : list lrstate) (tbl : table) : Prop := {
  gf_pos : 0 < length sts;
  gf_cap : length sts <= state_cap lim;
  gf_tbl : length tbl = state_cap lim;
  gf_rows : forall s, s < length tbl -> length (nth s tbl []) = symbol_count g;
  gf_disc : all_disc g sts;
  gf_closure : forall s, s < length sts ->
               closure_ok_list g (nterm_empty g) (nterm_first g (nterm_empty g)) (st_all (stn sts s)) = true;
  gf_cells : forall s c, s < length sts -> c < symbol_count g -> cell_rec g sts tbl s c;
  gf_good : forall s, s < length sts ->
            st_good g (nterm_empty g) (nterm_first g (nterm_empty g)) s (st_all (stn sts s))
}.

Theorem gen_with_facts : forall g lim sts tbl,
  grammar_wf g = true -> grammar_wf_extra g = true ->
  gen_with g lim = inl (sts, tbl) -> gen_facts g lim sts tbl.
Proof.
  intros g lim sts tbl Hwf Hwfx Hgen.
  pose proof (wf_facts_of _ Hwf) as WF. pose proof (wfx_facts_of _ Hwfx) as WFX.
  destruct (Nat.eq_dec (state_cap lim) 0) as [Hcap|Hcap]; [exfalso; eapply gen_with_cap0; eassumption|].
  apply states_loop_inv in Hgen; [|assumption|assumption|apply init_inv; [assumption|lia]].
  destruct Hgen as [Hclo Hpos Hcap' Htbl Hrows Hdisc Hgood Hclosed Hfin Hdef].
  constructor; try assumption. intros s c Hs Hc. apply Hfin; [left|]; assumption.
Qed.

Print Assumptions gen_with_facts.
