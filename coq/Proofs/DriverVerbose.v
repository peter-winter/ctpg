(* C16: verbosity never changes the outcome; the non-verbose messages are preserved among the verbose lines.
   Section SameStep compares two runs that differ in options and lexer; C18 (DriverTokens.v) uses it as well. *)
Require Import Ctpg.Base.Prelude Ctpg.Proofs.ListFacts Ctpg.Model.Grammar Ctpg.Model.LRGen Ctpg.Model.Driver
               Ctpg.Proofs.DriverBasics.

(* One iteration looks at the lexer and at the options only through the lexer's verdict at the cursor and the two
   whitespace flags: two configurations that agree on these take the same step and write the same lines, the
   lexer's own trace lines apart. *)
Section SameStep.
  Variables V C : Type.
  Variable g : grammar.
  Variable tbl : table.
  Variables o1 o2 : options.
  Variable buf : list nat.
  Variable cap : option nat.
  Variables lexer1 lexer2 : bool -> spoint -> list nat -> list lex_event * option (nat * nat).
  Variable term_f : nat -> nat -> nat -> spoint -> V.
  Variable err_f : spoint -> V.
  Variable rule_f : nat -> C -> list V -> C * V.
  Hypothesis Hws : o_skip_ws o1 = o_skip_ws o2.
  Hypothesis Hnl : o_skip_nl o1 = o_skip_nl o2.

  Lemma count_ws_flags l : count_ws o1 l = count_ws o2 l.
  Proof. induction l as [|b l IH]; cbn; [reflexivity|]. unfold is_ws. rewrite Hnl, IH. reflexivity. Qed.

  (* the two lexers give the same verdict where get_current_term consults them from state s *)
  Definition verdicts_agree (s : pstate V C) : Prop :=
    ps_rec s = false -> ps_it s = ps_end s ->
    let rest0 := skipn (ps_it s) buf in
    let k := if o_skip_ws o1 then count_ws o1 rest0 else 0 in
    forall c rest, skipn k rest0 = c :: rest ->
      snd (lexer1 (o_verbose o1) (sp_update (ps_sp s) (firstn k rest0)) (c :: rest)) =
      snd (lexer2 (o_verbose o2) (sp_update (ps_sp s) (firstn k rest0)) (c :: rest)).

  Lemma step_same s (f : event -> bool) : verdicts_agree s -> (forall e, f (EvLex e) = false) ->
    fst (step V C g tbl o1 buf cap lexer1 term_f err_f rule_f s) = fst (step V C g tbl o2 buf cap lexer2 term_f err_f rule_f s) /\
    filter f (snd (step V C g tbl o1 buf cap lexer1 term_f err_f rule_f s)) =
    filter f (snd (step V C g tbl o2 buf cap lexer2 term_f err_f rule_f s)).
  Proof.
    intros Hv Hf. assert (Hlex : forall l, filter f (map EvLex l) = []).
    { induction l as [|x l IH]; cbn; [reflexivity|]. now rewrite Hf. }
    unfold step. destruct (ps_cursors s) as [|cursor cs]; [auto|].
    assert (H : let '(s1, t1, e1) := get_current_term V C g o1 buf lexer1 s in
                let '(s2, t2, e2) := get_current_term V C g o2 buf lexer2 s in
                s1 = s2 /\ t1 = t2 /\ filter f e1 = filter f e2).
    { unfold get_current_term. destruct (ps_rec s) eqn:Hr; [auto|].
      destruct (Nat.eqb (ps_it s) (ps_end s)) eqn:He; cbn [negb]; [|auto]. apply Nat.eqb_eq in He.
      specialize (Hv Hr He). cbn zeta in Hv. rewrite <- Hws, <- count_ws_flags.
      set (k := if o_skip_ws o1 then _ else 0) in *.
      destruct (skipn k (skipn (ps_it s) buf)) as [|c rest]; [auto|]. specialize (Hv c rest eq_refl).
      destruct (lexer1 _ _ (c :: rest)) as [lx1 r1]. destruct (lexer2 _ _ (c :: rest)) as [lx2 r2].
      cbn in Hv. subst r2.
      destruct r1 as [[t len]|]; repeat split; rewrite !filter_app, !Hlex; reflexivity. }
    destruct (get_current_term V C g o1 buf lexer1 s) as [[s1 t1] e1].
    destruct (get_current_term V C g o2 buf lexer2 s) as [[s2 t2] e2].
    destruct H as (-> & -> & He). destruct t2 as [t|]; [|auto].
    destruct (act V C g tbl buf cap term_f err_f rule_f s2 cursor t) as [r ev2]. cbn.
    split; [reflexivity|]. rewrite !filter_app, He. reflexivity.
  Qed.
  (* The same for a whole run from [s]: [J] holds along the first run and makes the verdicts agree; [f1] and [f2]
     say what is compared of the two streams, [f] what of the lines of one iteration decides it. *)
  Variable J : pstate V C -> Prop.
  Variables f f1 f2 : event -> bool.
  Hypothesis J_agree : forall s, J s -> verdicts_agree s.
  Hypothesis J_step : forall s, J s ->
    match fst (step V C g tbl o1 buf cap lexer1 term_f err_f rule_f s) with inl s' => J s' | inr _ => True end.
  Hypothesis f_lex : forall e, f (EvLex e) = false.
  Hypothesis f_out : forall e1 e2, filter f e1 = filter f e2 ->
    filter f1 (filter (visible o1) e1) = filter f2 (filter (visible o2) e2).

  Lemma run_from_same fuel : forall s out1 out2, J s -> filter f1 out1 = filter f2 out2 ->
    let '(r1, s1, out1') := run_from V C g tbl o1 buf cap lexer1 term_f err_f rule_f fuel s out1 in
    let '(r2, s2, out2') := run_from V C g tbl o2 buf cap lexer2 term_f err_f rule_f fuel s out2 in
    r1 = r2 /\ s1 = s2 /\ filter f1 out1' = filter f2 out2'.
  Proof.
    induction fuel as [|n IH]; intros s out1 out2 Hj Ho; cbn [run_from]; [auto|].
    destruct (step_same s f (J_agree s Hj) f_lex) as [Hs He]. pose proof (J_step s Hj) as Hj'.
    destruct (step V C g tbl o1 buf cap lexer1 term_f err_f rule_f s) as [r1 e1].
    destruct (step V C g tbl o2 buf cap lexer2 term_f err_f rule_f s) as [r2 e2]. cbn [fst snd] in *. subst r2.
    assert (Ho' : filter f1 (out1 ++ filter (visible o1) e1) = filter f2 (out2 ++ filter (visible o2) e2)).
    { rewrite !filter_app, Ho, (f_out _ _ He). reflexivity. }
    destruct r1 as [s'|[r s']]; [apply IH; assumption|auto].
  Qed.
End SameStep.

Section Verbose.
  Variables V C : Type.
  Variable g : grammar.
  Variable tbl : table.
  Variables ws nl : bool.
  Variable buf : list nat.
  Variable cap : option nat.
  Variable lexer : bool -> spoint -> list nat -> list lex_event * option (nat * nat).
  Variable term_f : nat -> nat -> nat -> spoint -> V.
  Variable err_f : spoint -> V.
  Variable rule_f : nat -> C -> list V -> C * V.

  (* the lexer contract: its verdict does not depend on the verbose flag *)
  Hypothesis lexer_verdict : forall p r, snd (lexer true p r) = snd (lexer false p r).

  Definition ov := mkOpt true ws nl.
  Definition oq := mkOpt false ws nl.

  (* [act] takes no options argument: both sides are the same term *)
  Lemma act_verbose s cursor t :
    act V C g tbl buf cap term_f err_f rule_f s cursor t = act V C g tbl buf cap term_f err_f rule_f s cursor t.
  Proof. reflexivity. Qed.

  Lemma visible_v e : visible ov e = true. Proof. reflexivity. Qed.
  Lemma visible_q e : visible oq e = is_nonverbose e. Proof. reflexivity. Qed.

  (* result (hence the value), final configuration (hence the context the functors left) are the same for verbose on
     and off; the quiet output consists of exactly the non-verbose lines of the verbose output, in order *)
  Theorem verbose_irrelevant fuel c :
    let '(rv, sv, outv) := run V C g tbl ov buf cap lexer term_f err_f rule_f fuel c in
    let '(rq, sq, outq) := run V C g tbl oq buf cap lexer term_f err_f rule_f fuel c in
    rv = rq /\ sv = sq /\ filter is_nonverbose outv = outq.
  Proof.
    unshelve epose proof (run_from_same V C g tbl ov oq buf cap lexer lexer term_f err_f rule_f eq_refl eq_refl
                            (fun _ => True) is_nonverbose is_nonverbose (fun _ => true) _ _ _ _
                            fuel (init c) [] [] I eq_refl) as H.
    { intros s _ _ _. cbn zeta. intros b rest _. apply lexer_verdict. }
    { intros s _. now destruct (fst _). }
    { reflexivity. }
    { intros e1 e2 He. now rewrite (verbose_visible ov e1), (quiet_visible oq e2), (filter_true_id (fun _ => true)) by reflexivity. }
    unfold run.
    destruct (run_from V C g tbl ov buf cap lexer term_f err_f rule_f fuel (init c) []) as [[rv sv] outv].
    destruct (run_from V C g tbl oq buf cap lexer term_f err_f rule_f fuel (init c) []) as [[rq sq] outq].
    now rewrite (filter_true_id (fun _ => true)) in H by reflexivity.
  Qed.

  (* a stream that swallows everything (no_stream) observes the same run: the outcome is the first two components *)
  Corollary stream_irrelevant fuel c :
    fst (run V C g tbl ov buf cap lexer term_f err_f rule_f fuel c) =
    fst (run V C g tbl oq buf cap lexer term_f err_f rule_f fuel c).
  Proof.
    pose proof (verbose_irrelevant fuel c) as H.
    destruct (run V C g tbl ov buf cap lexer term_f err_f rule_f fuel c) as [[rv sv] outv].
    destruct (run V C g tbl oq buf cap lexer term_f err_f rule_f fuel c) as [[rq sq] outq].
    destruct H as (-> & -> & _). reflexivity.
  Qed.
End Verbose.
