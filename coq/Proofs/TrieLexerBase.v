(* Basics for the proof that the in-place merging lexer builder is correct on plain term sets (characters and
   strings): transition function / walks of an automaton, and what one call of [merge] does when the merged-in
   state has at most one transition, so that the 256-iteration loop of [merge] collapses to a single step.
   The pieces of [merge] are those of Proofs/BuilderSize.v: past its two early returns, merge (S f) is [pre_merge] (mark
   the pair, set the flags), then [mstep_fn] folded over the 256 bytes, then [post_merge] (the recognition slots of the
   merged-in state go to the target): merge_S. [wf p256] says that every state has 256 transition slots, all into the
   automaton, and at most 4 recognition slots. *)
Require Import Ctpg.Base.Prelude Ctpg.Proofs.ListFacts Ctpg.Model.Dfa Ctpg.Proofs.BuilderSize.

Definition tr (sm : dfa) (q c : nat) : option nat := nth c (d_trans (get sm q)) None.

Fixpoint walk (sm : dfa) (q : nat) (x : list nat) : option nat :=
  match x with
  | [] => Some q
  | c :: x' => match tr sm q c with Some q' => walk sm q' x' | None => None end
  end.

Lemma walk_app : forall sm x y q,
  walk sm q (x ++ y) = match walk sm q x with Some q' => walk sm q' y | None => None end.
Proof.
  intros sm. induction x as [|c x IH]; intros y q; cbn [walk app]; auto.
  destruct (tr sm q c); auto.
Qed.

(* walks agree when the states they pass have the same transitions *)
Lemma walk_same : forall a b q,
  (forall z q', walk a q z = Some q' -> forall c, tr b q' c = tr a q' c) -> forall x, walk b q x = walk a q x.
Proof.
  intros a b q H x. revert q H. induction x as [|c x IH]; intros q H; cbn [walk]; auto.
  rewrite (H [] q eq_refl). destruct (tr a q c) as [q1|] eqn:E; auto.
  apply IH. intros z q' Hz. apply (H (c :: z)). cbn [walk]. rewrite E. exact Hz.
Qed.

Lemma trans_len : forall sm q, wf p256 sm -> length (d_trans (get sm q)) = 256.
Proof. intros sm q W. destruct (wf_get p256 eq_refl sm q W) as (A & _ & _). exact A. Qed.

Lemma tr_byte : forall sm q c q', wf p256 sm -> tr sm q c = Some q' -> c < 256.
Proof.
  intros sm q c q' W H. destruct (Nat.lt_ge_cases c 256) as [L|G]; auto.
  unfold tr in H. rewrite nth_overflow in H by (rewrite trans_len by assumption; lia). discriminate.
Qed.

Lemma walk_bound : forall sm, wf p256 sm -> forall x q q', q < length sm -> walk sm q x = Some q' -> q' < length sm.
Proof.
  intros sm W. induction x as [|c x IH]; intros q q' Hq H; cbn [walk] in H.
  - inversion H; subst; auto.
  - destruct (tr sm q c) as [q1|] eqn:E; [|discriminate]. eapply IH; [|exact H]. eapply (wf_target p256 eq_refl); eauto.
Qed.

Lemma walk_bytes : forall sm, wf p256 sm -> forall x q q', walk sm q x = Some q' -> Forall (fun c => c < 256) x.
Proof.
  intros sm W. induction x as [|c x IH]; intros q q' H; cbn [walk] in H; constructor;
    (destruct (tr sm q c) as [q1|] eqn:E; [|discriminate]).
  - eapply tr_byte; eauto.
  - eauto.
Qed.

Lemma mstep_fn_eq : forall f to from keep mark s i,
  merge_byte f to from keep mark (Some s) i =
  match tr s from i with
  | None => Some s
  | Some trf => match tr s to i with None => Some (attach s to i trf) | Some trt => merge f s trt trf keep mark end
  end.
Proof. reflexivity. Qed.

Lemma pre_merge_length : forall sm to from keep mark, length (pre_merge sm to from keep mark) = length sm.
Proof. intros. unfold pre_merge. rewrite !upd_length. reflexivity. Qed.

Lemma pre_merge_wf : forall sm to from keep mark, wf p256 sm -> wf p256 (pre_merge sm to from keep mark).
Proof. intros. eapply (msteps_wf p256 eq_refl); [apply pre_merge_msteps | assumption]. Qed.

Lemma pre_merge_trans : forall sm to from keep mark q,
  d_trans (get (pre_merge sm to from keep mark) q) = d_trans (get sm q).
Proof. intros. unfold pre_merge. rewrite !(upd_field _ d_trans) by reflexivity. reflexivity. Qed.

Lemma pre_merge_tr : forall sm to from keep mark q c, tr (pre_merge sm to from keep mark) q c = tr sm q c.
Proof. intros. unfold tr. rewrite pre_merge_trans. reflexivity. Qed.

Lemma pre_merge_walk : forall sm to from keep mark q x, walk (pre_merge sm to from keep mark) q x = walk sm q x.
Proof. intros. apply walk_same. intros. apply pre_merge_tr. Qed.

Lemma pre_merge_rec : forall sm to from keep mark q, d_rec (get (pre_merge sm to from keep mark) q) = d_rec (get sm q).
Proof. intros. unfold pre_merge. rewrite !(upd_field _ d_rec) by reflexivity. reflexivity. Qed.

Lemma get_pre_merge : forall sm to from keep mark q,
  to <> from -> to < length sm -> from < length sm ->
  get (pre_merge sm to from keep mark) q =
  if Nat.eqb q to
  then set_end (set_merged (get sm to) (from :: d_merged (get sm to)))
               (if keep then d_end (get sm to) || d_end (get sm from) else d_end (get sm from))
  else if Nat.eqb q from then set_unreach (set_start (get sm from) false) mark
  else get sm q.
Proof.
  intros sm to from keep mark q Hne Hto Hfrom. unfold pre_merge.
  assert (Lto : Nat.ltb to (length sm) = true) by (apply Nat.ltb_lt; assumption).
  assert (Lfrom : Nat.ltb from (length sm) = true) by (apply Nat.ltb_lt; assumption).
  assert (Etf : Nat.eqb to from = false) by (apply Nat.eqb_neq; assumption).
  assert (Eft : Nat.eqb from to = false) by (apply Nat.eqb_neq; auto).
  repeat (rewrite ?get_upd, ?upd_length, ?Lto, ?Lfrom, ?Etf, ?Eft, ?Nat.eqb_refl; cbn [andb]).
  destruct (Nat.eqb_spec q to) as [->|_]; cbn [andb].
  - rewrite Etf. reflexivity.
  - destruct (Nat.eqb q from); reflexivity.
Qed.

Lemma pre_merge_end : forall sm to from keep mark q,
  to <> from -> to < length sm -> from < length sm ->
  d_end (get (pre_merge sm to from keep mark) q) =
  if Nat.eqb q to then (if keep then d_end (get sm to) || d_end (get sm from) else d_end (get sm from))
  else d_end (get sm q).
Proof.
  intros. rewrite get_pre_merge by assumption.
  destruct (Nat.eqb q to); [reflexivity|].
  destruct (Nat.eqb_spec q from) as [->|_]; reflexivity.
Qed.

Lemma pre_merge_merged : forall sm to from keep mark q,
  to <> from -> to < length sm -> from < length sm ->
  d_merged (get (pre_merge sm to from keep mark) q) =
  if Nat.eqb q to then from :: d_merged (get sm to) else d_merged (get sm q).
Proof.
  intros. rewrite get_pre_merge by assumption.
  destruct (Nat.eqb q to); [reflexivity|].
  destruct (Nat.eqb_spec q from) as [->|_]; reflexivity.
Qed.

Lemma attach_length : forall s to c nx, length (attach s to c nx) = length s.
Proof. intros. unfold attach. rewrite !upd_length. reflexivity. Qed.

Lemma attach_get_other : forall s to c nx q, q <> to -> q <> nx -> get (attach s to c nx) q = get s q.
Proof.
  intros s to c nx q H1 H2. unfold attach. rewrite !get_upd.
  apply Nat.eqb_neq in H1. apply Nat.eqb_neq in H2. rewrite H1, H2. reflexivity.
Qed.

Lemma attach_rec : forall s to c nx q, d_rec (get (attach s to c nx) q) = d_rec (get s q).
Proof. intros. unfold attach. rewrite !(upd_field _ d_rec) by reflexivity. reflexivity. Qed.
Lemma attach_end : forall s to c nx q, d_end (get (attach s to c nx) q) = d_end (get s q).
Proof. intros. unfold attach. rewrite !(upd_field _ d_end) by reflexivity. reflexivity. Qed.
Lemma attach_merged : forall s to c nx q, d_merged (get (attach s to c nx) q) = d_merged (get s q).
Proof. intros. unfold attach. rewrite !(upd_field _ d_merged) by reflexivity. reflexivity. Qed.

Lemma attach_tr_other : forall s to c nx q i, q <> to \/ i <> c -> tr (attach s to c nx) q i = tr s q i.
Proof.
  intros s to c nx q i H. unfold tr, attach. rewrite (upd_field _ d_trans) by reflexivity. rewrite get_upd.
  destruct (Nat.eqb q to && Nat.ltb to (length s)) eqn:E; auto.
  apply andb_true_iff in E. destruct E as [E _]. apply Nat.eqb_eq in E. subst q.
  destruct H as [H|H]; [contradiction|].
  cbn [set_trans d_trans]. rewrite nth_update. apply Nat.eqb_neq in H. rewrite H. reflexivity.
Qed.

Lemma attach_tr : forall s to c nx q i,
  to < length s -> c < length (d_trans (get s to)) ->
  tr (attach s to c nx) q i = if Nat.eqb q to && Nat.eqb i c then Some nx else tr s q i.
Proof.
  intros s to c nx q i Hto Hc.
  destruct (Nat.eqb_spec q to) as [->|Hq]; [|apply attach_tr_other; left; assumption].
  destruct (Nat.eqb_spec i c) as [->|Hi]; [|apply attach_tr_other; right; assumption].
  unfold tr, attach. rewrite (upd_field _ d_trans) by reflexivity.
  rewrite get_upd, Nat.eqb_refl. apply Nat.ltb_lt in Hto. rewrite Hto.
  cbn [andb set_trans d_trans]. rewrite nth_update, Nat.eqb_refl. apply Nat.ltb_lt in Hc. rewrite Hc. reflexivity.
Qed.

Lemma post_merge_tr : forall s to from q c, tr (post_merge s to from) q c = tr s q c.
Proof.
  intros. unfold tr, post_merge.
  apply (fold_upd_field _ _ (fun d => nth c (d_trans d) None) (fun _ => to) (fun t d => mark_end_state d t)).
  intros t d. rewrite mark_end_state_trans. reflexivity.
Qed.
Lemma post_merge_end : forall s to from q, d_end (get (post_merge s to from) q) = d_end (get s q).
Proof.
  intros. apply (fold_upd_field _ _ d_end (fun _ => to) (fun t d => mark_end_state d t)), mark_end_state_end.
Qed.
Lemma post_merge_merged : forall s to from q, d_merged (get (post_merge s to from) q) = d_merged (get s q).
Proof.
  intros. apply (fold_upd_field _ _ d_merged (fun _ => to) (fun t d => mark_end_state d t)), mark_end_state_merged.
Qed.

(* mark_end_state acts on an end state only: hence d_end, unless there is nothing to mark *)
Lemma marks_rec : forall r s to q,
  to < length s -> d_end (get s to) = true \/ r = [] ->
  d_rec (get (fold_left (fun acc t => upd acc to (fun d => mark_end_state d t)) r s) q) =
  if Nat.eqb q to then fold_left add_conflicted r (d_rec (get s to)) else d_rec (get s q).
Proof.
  induction r as [|t r IH]; intros s to q Hto H; cbn [fold_left].
  - destruct (Nat.eqb_spec q to) as [->|_]; reflexivity.
  - destruct H as [He|Hn]; [|discriminate].
    rewrite IH.
    + rewrite !get_upd, Nat.eqb_refl. apply Nat.ltb_lt in Hto. rewrite Hto. cbn [andb].
      unfold mark_end_state. rewrite He. destruct (Nat.eqb q to); reflexivity.
    + rewrite upd_length. assumption.
    + left. rewrite (upd_field _ d_end) by apply mark_end_state_end. exact He.
Qed.

Lemma post_merge_rec : forall s to from q,
  to < length s -> d_end (get s to) = true \/ d_rec (get s from) = [] ->
  d_rec (get (post_merge s to from) q) =
  if Nat.eqb q to then fold_left add_conflicted (d_rec (get s from)) (d_rec (get s to)) else d_rec (get s q).
Proof. intros. apply marks_rec; assumption. Qed.

Lemma post_merge_nil : forall s to from, d_rec (get s from) = [] -> post_merge s to from = s.
Proof. intros s to from H. unfold post_merge. rewrite H. reflexivity. Qed.

Lemma add_conflicted_hd : forall r t,
  hd_error (add_conflicted r t) = match hd_error r with Some a => Some a | None => Some t end.
Proof.
  intros r t. unfold add_conflicted. destruct r as [|a r]; [reflexivity|].
  destruct (Nat.ltb (length (a :: r)) 4); reflexivity.
Qed.

Lemma fold_add_conflicted_hd : forall r r0,
  hd_error (fold_left add_conflicted r r0) = match hd_error r0 with Some a => Some a | None => hd_error r end.
Proof.
  induction r as [|t r IH]; intros r0; cbn [fold_left].
  - destruct (hd_error r0); reflexivity.
  - rewrite IH, add_conflicted_hd. destruct (hd_error r0); reflexivity.
Qed.

(* merging in a state with at most one transition *)
Lemma mstep_fold_id : forall f to from keep mark l s,
  (forall i, In i l -> tr s from i = None) ->
  fold_left (merge_byte f to from keep mark) l (Some s) = Some s.
Proof.
  intros f to from keep mark. induction l as [|i l IH]; intros s H; cbn [fold_left]; auto.
  rewrite mstep_fn_eq, (H i) by (left; reflexivity). apply IH. intros j Hj. apply H. right; assumption.
Qed.

(* Hlone: the merged-in state has no transition but, possibly, the one on the byte c. Hmem: the pair is not marked yet,
   so the call passes the early return. *)
Section Lone.
Variables (f : nat) (sm : dfa) (to from : nat) (keep mark : bool) (c : nat).
Hypothesis Hne : to <> from.
Hypothesis Hmem : ~ In from (d_merged (get sm to)).
Hypothesis Hc : c < 256.
Hypothesis Hlone : forall i, i <> c -> tr sm from i = None.
Let s0 := pre_merge sm to from keep mark.

(* of the 256 steps only the one on c does anything, if it leaves the merged-in state as it was *)
Lemma merge_lone :
  (forall s, merge_byte f to from keep mark (Some s0) c = Some s -> forall i, i <> c -> tr s from i = None) ->
  merge (S f) sm to from keep mark =
  option_map (fun s => post_merge s to from) (merge_byte f to from keep mark (Some s0) c).
Proof.
  intros H1. rewrite merge_S. apply Nat.eqb_neq in Hne. rewrite Hne.
  destruct (mem_nat from (d_merged (get sm to))) eqn:Em; [apply mem_nat_In in Em; contradiction|].
  replace (seq 0 256) with (seq 0 c ++ c :: seq (S c) (255 - c)).
  2:{ replace 256 with (c + S (255 - c)) by lia. rewrite seq_app. reflexivity. }
  rewrite fold_left_app, mstep_fold_id.
  2:{ intros i Hi. apply in_seq in Hi. unfold s0. rewrite pre_merge_tr. apply Hlone. lia. }
  cbn [fold_left]. fold s0. destruct (merge_byte f to from keep mark (Some s0) c) as [s|].
  - rewrite mstep_fold_id; [reflexivity|]. intros i Hi. apply in_seq in Hi. apply (H1 s eq_refl). lia.
  - rewrite fold_left_opt_None; reflexivity.
Qed.

Lemma merge_leaf : tr sm from c = None -> merge (S f) sm to from keep mark = Some (post_merge s0 to from).
Proof.
  intros Hf.
  assert (E : merge_byte f to from keep mark (Some s0) c = Some s0).
  { unfold s0. rewrite mstep_fn_eq, pre_merge_tr, Hf. reflexivity. }
  rewrite merge_lone; rewrite E; [reflexivity|].
  intros s Hs i Hi. inversion Hs; subst s. unfold s0. rewrite pre_merge_tr. auto.
Qed.

Lemma merge_attach : forall nx, tr sm from c = Some nx -> tr sm to c = None ->
  merge (S f) sm to from keep mark = Some (post_merge (attach s0 to c nx) to from).
Proof.
  intros nx Hf Ht.
  assert (E : merge_byte f to from keep mark (Some s0) c = Some (attach s0 to c nx)).
  { unfold s0. rewrite mstep_fn_eq, !pre_merge_tr, Hf, Ht. reflexivity. }
  rewrite merge_lone; rewrite E; [reflexivity|].
  intros s Hs i Hi. inversion Hs; subst s. rewrite attach_tr_other by (right; assumption). unfold s0. rewrite pre_merge_tr. auto.
Qed.

Lemma merge_descend : forall nx trt, tr sm from c = Some nx -> tr sm to c = Some trt ->
  (forall s, merge f s0 trt nx keep mark = Some s -> forall i, i <> c -> tr s from i = None) ->
  merge (S f) sm to from keep mark = option_map (fun s => post_merge s to from) (merge f s0 trt nx keep mark).
Proof.
  intros nx trt Hf Ht H1.
  assert (E : merge_byte f to from keep mark (Some s0) c = merge f s0 trt nx keep mark).
  { unfold s0. rewrite mstep_fn_eq, !pre_merge_tr, Hf, Ht. reflexivity. }
  rewrite merge_lone; rewrite E; [reflexivity | exact H1].
Qed.
End Lone.
