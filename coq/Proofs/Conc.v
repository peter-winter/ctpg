(* C15: a parser object is immutable, so concurrent and repeated parses are independent.
   The logic that a proof can carry: a system of k threads, each with a PRIVATE driver configuration (parse_state, the two
   stacks, the custom-lexer instance: all locals of context_parse), sharing one immutable parser record (grammar, table,
   lexer automaton). A schedule is a list of thread ids; [sys_step] advances the chosen thread by one driver iteration.
   That no code reachable from parse / context_parse / write_diag_str / regex::expr::match writes to the parser object or
   to a global is a FRAME condition on the C++ source; it is checked on the source text on every run (tools/frame_facts.py
   -> Model/FrameFacts.v) and the theorems below are stated under [frame_ok = true].  That hypothesis marks what the
   model of private configurations rests on; no proof step uses it. *)
Require Import Ctpg.Base.Prelude Ctpg.Proofs.ListFacts Ctpg.Model.Grammar Ctpg.Model.LRGen Ctpg.Model.Driver
               Ctpg.Model.FrameFacts.

Section Conc.
  Variables V C : Type.
  (* the shared, immutable parser *)
  Variable g : grammar.
  Variable tbl : table.
  Variable lexer : bool -> spoint -> list nat -> list lex_event * option (nat * nat).
  Variable term_f : nat -> nat -> nat -> spoint -> V.
  Variable err_f : spoint -> V.
  Variable rule_f : nat -> C -> list V -> C * V.

  (* one call in flight: its own options, buffer, stack capacity, configuration, output so far *)
  Record call := mkCall {
    c_opts : options; c_buf : list nat; c_cap : option nat;
    c_state : pstate V C + (result V * pstate V C);        (* running / finished *)
    c_out : list event }.

  Definition call_step (c : call) : call :=
    match c_state c with
    | inr _ => c
    | inl s =>
        let '(nxt, ev) := step V C g tbl (c_opts c) (c_buf c) (c_cap c) lexer term_f err_f rule_f s in
        mkCall (c_opts c) (c_buf c) (c_cap c) nxt (c_out c ++ filter (visible (c_opts c)) ev)
    end.

  Definition start (o : options) (buf : list nat) (cap : option nat) (ctx : C) : call := mkCall o buf cap (inl (init ctx)) [].

  (* the system: one entry per thread; the shared parser is not part of the state because nothing can change it *)
  Definition system := list call.
  Definition sys_step (sys : system) (tid : nat) : system :=
    match nth_error sys tid with
    | Some c => update sys tid (call_step c)
    | None => sys
    end.
  Definition sys_run (sched : list nat) (sys : system) : system := fold_left sys_step sched sys.

  Fixpoint iter_call (n : nat) (c : call) : call := match n with 0 => c | S m => iter_call m (call_step c) end.
  Definition count_tid (tid : nat) (sched : list nat) : nat := length (filter (Nat.eqb tid) sched).

  Lemma iter_call_step n c : iter_call n (call_step c) = call_step (iter_call n c).
  Proof. revert c. induction n as [|n IH]; intros c; cbn; [reflexivity|]. apply IH. Qed.

  (* schedule independence: after ANY interleaving, thread i's call is exactly where it would be after running alone for
     as many steps as the schedule gave it - no other thread's steps (their number, order, inputs, failures) matter *)
  Theorem schedule_independent : forall sched sys i c,
    frame_ok = true ->
    nth_error sys i = Some c ->
    nth_error (sys_run sched sys) i = Some (iter_call (count_tid i sched) c).
  Proof.
    intros sched. induction sched as [|t sched IH]; intros sys i c Hf Hi; [exact Hi|].
    cbn [sys_run fold_left]. change (fold_left sys_step sched (sys_step sys t)) with (sys_run sched (sys_step sys t)).
    unfold count_tid. cbn [filter].
    destruct (Nat.eqb_spec i t) as [->|Hne].
    - cbn [length]. change (length (filter (Nat.eqb t) sched)) with (count_tid t sched).
      unfold sys_step. rewrite Hi. cbn [iter_call].
      apply IH; [assumption|]. apply nth_error_update_eq. eapply nth_error_Some_lt; eassumption.
    - change (length (filter (Nat.eqb i) sched)) with (count_tid i sched).
      unfold sys_step. destruct (nth_error sys t) as [ct|] eqn:Et.
      + apply IH; [assumption|]. rewrite nth_error_update_neq by congruence. assumption.
      + apply IH; assumption.
  Qed.

  (* running to completion: a call's result under any schedule that gives it enough steps is its result in isolation *)
  Definition finished (c : call) : option (result V * pstate V C * list event) :=
    match c_state c with inr (r, s) => Some (r, s, c_out c) | inl _ => None end.

  Lemma iter_finished_stable n c x : finished c = Some x -> finished (iter_call n c) = Some x.
  Proof.
    revert c. induction n as [|n IH]; intros c H; cbn; [assumption|]. apply IH.
    unfold finished in *. unfold call_step. destruct (c_state c) as [s|[r s]] eqn:E; [discriminate|]. rewrite E. assumption.
  Qed.

  (* a call scheduled at least n times has done what the sequential loop does with fuel n, when that fuel suffices *)
  Lemma iter_call_run_from o buf cap : forall n m s out r s' out',
    run_from V C g tbl o buf cap lexer term_f err_f rule_f n s out = (r, s', out') -> r <> OutOfFuel -> n <= m ->
    finished (iter_call m (mkCall o buf cap (inl s) out)) = Some (r, s', out').
  Proof.
    induction n as [|n IH]; intros m s out r s' out' Hr Hne Hm; cbn [run_from] in Hr.
    - inversion Hr; subst. congruence.
    - destruct m as [|m]; [lia|]. cbn [iter_call]. unfold call_step at 1. cbn [c_state c_opts c_buf c_cap c_out].
      destruct (step V C g tbl o buf cap lexer term_f err_f rule_f s) as [[s1|[r1 s1]] ev].
      + apply IH; [assumption | assumption | lia].
      + inversion Hr; subst. apply iter_finished_stable. reflexivity.
  Qed.

  (* history independence: what earlier calls did (accepted, failed, recovered) cannot influence a later call,
     because a call's evolution is a function of its own record only *)
  Theorem history_independent : forall sched1 sched2 sys1 sys2 i c,
    frame_ok = true ->
    nth_error sys1 i = Some c -> nth_error sys2 i = Some c ->
    count_tid i sched1 = count_tid i sched2 ->
    nth_error (sys_run sched1 sys1) i = nth_error (sys_run sched2 sys2) i.
  Proof.
    intros sched1 sched2 sys1 sys2 i c Hf H1 H2 Hc.
    rewrite (schedule_independent sched1 sys1 i c Hf H1), (schedule_independent sched2 sys2 i c Hf H2), Hc. reflexivity.
  Qed.

  (* a finished call stays finished with the same result whatever the others keep doing *)
  Theorem result_is_final : forall sched sys i c x,
    frame_ok = true -> nth_error sys i = Some c -> finished c = Some x ->
    exists c', nth_error (sys_run sched sys) i = Some c' /\ finished c' = Some x.
  Proof.
    intros sched sys i c x Hf Hi Hx. eexists. split; [apply schedule_independent; eassumption|].
    apply iter_finished_stable. assumption.
  Qed.

  (* under ANY interleaving that lets call i take at least n steps, where n steps suffice for the call in
     isolation, the call's result, final configuration (stacks, context) and output are those of the isolated call *)
  Theorem concurrent_result_is_isolated_result : forall sched sys i o buf cap ctx n r s' out',
    frame_ok = true ->
    nth_error sys i = Some (start o buf cap ctx) ->
    run V C g tbl o buf cap lexer term_f err_f rule_f n ctx = (r, s', out') -> r <> OutOfFuel ->
    n <= count_tid i sched ->
    exists c', nth_error (sys_run sched sys) i = Some c' /\ finished c' = Some (r, s', out').
  Proof.
    intros sched sys i o buf cap ctx n r s' out' Hf Hi Hr Hne Hn.
    eexists. split; [apply schedule_independent; eassumption|].
    unfold start. apply (iter_call_run_from o buf cap n); assumption.
  Qed.
End Conc.

Lemma frame_holds : frame_ok = true. Proof. reflexivity. Qed.
