(* The grammars (a)-(d) of Proofs/GroupingExamples.v are of the pure operator family ([families]): [pure_unique]
   instantiated for (a) and (b), [pure_complete] for (d), whose rule E -> E + E has an explicit precedence; and the
   COUNTEREXAMPLE to uniqueness when operator rules carry explicit precedences ([unique_refuted_explicit_prec]). *)
Require Import Ctpg.Base.Prelude Ctpg.Model.Grammar Ctpg.Model.LRGen Ctpg.Model.Driver Ctpg.Spec.Cfg Ctpg.Spec.LRSpec
               Ctpg.Spec.Conflict Ctpg.Spec.Grouping Ctpg.Valid.LRValid Ctpg.Valid.LRResolved Ctpg.Proofs.LRSound
               Ctpg.Proofs.GroupingSpec Ctpg.Proofs.GroupingPure Ctpg.Proofs.GroupingExamples.

(* nonterminal E = 0, atom n = 2 *)
Example families :
  map (fun g => pure_familyb g 0 2) [ga; gb; gc; gd] = [true; true; true; true] /\
  map (fun g => plain_familyb g 0) [ga; gb; gc; gd] = [true; true; true; false] /\
  pure_familyb ge 1 3 = false.       (* (e) has parentheses and a unary minus: not of the family *)
Proof. vm_compute. repeat split. Qed.

(* (a): every sentence n (op n)* is accepted, and the accepted tree is its only well grouped derivation tree *)
Theorem ga_complete_unique : forall w, tokens_ok ga w -> opseq ga 0 2 w ->
  exists tr, accepts ga (tbl_of ga) w tr /\ derives_tree ga tr w /\ well_grouped ga tr /\
             forall tr', derives_tree ga tr' w -> well_grouped ga tr' -> tr' = tr.
Proof.
  intros w. apply (pure_unique ga (sts_of ga)).
  - exact ga_resolved.
  - exact ga_noerr.
  - apply pure_familyb_sound. vm_compute. reflexivity.
  - apply plain_familyb_sound. vm_compute. reflexivity.
Qed.

Theorem gb_complete_unique : forall w, tokens_ok gb w -> opseq gb 0 2 w ->
  exists tr, accepts gb (tbl_of gb) w tr /\ derives_tree gb tr w /\ well_grouped gb tr /\
             forall tr', derives_tree gb tr' w -> well_grouped gb tr' -> tr' = tr.
Proof.
  intros w. apply (pure_unique gb (sts_of gb)).
  - exact gb_resolved.
  - exact gb_noerr.
  - apply pure_familyb_sound. vm_compute. reflexivity.
  - apply plain_familyb_sound. vm_compute. reflexivity.
Qed.

(* (d) has an explicit rule precedence: completeness still holds *)
Theorem gd_complete : forall w, tokens_ok gd w -> opseq gd 0 2 w -> exists tr, accepts gd (tbl_of gd) w tr.
Proof.
  intros w. apply (pure_complete gd (sts_of gd)); [exact gd_resolved|].
  apply pure_familyb_sound. vm_compute. reflexivity.
Qed.

(* the hypotheses are satisfiable: a + b * c *)
Example ga_w1_sentence : tokens_ok ga w1 /\ opseq ga 0 2 w1.
Proof. split; [apply tokens_okb_sound|apply opseqb_sound]; vm_compute; reflexivity. Qed.

(* terms + = 0 [prec 0], * = 1 [prec 3], ^ = 2 [prec 1], n = 3; rules  0: E -> E + E [2]   1: E -> E * E [0]
   2: E -> E ^ E (precedence of ^ = 1)   3: E -> n.
   rule + against * : 2 < 3 shift;  rule * against ^ : 0 < 1 shift;  rule + against ^ : 2 > 1 REDUCE  (not transitive).
   a + b * c ^ d : the parser builds a + (b * (c ^ d));  but (a + (b * c)) ^ d is well grouped too: [well_grouped] looks at
   direct operands only, and  b * c  is not a direct operand of  ^ . *)
Definition gf : grammar :=
  match analyze (mkRG [69] [mkRT [43] 0%Z NoAssoc; mkRT [42] 3%Z NoAssoc; mkRT [94] 1%Z NoAssoc; mkRT [110] 0%Z NoAssoc] [[69]]
                      [mkRR [69] [RNterm [69]; RTerm [43]; RNterm [69]] (Some 2%Z);
                       mkRR [69] [RNterm [69]; RTerm [42]; RNterm [69]] (Some 0%Z);
                       mkRR [69] [RNterm [69]; RTerm [94]; RNterm [69]] None;
                       mkRR [69] [RTerm [110]] None])
  with Some g => g | None => dummy_g end.

Definition fn := Node 3 [Leaf 3].
Definition fplus (a b : tree) := Node 0 [a; Leaf 0; b].
Definition ftimes (a b : tree) := Node 1 [a; Leaf 1; b].
Definition fpow (a b : tree) := Node 2 [a; Leaf 2; b].
Definition wf := [3; 0; 3; 1; 3; 2; 3].                            (* a + b * c ^ d *)
Definition tf_parser := fplus fn (ftimes fn (fpow fn fn)).          (* a + (b * (c ^ d)) *)
Definition tf_other := fpow (fplus fn (ftimes fn fn)) fn.           (* (a + (b * c)) ^ d *)

Example gf_choices :
  (sr_choice gf 0 1, sr_choice gf 1 2, sr_choice gf 0 2) = (KShift, KShift, KReduce).
Proof. vm_compute. reflexivity. Qed.

(* [sts_of g] and [tbl_of g] under one match on [gen g]: evaluating a goal of this form evaluates [gen g] once
   (GroupingExamples.[tables_of] names the tables instead, for its many examples; here one statement needs them) *)
Lemma tables_ind (g : grammar) (P : list items -> table -> Prop) :
  match gen g with inl (sts, tb) => P (map st_all sts) tb | inr _ => P [] [] end -> P (sts_of g) (tbl_of g).
Proof. unfold sts_of, tbl_of. destruct (gen g) as [[sts tb]|]; auto. Qed.

(* everything about gf that is decided by running the generator, the validator and the parser, in one statement, so
   that [tables_ind] applies to all of it *)
Lemma gf_facts :
  validate_resolved gf (sts_of gf) (tbl_of gf) = true /\ no_error_symbol gf (tbl_of gf) = true /\
  pure_familyb gf 0 3 = true /\ tokens_okb gf wf = true /\ opseqb gf 0 3 true wf = true /\
  tree_run gf (tbl_of gf) wf 100 = Accept tf_parser /\
  derivesb gf tf_other wf = true /\ well_groupedb gf tf_other = true.
Proof. pattern (sts_of gf), (tbl_of gf). apply tables_ind. vm_compute. repeat split. Qed.

Theorem unique_refuted_explicit_prec :
  validate_resolved gf (sts_of gf) (tbl_of gf) = true /\ no_error_symbol gf (tbl_of gf) = true /\
  pure_family gf 0 3 /\ tokens_ok gf wf /\ opseq gf 0 3 wf /\
  accepts gf (tbl_of gf) wf tf_parser /\
  derives_tree gf tf_other wf /\ well_grouped gf tf_other /\ tf_other <> tf_parser.
Proof.
  destruct gf_facts as (Hv & Hne & Hfam & Htok & Hseq & Hrun & Hder & Hwg).
  split; [exact Hv|]. split; [exact Hne|].
  split; [apply pure_familyb_sound; exact Hfam|].
  split; [apply tokens_okb_sound; exact Htok|].
  split; [apply opseqb_sound; exact Hseq|].
  split; [exists 100; exact Hrun|].
  split; [apply derivesb_sound; exact Hder|].
  split; [apply well_groupedb_iff; exact Hwg|discriminate].
Qed.

(* hence the conclusion of [pure_unique] is false for gf: the hypothesis on explicit precedences cannot be dropped *)
Corollary pure_unique_needs_plain :
  ~ (forall tr', derives_tree gf tr' wf -> well_grouped gf tr' -> tr' = tf_parser).
Proof.
  intros H. destruct unique_refuted_explicit_prec as (_ & _ & _ & _ & _ & _ & Hd & Hwg & Hne).
  exact (Hne (H _ Hd Hwg)).
Qed.

Print Assumptions ga_complete_unique.
Print Assumptions gd_complete.
Print Assumptions unique_refuted_explicit_prec.
