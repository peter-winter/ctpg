(* The decider of Valid/SpecMatch.v computes the longest match with first-listed priority
   ([spec_longest_correct_any] of Proofs/DfaValidSound.v, where the automaton validator rests on it); here the forms
   with the hypothesis [bytes_ok s], which the proofs do not use, and uniqueness. *)
Require Import Ctpg.Base.Prelude Ctpg.Spec.Lang Ctpg.Valid.SpecMatch Ctpg.Proofs.DfaValidSound.

Theorem spec_longest_correct : forall terms s, bytes_ok s -> is_longest_match terms s (spec_longest terms s).
Proof. intros terms s _. apply spec_longest_correct_any. Qed.

Theorem spec_matches_correct_any : forall r s, spec_matches r s = true <-> matches r s.
Proof. intros r s. apply single_longest_match, spec_longest_correct_any. Qed.

Theorem spec_matches_correct : forall r s, bytes_ok s -> (spec_matches r s = true <-> matches r s).
Proof. intros r s _. apply spec_matches_correct_any. Qed.

(* the result of the specification decider is unique: any two answers satisfying the specification agree *)
Lemma is_longest_match_unique : forall terms s r1 r2,
  is_longest_match terms s r1 -> is_longest_match terms s r2 -> r1 = r2.
Proof.
  intros terms s [[i1 l1]|] [[i2 l2]|]; cbn [is_longest_match].
  - intros (A1 & (t1 & A2 & A3) & A4 & A5) (B1 & (t2 & B2 & B3) & B4 & B5).
    assert (l1 = l2).
    { destruct (Nat.lt_trichotomy l1 l2) as [H|[H|H]]; auto; exfalso.
      - eapply (A5 l2 i2 t2); eauto.
      - eapply (B5 l1 i1 t1); eauto. }
    subst l2.
    assert (i1 = i2).
    { destruct (Nat.lt_trichotomy i1 i2) as [H|[H|H]]; auto; exfalso.
      - eapply (B4 i1 t1); eauto.
      - eapply (A4 i2 t2); eauto. }
    subst. reflexivity.
  - intros (A1 & (t1 & A2 & A3) & A4 & A5) B. exfalso. eapply (B l1 i1 t1); eauto.
  - intros A (B1 & (t2 & B2 & B3) & B4 & B5). exfalso. eapply (A l2 i2 t2); eauto.
  - reflexivity.
Qed.

Corollary spec_longest_complete : forall terms s r, is_longest_match terms s r -> r = spec_longest terms s.
Proof. intros. eapply is_longest_match_unique; eauto. apply spec_longest_correct_any. Qed.

Print Assumptions spec_longest_correct.
Print Assumptions spec_matches_correct.
Print Assumptions spec_longest_complete.
