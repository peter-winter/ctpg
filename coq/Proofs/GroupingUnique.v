(* In the PURE OPERATOR FAMILY  e -> e t_i e (i < n) | atom  whose operator rules have no explicit
   precedence, a sentence has AT MOST ONE well grouped derivation tree ([well_grouped_unique]).
   With explicit rule precedences this is false ([unique_refuted_explicit_prec]): the conditions of [well_grouped] relate
   a node to its direct operands only, and a rule precedence that differs from the precedence of the rule's operator
   makes the relation "rule of x wins against operator t" non transitive.
   No tables and no parser in this file. *)
Require Import Ctpg.Base.Prelude Ctpg.Model.Grammar Ctpg.Model.LRGen
               Ctpg.Spec.Cfg Ctpg.Spec.Conflict Ctpg.Spec.Grouping
               Ctpg.Proofs.LRReflect Ctpg.Proofs.CellResolve Ctpg.Proofs.GroupingSpec.

(* two splittings of one list at an element: at the same place, or the element of one lies in a half of the other *)
Lemma app_cons_eq_cases {A} (l1 l2 r1 r2 : list A) a b :
  l1 ++ a :: r1 = l2 ++ b :: r2 ->
  (l1 = l2 /\ a = b /\ r1 = r2) \/
  (exists m, l2 = l1 ++ a :: m /\ r1 = m ++ b :: r2) \/
  (exists m, l1 = l2 ++ b :: m /\ r2 = m ++ a :: r1).
Proof.
  intros H. apply app_eq_app in H. destruct H as (m & [[-> H]|[-> H]]); destruct m as [|x m]; inversion H; subst.
  - left. rewrite app_nil_r. auto.
  - right. right. eauto.
  - left. rewrite app_nil_r. auto.
  - right. left. eauto.
Qed.

Section Unique.
  Variable g : grammar.
  Variable e atom : nat.

  (* the rules of e are the atom rule and binary operator rules; no rule occurs twice *)
  Hypothesis U_shape : forall r rhs, is_rule g r e rhs ->
    rhs = [T atom] \/ exists t, t <> atom /\ rhs = [NT e; T t; NT e].
  Hypothesis U_once : forall r r' rhs, is_rule g r e rhs -> is_rule g r' e rhs -> r = r'.
  (* no explicit precedences on the operator rules *)
  Hypothesis U_plain : forall i r t, binop_at g i r e t -> plain_rule g i t.

  (* operator x, standing to the left of operator t, is reduced first *)
  Definition wins (x t : nat) : Prop :=
    (term_prec_of g t < term_prec_of g x)%Z \/
    (term_prec_of g x = term_prec_of g t /\ term_assoc_of g x = Ltor).

  Lemma wins_dec x t : wins x t \/ ~ wins x t.
  Proof.
    unfold wins. destruct (Z.compare_spec (term_prec_of g x) (term_prec_of g t)) as [E|L|G].
    - destruct (term_assoc_of g x) eqn:A.
      + right. intros [H|[_ H]]; [lia|discriminate].
      + left. right. auto.
      + right. intros [H|[_ H]]; [lia|discriminate].
    - right. intros [H|[H _]]; lia.
    - left. left. lia.
  Qed.

  (* the documented rule, for the rule of operator x against operator t *)
  Lemma choice_wins i r x t : binop_at g i r e x -> (sr_choice g i t = KReduce <-> wins x t).
  Proof.
    intros Hb. destruct (U_plain _ _ _ Hb) as [Hp Ha]. rewrite sr_choice_reduce_iff, Hp, Ha, Z.gt_lt_iff. reflexivity.
  Qed.

  (* [wins] is transitive, and so is its complement; both fail when rule precedence and operator precedence
     differ. The associativity of x is the only one that matters, and it is on the same side in every occurrence. *)
  Lemma wins_trans x y t : wins x y -> wins y t -> wins x t.
  Proof. unfold wins. intros [A|[A1 A2]] [B|[B1 B2]]; try (left; lia). right. split; [lia|assumption]. Qed.

  Lemma loses_trans x y t : ~ wins x y -> ~ wins y t -> ~ wins x t.
  Proof.
    unfold wins. intros Hxy Hyt [A|[A1 A2]].
    - destruct (Z.lt_trichotomy (term_prec_of g x) (term_prec_of g y)) as [L|[E|G]]; [|apply Hxy; right; auto|]; lia.
    - apply Hxy. destruct (Z_lt_dec (term_prec_of g y) (term_prec_of g x)); [left; assumption|right].
      split; [lia|assumption].
  Qed.

  (* a property of operators that goes from the operator of a node to the operators of its two operands:
     the left one wins against it, the right one is not beaten by it *)
  Definition inherited (P : nat -> Prop) : Prop :=
    (forall x y, P x -> wins y x -> P y) /\ (forall x y, P x -> ~ wins x y -> P y).

  Lemma wins_inherited t : inherited (fun x => wins x t).
  Proof.
    split; intros x y Hxt H.
    - exact (wins_trans _ _ _ H Hxt).
    - destruct (wins_dec y t) as [W|N]; [assumption|]. destruct (loses_trans _ _ _ H N Hxt).
  Qed.

  Lemma loses_inherited t : inherited (fun y => ~ wins t y).
  Proof.
    split; intros x y Htx H.
    - intros W. exact (Htx (wins_trans _ _ _ W H)).
    - exact (loses_trans _ _ _ Htx H).
  Qed.

  Lemma tree_shape tr : valid_tree g (NT e) tr ->
    (exists ra, tr = Node ra [Leaf atom] /\ is_rule g ra e [T atom]) \/
    (exists r L t R, tr = Node r [L; Leaf t; R] /\ is_rule g r e [NT e; T t; NT e] /\ t <> atom /\
                     valid_tree g (NT e) L /\ valid_tree g (NT e) R).
  Proof.
    intros Hv. inversion Hv as [|r l rhs ch Hrule Hch]; subst.
    destruct (U_shape _ _ Hrule) as [->|(t & Ht & ->)].
    - left. inversion Hch as [|? c ? ? Hc Hnil]; subst. inversion Hnil; subst. inversion Hc; subst.
      exists r. auto.
    - right. inversion Hch as [|? L ? ? HL Hch1]; subst. inversion Hch1 as [|? Lt ? ? Ht' Hch2]; subst.
      inversion Hch2 as [|? R ? ? HR Hnil]; subst. inversion Hnil; subst. inversion Ht'; subst.
      exists r, L, t, R. auto.
  Qed.

  (* induction over the valid trees of e: an atom node or an operator node ([tree_shape] under [tree_ind']) *)
  Lemma etree_ind (P : tree -> Prop) :
    (forall ra, is_rule g ra e [T atom] -> P (Node ra [Leaf atom])) ->
    (forall r L t R, is_rule g r e [NT e; T t; NT e] -> t <> atom ->
                     valid_tree g (NT e) L -> valid_tree g (NT e) R -> P L -> P R -> P (Node r [L; Leaf t; R])) ->
    forall tr, valid_tree g (NT e) tr -> P tr.
  Proof.
    intros Hatom Hop. induction tr as [a|r ch IH] using tree_ind'; intros Hv; [inversion Hv|].
    destruct (tree_shape _ Hv) as [(ra & E & Hra)|(r0 & L & t & R & E & Hrule & Ht & HL & HR)]; inversion E; subst.
    - apply Hatom. assumption.
    - inversion IH as [|? ? IHL IH1]; subst. inversion IH1 as [|? ? _ IH2]; subst. inversion IH2 as [|? ? IHR _]; subst.
      apply Hop; auto.
  Qed.

  Lemma yield_binop r L t R : yield (Node r [L; Leaf t; R]) = yield L ++ t :: yield R.
  Proof. cbn. rewrite app_nil_r. reflexivity. Qed.

  Lemma yield_nonempty tr : valid_tree g (NT e) tr -> yield tr <> [].
  Proof.
    intros Hv. destruct (tree_shape _ Hv) as [(ra & -> & _)|(r & L & t & R & -> & _)].
    - discriminate.
    - rewrite yield_binop. intros E. apply app_eq_nil in E. destruct E as [_ E]. discriminate.
  Qed.

  (* a sentence of one terminal has the atom tree only *)
  Lemma yield_binop_not_single r L t R a : valid_tree g (NT e) L -> yield (Node r [L; Leaf t; R]) <> [a].
  Proof.
    intros HL E. rewrite yield_binop in E. pose proof (yield_nonempty _ HL) as N.
    destruct (yield L) as [|x [|? ?]]; [exact (N eq_refl)| |]; discriminate.
  Qed.

  (* the operator at the root, if any, satisfies P *)
  Definition root_op (P : nat -> Prop) (tr : tree) : Prop :=
    match tr with Node _ [_; Leaf t; _] => P t | _ => True end.

  Lemma root_op_impl (P Q : nat -> Prop) tr : (forall x, P x -> Q x) -> root_op P tr -> root_op Q tr.
  Proof. intros H. destruct tr as [a|r [|L [|[t|? ?] [|R [|? ?]]]]]; cbn; auto. Qed.

  Lemma wg_operands r L t R :
    is_rule g r e [NT e; T t; NT e] -> valid_tree g (NT e) L -> valid_tree g (NT e) R ->
    well_grouped g (Node r [L; Leaf t; R]) ->
    well_grouped g L /\ well_grouped g R /\ root_op (fun x => wins x t) L /\ root_op (fun y => ~ wins t y) R.
  Proof.
    intros Hrule HL HR [Hn Hch]%well_grouped_node. apply binop_at_is_rule in Hrule. destruct Hrule as (i & Hb).
    cbn [node_ok] in Hn. destruct (Hn i e Hb) as [Hl Hr].
    split; [exact (Forall_inv Hch)|]. split; [exact (Forall_inv (Forall_inv_tail (Forall_inv_tail Hch)))|]. split.
    - destruct (tree_shape _ HL) as [(ra & -> & _)|(r0 & L0 & t0 & R0 & -> & Hrule0 & _)]; [exact I|].
      cbn [root_op]. apply binop_at_is_rule in Hrule0. destruct Hrule0 as (i0 & Hb0).
      cbn [left_operand_ok] in Hl. exact (proj1 (choice_wins _ _ _ _ Hb0) (Hl _ _ Hb0)).
    - destruct (tree_shape _ HR) as [(ra & -> & _)|(r2 & L2 & t2 & R2 & -> & Hrule2 & _)]; [exact I|].
      cbn [root_op]. apply binop_at_is_rule in Hrule2. destruct Hrule2 as (i2 & Hb2).
      cbn [right_operand_ok] in Hr. rewrite <- (choice_wins _ _ _ _ Hb), (Hr _ Hb2). discriminate.
  Qed.

  (* an inherited property of the root operator of a well grouped tree holds of all its operators *)
  Lemma inherited_all P : inherited P -> forall tr, valid_tree g (NT e) tr -> well_grouped g tr ->
    root_op P tr -> forall x, In x (yield tr) -> x <> atom -> P x.
  Proof.
    intros [Hleft Hright]. apply (etree_ind (fun tr => well_grouped g tr -> root_op P tr ->
                                                       forall x, In x (yield tr) -> x <> atom -> P x)).
    - intros ra _ _ _ x [<-|[]] N. contradiction N. reflexivity.
    - intros r L t R Hrule _ HL HR IHL IHR Hwg Hroot x Hx Hxa. cbn [root_op] in Hroot.
      destruct (wg_operands _ _ _ _ Hrule HL HR Hwg) as (WL & WR & OL & OR).
      rewrite yield_binop in Hx. apply in_app_or in Hx. destruct Hx as [Hx|[<-|Hx]]; [|assumption|].
      + apply IHL; [exact WL| |assumption|assumption].
        apply (root_op_impl _ _ _ (fun y => Hleft t y Hroot) OL).
      + apply IHR; [exact WR| |assumption|assumption].
        apply (root_op_impl _ _ _ (fun y => Hright t y Hroot) OR).
  Qed.

  (* t inside the left operand of t', and t' inside the right operand of t: t would win against t' and not win *)
  Lemma no_crossing r L t R r' L' t' R' :
    is_rule g r e [NT e; T t; NT e] -> is_rule g r' e [NT e; T t'; NT e] -> t <> atom -> t' <> atom ->
    valid_tree g (NT e) L -> valid_tree g (NT e) R -> valid_tree g (NT e) L' -> valid_tree g (NT e) R' ->
    well_grouped g (Node r [L; Leaf t; R]) -> well_grouped g (Node r' [L'; Leaf t'; R']) ->
    In t (yield L') -> In t' (yield R) -> False.
  Proof.
    intros Hrule Hrule' Ht Ht' HL HR HL' HR' Hwg Hwg' Hin Hin'.
    destruct (wg_operands _ _ _ _ Hrule HL HR Hwg) as (_ & WR & _ & OR).
    destruct (wg_operands _ _ _ _ Hrule' HL' HR' Hwg') as (WL' & _ & OL' & _).
    assert (~ wins t t') as N.
    { exact (inherited_all _ (loses_inherited t) R HR WR OR t' Hin' Ht'). }
    apply N.
    exact (inherited_all _ (wins_inherited t') L' HL' WL' OL' t Hin Ht).
  Qed.

  (* the two yields split at the two root operators ([app_cons_eq_cases]): at the same place, the halves are equal
     by induction; at different places, one root operator lies inside an operand of the other: [no_crossing] *)
  Theorem well_grouped_unique : forall tr tr',
    valid_tree g (NT e) tr -> valid_tree g (NT e) tr' ->
    well_grouped g tr -> well_grouped g tr' -> yield tr = yield tr' -> tr = tr'.
  Proof.
    intros tr tr' Hv. revert tr Hv tr'.
    apply (etree_ind (fun tr => forall tr', valid_tree g (NT e) tr' -> well_grouped g tr -> well_grouped g tr' ->
                                            yield tr = yield tr' -> tr = tr')).
    - intros ra Hra tr' Hv' _ _ Hy.
      destruct (tree_shape _ Hv') as [(ra' & -> & Hra')|(r' & L' & t' & R' & -> & _ & _ & HL' & _)].
      + f_equal. eapply U_once; eassumption.
      + symmetry in Hy. destruct (yield_binop_not_single _ _ _ _ _ HL' Hy).
    - intros r L t R Hrule Ht HL HR IHL IHR tr' Hv' Hwg Hwg' Hy.
      destruct (tree_shape _ Hv') as [(ra' & -> & Hra')|(r' & L' & t' & R' & -> & Hrule' & Ht' & HL' & HR')].
      + destruct (yield_binop_not_single _ _ _ _ _ HL Hy).
      + rewrite !yield_binop in Hy.
        destruct (app_cons_eq_cases _ _ _ _ _ _ Hy) as [(E1 & E2 & E3)|[(m & E1 & E2)|(m & E1 & E2)]].
        * subst t'. destruct (wg_operands _ _ _ _ Hrule HL HR Hwg) as (WL & WR & _).
          destruct (wg_operands _ _ _ _ Hrule' HL' HR' Hwg') as (WL' & WR' & _).
          rewrite (IHL L' HL' WL WL' E1), (IHR R' HR' WR WR' E3).
          f_equal. eapply U_once; eassumption.
        * exfalso. apply (no_crossing r L t R r' L' t' R'); try assumption.
          -- rewrite E1. apply in_elt.
          -- rewrite E2. apply in_elt.
        * exfalso. apply (no_crossing r' L' t' R' r L t R); try assumption.
          -- rewrite E1. apply in_elt.
          -- rewrite E2. apply in_elt.
  Qed.
End Unique.

Print Assumptions well_grouped_unique.
