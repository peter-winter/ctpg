(* Facts about the declarative grouping property of Spec/Grouping.v that involve neither tables nor the parser:
   [well_grouped] implies [groups_by_precedence], by arithmetic on [sr_choice], and [well_grouped] has a boolean
   decision procedure, which the examples run. *)
Require Import Ctpg.Base.Prelude Ctpg.Proofs.ListFacts Ctpg.Model.Grammar Ctpg.Model.LRGen
               Ctpg.Spec.Cfg Ctpg.Spec.Conflict Ctpg.Spec.Grouping Ctpg.Proofs.LRReflect Ctpg.Proofs.CellResolve.

Lemma binop_at_is_rule g r e t : is_rule g r e [NT e; T t; NT e] <-> exists i, binop_at g i r e t.
Proof.
  unfold is_rule, binop_at. split; intros (i & ri & H); exists i, ri; exact H.
Qed.

Lemma sr_choice_reduce_prec g i t : sr_choice g i t = KReduce ->
  (term_prec_of g t <= rule_prec_of g i)%Z /\
  (rule_prec_of g i = term_prec_of g t -> rule_assoc_of g i = Ltor).
Proof. intros [H|[E A]]%sr_choice_reduce_iff; split; auto; lia. Qed.

Lemma sr_choice_shift_prec g i t : sr_choice g i t = KShift ->
  (rule_prec_of g i <= term_prec_of g t)%Z /\
  (rule_prec_of g i = term_prec_of g t -> rule_assoc_of g i <> Ltor).
Proof.
  intros H. assert (sr_choice g i t <> KReduce) as N by (rewrite H; discriminate). rewrite sr_choice_reduce_iff in N.
  split; [lia|]. intros E A. apply N. auto.
Qed.

(* a well grouped tree groups by precedence, then by associativity *)
Theorem well_grouped_by_precedence : forall g tr, well_grouped g tr -> groups_by_precedence g tr.
Proof.
  intros g tr H n Hsub. specialize (H n Hsub).
  destruct n as [a|r [|L [|[t|? ?] [|R [|? ?]]]]]; try exact I.
  cbn [node_ok] in H. cbn [node_by_precedence]. intros i e Hb [Hp Ha].
  destruct (H i e Hb) as [HL HR]. split.
  - destruct L as [a|r0 ch0]; [exact I|]. cbn [left_operand_ok] in HL.
    intros i0 t0 Hb0 [Hp0 Ha0]. destruct (sr_choice_reduce_prec _ _ _ (HL i0 t0 Hb0)) as [H1 H2].
    rewrite Hp0 in H1, H2. rewrite Ha0 in H2. split; assumption.
  - destruct R as [a|r2 [|b [|[t2|? ?] [|c [|? ?]]]]]; try exact I. cbn [right_operand_ok] in HR.
    intros i2 Hb2. destruct (sr_choice_shift_prec _ _ _ (HR i2 Hb2)) as [H1 H2].
    rewrite Hp in H1, H2. rewrite Ha in H2. split; [assumption|]. intros E. apply H2. symmetry. assumption.
Qed.

(* in particular: an operator node whose operator has LOWER precedence is never a direct operand of an operator node
   whose operator has HIGHER precedence (rules without explicit precedence) *)
Corollary lower_never_under_higher : forall g tr r L t R i e,
  well_grouped g tr -> subtree (Node r [L; Leaf t; R]) tr -> binop_at g i r e t -> plain_rule g i t ->
  (forall r0 ch0 i0 t0, L = Node r0 ch0 -> binop_at g i0 r0 e t0 -> plain_rule g i0 t0 ->
                        ~ (term_prec_of g t0 < term_prec_of g t)%Z) /\
  (forall r2 b t2 c i2, R = Node r2 [b; Leaf t2; c] -> binop_at g i2 r2 e t2 ->
                        ~ (term_prec_of g t2 < term_prec_of g t)%Z).
Proof.
  intros g tr r L t R i e Hwg Hsub Hb Hp.
  pose proof (well_grouped_by_precedence g tr Hwg _ Hsub) as H. cbn [node_by_precedence] in H.
  destruct (H i e Hb Hp) as [HL HR]. split.
  - intros r0 ch0 i0 t0 -> Hb0 Hp0. destruct (HL i0 t0 Hb0 Hp0). lia.
  - intros r2 b t2 c i2 -> Hb2. destruct (HR i2 Hb2). lia.
Qed.

(* the operator of rule_info i if it is a binary operator rule of e with r_idx r *)
Definition binop_op (g : grammar) (i r e : nat) : option nat :=
  match nth_error (rule_infos g) i with
  | Some ri =>
      if Nat.eqb (ri_r ri) r && Nat.eqb (ri_l ri) e then
        match nth_error (right_sides g) r with
        | Some [NT e1; T t; NT e2] => if Nat.eqb e1 e && Nat.eqb e2 e then Some t else None
        | _ => None
        end
      else None
  | None => None
  end.

Lemma binop_op_iff g i r e t : binop_op g i r e = Some t <-> binop_at g i r e t.
Proof.
  unfold binop_op, binop_at. split.
  - destruct (nth_error (rule_infos g) i) as [ri|]; [|discriminate].
    destruct (Nat.eqb (ri_r ri) r && Nat.eqb (ri_l ri) e) eqn:E; [|discriminate].
    apply andb_true_iff in E. destruct E as [E1 E2]. apply Nat.eqb_eq in E1, E2.
    destruct (nth_error (right_sides g) r) as [[|[?|e1] [|[t'|?] [|[?|e2] [|? ?]]]]|]; try discriminate.
    destruct (Nat.eqb e1 e && Nat.eqb e2 e) eqn:E'; [|discriminate].
    apply andb_true_iff in E'. destruct E' as [E3 E4]. apply Nat.eqb_eq in E3, E4. subst e1 e2.
    intros H; inversion H; subst t'. exists ri. auto.
  - intros (ri & -> & Hr & Hl & ->). rewrite Hr, Hl, !Nat.eqb_refl. cbn. reflexivity.
Qed.

Lemma binop_at_lt g i r e t : binop_at g i r e t -> i < length (rule_infos g).
Proof. intros (ri & H & _). apply nth_error_Some. congruence. Qed.

Definition all_ri (g : grammar) (f : nat -> bool) : bool := forallb f (seq 0 (length (rule_infos g))).

Lemma all_ri_iff g f : all_ri g f = true <-> forall i, i < length (rule_infos g) -> f i = true.
Proof. apply forallb_seq0. Qed.

Definition left_operand_okb (g : grammar) (e t : nat) (L : tree) : bool :=
  match L with
  | Node r0 _ => all_ri g (fun i0 => match binop_op g i0 r0 e with
                                     | Some _ => kind_eqb (sr_choice g i0 t) KReduce
                                     | None => true
                                     end)
  | Leaf _ => true
  end.

(* [binop_op] returns the operator of whichever rule has r_idx r2, [right_operand_ok] speaks of the operator t2
   that stands in the tree: hence the guard t' = t2 ([left_operand_ok] quantifies over the operator, no guard there) *)
Definition right_operand_okb (g : grammar) (i e : nat) (R : tree) : bool :=
  match R with
  | Node r2 [_; Leaf t2; _] =>
      all_ri g (fun i2 => match binop_op g i2 r2 e with
                          | Some t' => negb (Nat.eqb t' t2) || kind_eqb (sr_choice g i t2) KShift
                          | None => true
                          end)
  | _ => true
  end.

Definition node_okb (g : grammar) (n : tree) : bool :=
  match n with
  | Node r [L; Leaf t; R] =>
      all_ri g (fun i => let e := ri_l (get_ri g i) in
                         match binop_op g i r e with
                         | Some t' => negb (Nat.eqb t' t) || (left_operand_okb g e t L && right_operand_okb g i e R)
                         | None => true
                         end)
  | _ => true
  end.

Fixpoint well_groupedb (g : grammar) (tr : tree) : bool :=
  match tr with
  | Leaf _ => true
  | Node r ch => node_okb g tr && forallb (well_groupedb g) ch
  end.

(* a check over all rule_infos that looks at the binary operator rules with r_idx r only (their left side may
   depend on the index, as in [node_okb]) *)
Lemma all_ri_binop g r (e : nat -> nat) (f : nat -> nat -> bool) :
  all_ri g (fun i => match binop_op g i r (e i) with Some t => f i t | None => true end) = true <->
  forall i t, binop_at g i r (e i) t -> f i t = true.
Proof.
  rewrite all_ri_iff. split.
  - intros H i t Hb. specialize (H i (binop_at_lt _ _ _ _ _ Hb)). apply binop_op_iff in Hb. rewrite Hb in H. exact H.
  - intros H i _. destruct (binop_op g i r (e i)) as [t|] eqn:E; [|reflexivity]. apply H, binop_op_iff, E.
Qed.

Lemma left_operand_okb_iff g e t L : left_operand_okb g e t L = true <-> left_operand_ok g e t L.
Proof.
  destruct L as [a|r0 ch0]; cbn [left_operand_okb left_operand_ok]; [tauto|].
  rewrite (all_ri_binop g r0 (fun _ => e) (fun i0 _ => kind_eqb (sr_choice g i0 t) KReduce)).
  split; intros H i0 t0 Hb; apply kind_eqb_eq, (H i0 t0 Hb).
Qed.

Lemma right_operand_okb_iff g i e R : right_operand_okb g i e R = true <-> right_operand_ok g i e R.
Proof.
  destruct R as [a|r2 [|b [|[t2|? ?] [|c [|? ?]]]]]; cbn [right_operand_okb right_operand_ok]; try tauto.
  rewrite (all_ri_binop g r2 (fun _ => e) (fun _ t' => negb (Nat.eqb t' t2) || kind_eqb (sr_choice g i t2) KShift)).
  split.
  - intros H i2 Hb. specialize (H i2 t2 Hb). rewrite Nat.eqb_refl in H. apply kind_eqb_eq. exact H.
  - intros H i2 t' Hb. destruct (Nat.eqb_spec t' t2) as [->|]; [|reflexivity]. apply kind_eqb_eq, (H i2 Hb).
Qed.

Lemma binop_at_get_ri g i r e t : binop_at g i r e t -> ri_r (get_ri g i) = r /\ ri_l (get_ri g i) = e.
Proof. intros (ri & H & Hr & Hl & _). unfold get_ri. rewrite (nth_error_nth _ _ dummy_ri H). auto. Qed.

Lemma node_okb_iff g n : node_okb g n = true <-> node_ok g n.
Proof.
  destruct n as [a|r [|L [|[t|? ?] [|R [|? ?]]]]]; cbn [node_okb node_ok]; try tauto.
  rewrite (all_ri_binop g r (fun i => ri_l (get_ri g i))
             (fun i t' => negb (Nat.eqb t' t) || (left_operand_okb g (ri_l (get_ri g i)) t L && right_operand_okb g i (ri_l (get_ri g i)) R))).
  split.
  - intros H i e Hb. rewrite <- (proj2 (binop_at_get_ri _ _ _ _ _ Hb)) in Hb |- *. specialize (H i t Hb).
    rewrite Nat.eqb_refl in H. cbn [negb orb] in H.
    rewrite andb_true_iff, left_operand_okb_iff, right_operand_okb_iff in H. exact H.
  - intros H i t' Hb. destruct (Nat.eqb_spec t' t) as [->|]; [|reflexivity].
    cbn [negb orb]. rewrite andb_true_iff, left_operand_okb_iff, right_operand_okb_iff. exact (H i _ Hb).
Qed.

Lemma well_grouped_leaf g a : well_grouped g (Leaf a).
Proof. intros n H. inversion H; subst. exact I. Qed.

Lemma well_grouped_node g r ch :
  well_grouped g (Node r ch) <-> node_ok g (Node r ch) /\ Forall (well_grouped g) ch.
Proof.
  rewrite Forall_forall. split.
  - intros H. split; [apply H; constructor|]. intros c Hc n Hs. apply H. econstructor; eassumption.
  - intros [Hn Hch] n Hs. inversion Hs; subst; [assumption|]. eapply Hch; eassumption.
Qed.

Theorem well_groupedb_iff g tr : well_groupedb g tr = true <-> well_grouped g tr.
Proof.
  induction tr as [a|r ch IH] using tree_ind'.
  - split; [intros _; apply well_grouped_leaf|reflexivity].
  - cbn [well_groupedb]. rewrite well_grouped_node, andb_true_iff, node_okb_iff, forallb_forall, !Forall_forall.
    rewrite Forall_forall in IH. split; intros [Hn Hch]; (split; [assumption|]); intros c Hc; apply (IH c Hc), Hch, Hc.
Qed.

Print Assumptions well_grouped_by_precedence.
Print Assumptions well_groupedb_iff.
