(* C09, first part: failures are reported once and never silently (generic driver).
   With an empty error column ([no_error_symbol]) the two messages the driver writes regardless of options.verbose
   ([EvSyntaxError], [EvUnexpectedChar]) occur at most once in a run, never in an accepting run, and -- when the table
   has no SHIFT_ERROR cell outside the error column -- exactly once in a rejecting run.  After the syntax error every
   iteration is a stack pop; after an unexpected character the run stops at once. *)
Require Import Ctpg.Base.Prelude Ctpg.Model.Grammar Ctpg.Model.LRGen Ctpg.Model.Driver Ctpg.Valid.LRValid
               Ctpg.Spec.Cfg Ctpg.Spec.LRSpec Ctpg.Spec.Eval.
Require Import Ctpg.Proofs.ListFacts Ctpg.Proofs.DriverBasics Ctpg.Proofs.DriverIter Ctpg.Proofs.DriverPos Ctpg.Proofs.LRValidFacts Ctpg.Proofs.LRMachine.

(* the lines written regardless of verbosity; [nv ev = []] is [LRMachine.quiet ev] *)
Definition nv (l : list event) : list event := filter is_nonverbose l.

Lemma nv_app a b : nv (a ++ b) = nv a ++ nv b.
Proof. apply filter_app. Qed.

Lemma nv_lex lx : nv (map EvLex lx) = [].
Proof. induction lx as [|x lx IH]; cbn; [reflexivity|exact IH]. Qed.

Lemma nv_visible opts ev : nv (filter (visible opts) ev) = nv ev.
Proof.
  unfold nv. rewrite filter_filter. apply filter_ext. intros e. unfold visible.
  destruct (is_nonverbose e); [now rewrite orb_true_r|apply andb_false_r].
Qed.

Lemma nv_in opts e ev : In e (filter (visible opts) ev) -> is_nonverbose e = true -> In e (nv ev).
Proof. intros H E. apply filter_In in H. apply filter_In. tauto. Qed.

Lemma nv_idem l : nv (nv l) = nv l.
Proof. unfold nv. rewrite filter_filter. apply filter_ext. intros e. apply andb_diag. Qed.

(* SHIFT_ERROR occurs in the error symbol's column only (true of every table the generator writes, and of every
   row the validator checks) *)
Definition shifterr_only_err_col (g : grammar) (tbl : table) : Prop :=
  forall st t e, cell tbl st (nterm_count g + t) = inl e -> e_kind e = KShiftErr -> t = err_idx g.
Definition shifterr_only_err_colb (g : grammar) (tbl : table) : bool :=
  forallb (fun row => forallb (fun c => match nth_error row c with
                                        | Some e => negb (kind_eqb (e_kind e) KShiftErr) || Nat.eqb c (nterm_count g + err_idx g)
                                        | None => true
                                        end) (seq 0 (length row))) tbl.

Lemma shifterr_only_err_colb_ok g tbl : shifterr_only_err_colb g tbl = true -> shifterr_only_err_col g tbl.
Proof.
  intros H st t e (row & Hr & He)%cell_inl Hk.
  unfold shifterr_only_err_colb in H. rewrite forallb_forall in H. specialize (H row (nth_error_In _ _ Hr)).
  rewrite forallb_seq0 in H. specialize (H _ (nth_error_Some_lt _ _ _ He)). rewrite He, Hk in H.
  apply Nat.eqb_eq in H. lia.
Qed.

Section Report.
  Variables V C : Type.
  Variable g : grammar.
  Variable tbl : table.
  Variable opts : options.
  Variable buf : list nat.
  Variable cap : option nat.
  Variable lexer : bool -> spoint -> list nat -> list lex_event * option (nat * nat).
  Variable term_f : nat -> nat -> nat -> spoint -> V.
  Variable err_f : spoint -> V.
  Variable rule_f : nat -> C -> list V -> C * V.

  Notation pst := (pstate V C).
  Notation stepx := (step V C g tbl opts buf cap lexer term_f err_f rule_f).
  Notation gctx := (get_current_term V C g opts buf lexer).
  Notation gspec := (gct_spec V C g opts buf lexer).
  Notation run_ghx := (run_gh V C g tbl opts buf cap lexer term_f err_f rule_f).
  Notation runx := (run V C g tbl opts buf cap lexer term_f err_f rule_f).
  Notation eventsx := (all_events V C g tbl opts buf cap lexer term_f err_f rule_f).
  Notation outcome := ((pst + result V * pst) * list event)%type.
  Notation step_movesx := (step_moves V C g tbl opts buf cap lexer term_f err_f rule_f).
  Notation step_eqx := (step_eq V C g tbl opts buf cap lexer term_f err_f rule_f).

  Lemma nv_lc (s1 : pst) : nv (lc s1) = [].
  Proof. unfold lc. destruct (ps_cons s1); reflexivity. Qed.

  (* the iteration that writes the syntax error: the cell of (top state, current term) is an error cell.  [nv ev1 = []]
     and [ps_term s1 = Some t] follow from the equation before them ([gct_quiet], [gct_term]) and are carried for convenience. *)
  Definition enter_at (s s1 : pst) (cursor t : nat) (ev1 : list event) : Prop :=
    (exists cs, ps_cursors s = cursor :: cs) /\ gctx s = (s1, Some t, ev1) /\ nv ev1 = [] /\
    (exists e, cell tbl cursor (nterm_count g + t) = inl e /\ e_kind e = KError) /\
    ps_cons s1 = false /\ ps_rec s1 = false /\ ps_term s1 = Some t.

  Definition quiet_step (s : pst) : Prop := ps_rec s = false /\ nv (snd (stepx s)) = [].
  (* the iteration of loop-head state s writes the syntax error (p, t) *)
  Definition enter_step (s : pst) (p : spoint) (t : nat) : Prop :=
    ps_rec s = false /\
    exists s1 cursor ev1, enter_at s s1 cursor t ev1 /\ p = ps_sp s1 /\
      stepx s = (inl (set_modes s1 true (ps_cons s1)), ev1 ++ [EvSyntaxError p t; EvEnterRecovery p]).

  Lemma gct_quiet s s1 t ev1 : gspec s (s1, Some t, ev1) -> nv ev1 = [].
  Proof. intros H; inversion H; subst; try reflexivity. rewrite nv_app, nv_lex. reflexivity. Qed.

  (* an iteration outside recovery mode: it writes no message, or it writes the syntax error and enters recovery
     mode, or the lexer fails; what the first case says of [ps_cons] and Reject is what keeps the last premise of [RsQuiet] *)
  Lemma normal_step s : ps_rec s = false -> term_inv V C s ->
    (nv (snd (stepx s)) = [] /\
     match fst (stepx s) with
     | inl s' => ps_rec s' = false /\
                 (shifterr_only_err_col g tbl -> err_col_empty g tbl -> ps_cons s = false -> ps_cons s' = false)
     | inr (r, _) => r = Reject -> ps_cons s = true
     end) \/
    (exists p t, enter_step s p t) \/
    (exists s1 pre p c, gctx s = (s1, None, pre ++ [EvUnexpectedChar p c]) /\ nv pre = [] /\
                        stepx s = (inr (Reject, s1), pre ++ [EvUnexpectedChar p c])).
  Proof.
    intros Hrs Hti. unfold enter_step. apply step_movesx.
    - intros _. left. split; [reflexivity|discriminate].
    - intros s1 ev1 _ E Hg. inversion Hg; subst; [destruct Hti; congruence|].
      right. right. do 4 eexists. split; [eassumption|]. split; [apply nv_lex|reflexivity].
    - intros cursor cs s1 t ev1 m Hcs E Hg Hd.
      pose proof (gct_quiet _ _ _ _ Hg) as Hq.
      destruct (gct_stacks Hg) as (_ & _ & _ & Hr1 & Hc1). rewrite Hrs in Hr1.
      destruct (gct_term Hg) as [[Hx _]|[_ Hterm]]; [congruence|].
      case_move Hd; cbn [perform fst snd] in *.
      4:{ (* the syntax error *)
          right. left. exists (ps_sp s1), t. split; [assumption|]. exists s1, cursor, ev1.
          split; [unfold enter_at; repeat split; eauto|]. split; [reflexivity|].
          unfold term_or0. now rewrite Hterm, Hcons. }
      (* every other move writes no message; its lines, result and mode flags are concrete *)
      all: left; rewrite ?nv_app, Hq, ?nv_lc; try match goal with |- context [rr_line ?rr _] => destruct rr end;
        (split; [reflexivity|]); simp_mv; try discriminate; try congruence.
      all: try (split; [assumption|intros; congruence]).
      + (* consume mode would need a SHIFT_ERROR under a term that is not the error token *)
        split; [reflexivity|]. intros Hse Herr _. pose proof (Hse _ _ _ Hcell Hkind) as ->.
        rewrite (Herr _ _ Hcell) in Hkind. discriminate.
      + destruct x; discriminate.
      + destruct x; discriminate.
      + destruct (rev (ps_values s1)); discriminate.
  Qed.

  Lemma enter_next s p t : enter_step s p t ->
    nv (snd (stepx s)) = [EvSyntaxError p t] /\
    exists s', fst (stepx s) = inl s' /\ ps_rec s' = true /\ ps_cons s' = false.
  Proof.
    intros (_ & s1 & cursor & ev1 & (_ & _ & Hq & _ & Hc & _) & _ & ->). cbn [fst snd].
    split; [rewrite nv_app, Hq; reflexivity|eauto].
  Qed.

  (* an iteration in recovery mode with an empty error column: pop one state, or give up *)
  Inductive popish (s : pst) : outcome -> Prop :=
  | PoPop top cs :
      tl (ps_cursors s) = top :: cs ->
      popish s (inl (set_stacks s (tl (ps_cursors s)) (tl (ps_values s))), [EvRecoveringTo (ps_sp s) top])
  | PoFail :
      (exists cur, ps_cursors s = [cur]) ->
      popish s (inr (Reject, set_stacks s (tl (ps_cursors s)) (tl (ps_values s))), [EvCouldNotRecover (ps_sp s)])
  | PoCrash c :
      (* the stack is empty, or its top is not a row of the table / the row is too short *)
      (ps_cursors s = [] /\ c = CrEmptyStack) \/
      (exists cur cs, ps_cursors s = cur :: cs /\ cell tbl cur (nterm_count g + err_idx g) = inr c) ->
      popish s (inr (Crash c, s), []).

  Definition pop_step (s : pst) : Prop := ps_rec s = true /\ ps_cons s = false /\ popish s (stepx s).

  Lemma popish_step s : err_col_empty g tbl -> ps_rec s = true -> ps_cons s = false -> popish s (stepx s).
  Proof.
    intros Herr Hrec Hcons. destruct (ps_cursors s) as [|cursor cs] eqn:Hcs.
    { rewrite (step_empty Hcs). apply PoCrash. left. auto. }
    rewrite (step_eqx s cursor cs s _ [] Hcs (gct_rec Hrec)). unfold decide.
    destruct (cell tbl cursor (nterm_count g + err_idx g)) as [e|c] eqn:Hcell.
    - rewrite (Herr _ _ Hcell), Hcons, Hrec. cbn [fst snd app].
      destruct (tl (ps_cursors s)) as [|top cs'] eqn:Htl; cbn [perform fst snd]; unfold pop1.
      + apply PoFail. rewrite Hcs in Htl. cbn in Htl. subst cs. eauto.
      + eapply PoPop. eassumption.
    - apply PoCrash. right. eauto.
  Qed.

  (* results a run can end with once it is in recovery mode *)
  Definition resB (r : result V) : Prop := r = OutOfFuel \/ r = Reject \/ exists c, r = Crash c.

  Lemma resB_not_accept r : resB r -> forall v, r <> Accept v.
  Proof. intros [->|[->|[c ->]]] v; discriminate. Qed.

  (* what a popping iteration leaves behind: the modes are kept and the stack loses its top; the run ends with Reject
     when the last entry goes, or crashes *)
  Lemma pop_step_next s : pop_step s ->
    nv (snd (stepx s)) = [] /\
    match fst (stepx s) with
    | inl s' => ps_rec s' = true /\ ps_cons s' = false /\ ps_cursors s' = tl (ps_cursors s) /\ ps_cursors s' <> []
    | inr (r, _) => r = Reject \/ exists c, r = Crash c
    end.
  Proof.
    intros (Hrec & Hcons & Hp). destruct Hp as [top cs Htl| |c Hc]; cbn [fst snd]; (split; [reflexivity|]).
    - cbn. rewrite Htl. repeat split; auto. discriminate.
    - left. reflexivity.
    - right. eauto.
  Qed.

  Lemma messages_snoc vis s : nv (eventsx (vis ++ [s])) = nv (eventsx vis) ++ nv (snd (stepx s)).
  Proof. rewrite all_events_snoc. apply nv_app. Qed.

  Lemma quiet_run vis : Forall quiet_step vis -> nv (eventsx vis) = [].
  Proof. induction 1 as [|s vis [_ Hs] _ IH]; [reflexivity|]. unfold all_events. cbn. rewrite nv_app, Hs. exact IH. Qed.

  (* the three shapes of a run, in terms of the loop-head states it visits, each with the messages among their lines;
     a quiet run is never in consume mode, and does not end with Reject, when SHIFT_ERROR occurs in the error column only.
     The third premise of [RsQuiet] and the last of [RsSyntax] say where a run stands that still goes on: [shape_step]
     needs them to carry the shape over one more iteration. *)
  Inductive run_shape (vis : list pst) (r : result V) (s' : pst) : Prop :=
  | RsQuiet :
      nv (eventsx vis) = [] -> Forall quiet_step vis -> ps_rec s' = false \/ r <> OutOfFuel ->
      (shifterr_only_err_col g tbl -> match r with OutOfFuel => ps_cons s' = false | Reject => False | _ => True end) ->
      run_shape vis r s'
  | RsLexFail vis2 sl pre p c :
      nv (eventsx vis) = [EvUnexpectedChar p c] ->
      vis = vis2 ++ [sl] -> Forall quiet_step vis2 -> ps_rec sl = false -> r = Reject ->
      snd (stepx sl) = pre ++ [EvUnexpectedChar p c] -> nv pre = [] ->
      run_shape vis r s'
  | RsSyntax vis1 se vis2 p t :
      nv (eventsx vis) = [EvSyntaxError p t] ->
      vis = vis1 ++ se :: vis2 -> Forall quiet_step vis1 -> enter_step se p t -> Forall pop_step vis2 ->
      resB r -> (r = OutOfFuel -> ps_rec s' = true /\ ps_cons s' = false) ->
      run_shape vis r s'.

  (* up to here for any table *)
  Hypothesis Hnoerr : no_error_symbol g tbl = true.

  Lemma err_col_is_empty : err_col_empty g tbl.
  Proof. exact (no_error_symbol_cell g tbl Hnoerr). Qed.

  Lemma pop_step_holds s : ps_rec s = true -> ps_cons s = false -> pop_step s.
  Proof. intros Hr Hc. repeat split; [assumption..|]. apply popish_step; [exact err_col_is_empty|assumption..]. Qed.

  (* The loop invariant is the shape of the run that stops at s for lack of fuel: normal mode and nothing written,
     or recovery mode after the one syntax error. *)
  Lemma shape_step vis s : run_shape vis OutOfFuel s -> term_inv V C s ->
    match fst (stepx s) with
    | inl s' => run_shape (vis ++ [s]) OutOfFuel s'
    | inr (r, s') => run_shape (vis ++ [s]) r s'
    end.
  Proof.
    intros Hsh Hti. pose proof (messages_snoc vis s) as Hm.
    destruct Hsh as [Hm0 Hall [Hrec|[]] Hcons | ? ? ? ? ? _ _ _ _ [=] | vis1 se vis2 p t Hm0 -> Hall Hent Hpop _ Hoof];
      [|reflexivity|]; rewrite Hm0 in Hm.
    - assert (Hq : nv (snd (stepx s)) = [] -> Forall quiet_step (vis ++ [s])).
      { intros Hq. apply Forall_app. split; [assumption|]. constructor; [split; assumption|constructor]. }
      destruct (normal_step s Hrec Hti) as [[Hq0 Ho]|[(p & t & Hent)|(s1 & pre & p & c & _ & Hpre & Hs)]].
      + rewrite Hq0 in Hm. destruct (stepx s) as [[s1|[r s1]] ev] eqn:Hs; cbn [fst] in *.
        * destruct Ho as (Hr1 & Hc1). apply RsQuiet; [auto..|left; assumption|].
          intros Hse. exact (Hc1 Hse err_col_is_empty (Hcons Hse)).
        * apply RsQuiet; [auto..|right; intros ->; exact (step_not_oof Hs)|].
          intros Hse. destruct r; try exact I; [|destruct (step_not_oof Hs)].
          specialize (Ho eq_refl). rewrite (Hcons Hse) in Ho. discriminate.
      + destruct (enter_next s p t Hent) as (Hq0 & s1 & -> & Hr1 & Hc1). rewrite Hq0 in Hm.
        apply RsSyntax with (vis1 := vis) (se := s) (vis2 := []) (p := p) (t := t); auto.
        left. reflexivity.
      + rewrite Hs in Hm |- *. cbn [fst snd] in *. rewrite nv_app, Hpre in Hm.
        eapply RsLexFail with (pre := pre) (p := p) (c := c);
          [exact Hm|reflexivity|assumption|assumption|reflexivity|rewrite Hs; reflexivity|assumption].
    - destruct (Hoof eq_refl) as [Hrec Hcons]. pose proof (pop_step_holds s Hrec Hcons) as Hps.
      assert (Hp : Forall pop_step (vis2 ++ [s])) by (apply Forall_app; split; [assumption|constructor; [assumption|constructor]]).
      assert (Hv : (vis1 ++ se :: vis2) ++ [s] = vis1 ++ se :: vis2 ++ [s]) by (rewrite <- app_assoc; reflexivity).
      destruct (pop_step_next s Hps) as [Hq0 Hn]. rewrite Hq0 in Hm. destruct (fst (stepx s)) as [s1|[r s1]].
      + destruct Hn as (Hr1 & Hc1 & _). eapply RsSyntax; eauto. left. reflexivity.
      + eapply RsSyntax; eauto.
        * destruct Hn as [->|[c ->]]; [right; left; reflexivity|right; right; eauto].
        * intros ->. destruct Hn as [[=]|[c [=]]].
  Qed.

  (* full description of a run, with the loop-head states visited as a ghost *)
  Theorem one_message_trace fuel c :
    let '(r, s', out, vis) := run_ghx fuel (init c) [] [] in
    run_shape vis r s' /\ out = filter (visible opts) (eventsx vis).
  Proof.
    pose proof (run_gh_inv V C g tbl opts buf cap lexer term_f err_f rule_f
                  (fun vis s => run_shape vis OutOfFuel s /\ term_inv V C s) run_shape (fun vis s H => proj1 H)) as H.
    assert (Hst : forall vis s, run_shape vis OutOfFuel s /\ term_inv V C s ->
               match fst (stepx s) with
               | inl s' => run_shape (vis ++ [s]) OutOfFuel s' /\ term_inv V C s'
               | inr (r, s') => run_shape (vis ++ [s]) r s'
               end).
    { intros vis s [Hsh Hti]. pose proof (shape_step vis s Hsh Hti) as A.
      pose proof (step_term_inv V C g tbl opts buf cap lexer term_f err_f rule_f s Hti) as B.
      destruct (fst (stepx s)) as [s'|[r s']]; auto. }
    specialize (H Hst fuel (init c) [] []).
    pose proof (run_gh_out V C g tbl opts buf cap lexer term_f err_f rule_f fuel (init c) [] [] [] eq_refl) as Ho.
    destruct (run_ghx fuel (init c) [] []) as [[[r s'] out] vis]. split; [apply H|exact Ho].
    split; [|left; reflexivity]. apply RsQuiet; [reflexivity|constructor|left; reflexivity|reflexivity].
  Qed.

  Theorem one_message fuel c :
    let '(r, s, out) := runx fuel c in
    length (nv out) <= 1 /\
    (forall v, r = Accept v -> nv out = []) /\
    (shifterr_only_err_col g tbl -> r = Reject -> exists e, nv out = [e]).
  Proof.
    rewrite run_of_gh.
    pose proof (one_message_trace fuel c) as H.
    destruct (run_ghx fuel (init c) [] []) as [[[r s'] out] vis]. destruct H as [H ->]. rewrite nv_visible.
    destruct H as [-> _ _ Hrej|? ? ? p ch -> _ _ _ -> _ _|? ? ? p t -> _ _ _ _ Hres _]; cbn.
    - split; [lia|]. split; [auto|]. intros Hse ->. destruct (Hrej Hse).
    - split; [lia|]. split; [discriminate|]. eauto.
    - split; [lia|]. split; [|eauto]. intros v E. exfalso. exact (resB_not_accept _ Hres v E).
  Qed.

  (* with verbose off nothing else reaches the stream *)
  Lemma quiet_out fuel c : o_verbose opts = false ->
    let '(_, _, out) := runx fuel c in nv out = out.
  Proof.
    intros Hq. rewrite run_of_gh.
    pose proof (one_message_trace fuel c) as H.
    destruct (run_ghx fuel (init c) [] []) as [[[r s'] out] vis]. destruct H as [_ ->].
    rewrite quiet_visible by assumption. apply nv_idem.
  Qed.

  Corollary one_message_quiet fuel c : o_verbose opts = false ->
    let '(r, s, out) := runx fuel c in
    length out <= 1 /\
    (forall v, r = Accept v -> out = []) /\
    (shifterr_only_err_col g tbl -> r = Reject ->
     exists p x, out = [EvSyntaxError p x] \/ out = [EvUnexpectedChar p x]).
  Proof.
    intros Hq. pose proof (one_message fuel c) as H. pose proof (quiet_out fuel c Hq) as Ho.
    destruct (runx fuel c) as [[r s] out]. rewrite Ho in H. destruct H as (H1 & H2 & H3).
    split; [assumption|]. split; [assumption|]. intros Hse E. destruct (H3 Hse E) as (e & He).
    assert (Hn : is_nonverbose e = true).
    { assert (In e (nv out)) as Hin by (rewrite Ho, He; left; reflexivity). apply filter_In in Hin. tauto. }
    destruct e; try discriminate; eauto.
  Qed.

  (* an unexpected character ends the run at once: it is the last line written, the result is Reject,
     and the driver never was in recovery mode *)
  Theorem unexpected_char_stops fuel c :
    let '(r, s', out, vis) := run_ghx fuel (init c) [] [] in
    forall p ch, In (EvUnexpectedChar p ch) out ->
      r = Reject /\ (exists pre, out = pre ++ [EvUnexpectedChar p ch] /\ nv pre = []) /\
      Forall (fun s => ps_rec s = false) vis.
  Proof.
    pose proof (one_message_trace fuel c) as H.
    destruct (run_ghx fuel (init c) [] []) as [[[r s'] out] vis]. destruct H as [H ->]. intros p ch Hin.
    pose proof (nv_in _ _ _ Hin eq_refl) as Hin'.
    destruct H as [Hm _ _ _|vis2 sl pre p0 c0 Hm -> Hall Hsl -> Hev Hpre|? ? ? p0 t Hm _ _ _ _ _ _]; rewrite Hm in Hin'.
    - destruct Hin'.
    - destruct Hin' as [[= <- <-]|[]]. split; [reflexivity|]. split.
      + exists (filter (visible opts) (eventsx vis2 ++ pre)). split.
        * rewrite all_events_snoc, Hev, app_assoc, (filter_app _ (_ ++ _)). cbn.
          unfold visible at 2. cbn. rewrite orb_true_r. reflexivity.
        * rewrite nv_visible, nv_app, (quiet_run vis2 Hall). assumption.
      + apply Forall_app. split; [|constructor; [assumption|constructor]].
        eapply Forall_impl; [|exact Hall]. intros a [Ha _]. exact Ha.
    - destruct Hin' as [[=]|[]].
  Qed.

  (* nothing more is written, and the run ends when it has as much fuel as the stack is high *)
  Lemma recovery_run fuel : forall s out vis, ps_rec s = true -> ps_cons s = false ->
    let '(r, _, out', _) := run_ghx fuel s out vis in
    resB r /\ nv out' = nv out /\ (length (ps_cursors s) <= fuel -> 0 < fuel -> r <> OutOfFuel).
  Proof.
    induction fuel as [|f IH]; intros s out vis Hr Hc; cbn [run_gh].
    - split; [left; reflexivity|]. split; [reflexivity|lia].
    - destruct (pop_step_next s (pop_step_holds s Hr Hc)) as [Hq Hn].
      assert (Hout : nv (out ++ filter (visible opts) (snd (stepx s))) = nv out).
      { rewrite nv_app, nv_visible, Hq. apply app_nil_r. }
      destruct (stepx s) as [[s1|[r1 s1]] ev]; cbn [fst snd] in *.
      + destruct Hn as (Hr1 & Hc1 & Hcs & Hne).
        specialize (IH s1 (out ++ filter (visible opts) ev) (vis ++ [s]) Hr1 Hc1).
        destruct (run_ghx f s1 _ _) as [[[r s'] out'] vis']. destruct IH as (H1 & H2 & H3).
        split; [assumption|]. split; [congruence|]. intros Hl _. rewrite Hcs in *.
        destruct (ps_cursors s) as [|a [|b l]]; cbn in *; [congruence..|]. apply H3; lia.
      + destruct Hn as [->|[c ->]]; (split; [|split; [assumption|discriminate]]).
        * right. left. reflexivity.
        * right. right. eauto.
  Qed.

  (* after the syntax error every iteration pops one state; the run ends with Reject, or crashes on a stack entry
     that is not a row of the table -- and it does end: a run that stops for lack of fuel ends when continued
     with as much fuel as the stack is high *)
  Theorem syntax_error_then_pops fuel c :
    let '(r, s', out, vis) := run_ghx fuel (init c) [] [] in
    forall p t, In (EvSyntaxError p t) out ->
      nv out = [EvSyntaxError p t] /\
      (exists vis1 se vis2, vis = vis1 ++ se :: vis2 /\ Forall quiet_step vis1 /\ enter_step se p t /\ Forall pop_step vis2) /\
      resB r /\
      (r = OutOfFuel -> forall k, length (ps_cursors s') <= k -> 0 < k ->
         let '(r2, _, out2, _) := run_ghx (fuel + k) (init c) [] [] in
         r2 <> OutOfFuel /\ resB r2 /\ nv out2 = [EvSyntaxError p t]).
  Proof.
    pose proof (one_message_trace fuel c) as H.
    destruct (run_ghx fuel (init c) [] []) as [[[r s'] out] vis] eqn:Erun. destruct H as [H Eout]. intros p t Hin.
    rewrite Eout in Hin. pose proof (nv_in _ _ _ Hin eq_refl) as Hin'.
    destruct H as [Hm _ _ _|? ? ? ? ? Hm _ _ _ _ _ _|vis1 se vis2 p0 t0 Hm Hv Hall Hent Hpop Hres Hoof]; rewrite Hm in Hin'.
    - destruct Hin'.
    - destruct Hin' as [[=]|[]].
    - destruct Hin' as [[= -> ->]|[]].
      split; [rewrite Eout, nv_visible; assumption|]. split; [eauto 8|]. split; [assumption|].
      intros -> k Hk Hk0. rewrite (run_gh_split fuel k _ _ _ _ _ _ Erun).
      destruct (Hoof eq_refl) as [Hr Hc]. pose proof (recovery_run k s' out vis Hr Hc) as Hk'.
      destruct (run_ghx k s' out vis) as [[[r2 s2] out2] vis2']. destruct Hk' as (H1 & H2 & H3).
      split; [auto|]. split; [assumption|]. rewrite H2, Eout, nv_visible. assumption.
  Qed.
End Report.

(* the position of the one message is the true position of the cursor *)
Theorem one_message_pos V C g tbl opts buf cap lexer term_f err_f rule_f
  (lexer_len : forall v p rest t len, snd (lexer v p rest) = Some (t, len) -> len <= length rest)
  (no_eof_shift : eof_err_not_shifted g tbl \/ o_skip_ws opts = false) fuel c :
  let '(r, s, out) := run V C g tbl opts buf cap lexer term_f err_f rule_f fuel c in
  forall e, In e (nv out) ->
    match e with
    | EvSyntaxError p t => exists k, k <= length buf /\ p = true_pos buf k
    | EvUnexpectedChar p ch => exists k, k < length buf /\ p = true_pos buf k /\ nth_error buf k = Some ch
    | _ => False
    end.
Proof.
  pose proof (run_pos V C g tbl opts buf cap lexer term_f err_f rule_f lexer_len no_eof_shift fuel c) as H.
  destruct (run V C g tbl opts buf cap lexer term_f err_f rule_f fuel c) as [[r s] out].
  destruct H as (_ & _ & _ & _ & H). intros e He. apply filter_In in He. destruct He as [Hin Hnv].
  rewrite Forall_forall in H. specialize (H e Hin).
  destruct e; try discriminate.
  - apply event_pos_ok_syntax in H. exact H.
  - apply event_pos_ok_unexpected in H. exact H.
Qed.

(* The hypothesis on SHIFT_ERROR cannot be dropped from the "exactly one" part.
   Terms a=0 <eof>=1 <err>=2; nonterminals S=0 ##=1; columns S ## a <eof> <err>. The error column is empty, but the
   cell (0, a) is a SHIFT_ERROR: the driver enters consume mode without having written anything, discards a, and
   rejects at <eof> silently. *)
Definition cx_g := mkG 3 2 2 1 [[T 0]; [NT 0]] [mkRI 0 0 1; mkRI 1 1 1] [(0,1);(1,1)]
                       [0%Z;0%Z;0%Z] [NoAssoc;NoAssoc;NoAssoc] [0%Z;0%Z] [NoAssoc;NoAssoc] [Some 0; None].
Definition cx_E := entry_default.
Definition cx_tbl : table :=
  [[cx_E; cx_E; mkE KShiftErr (Some 1) false; cx_E; cx_E];
   [cx_E; cx_E; cx_E; cx_E; cx_E]].

Example silent_reject_cex :
  no_error_symbol cx_g cx_tbl = true /\
  shifterr_only_err_colb cx_g cx_tbl = false /\
  (let '(r, _, out) := run tree unit cx_g cx_tbl tree_opts [0] None id_lexer
                           (fun t _ _ _ => Leaf t) (fun _ => Leaf (err_idx cx_g)) (fun r c args => (c, Node r args)) 10 tt in
   (r, out)) = (Reject, []).
Proof. vm_compute. auto. Qed.

Print Assumptions one_message_trace.
Print Assumptions one_message.
Print Assumptions one_message_quiet.
Print Assumptions unexpected_char_stops.
Print Assumptions syntax_error_then_pops.
Print Assumptions one_message_pos.
