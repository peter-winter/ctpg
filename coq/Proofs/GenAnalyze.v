(* Every grammar record produced by Grammar.analyze satisfies grammar_wf_extra: max_elems bounds the arities
   and the rule slices lie inside rule_infos. So for grammars coming from the DSL-level description the extra
   hypothesis of gen_validates is discharged once and for all. *)
From Coq Require Import Permutation.
Require Import Ctpg.Base.Prelude Ctpg.Proofs.ListFacts Ctpg.Model.Grammar Ctpg.Model.LRGen Ctpg.Valid.LRValid
               Ctpg.Proofs.GenLists Ctpg.Proofs.GenWf Ctpg.Proofs.GenCorrect.

Lemma max_list_ge l x : In x l -> x <= max_list l.
Proof.
  unfold max_list. induction l as [|y l IH]; cbn; [tauto|]. intros [<-|H]; [lia|]. specialize (IH H). lia.
Qed.

(* the invariant of the loop: every slice (start, length) written so far ends at or before the position i reached *)
Lemma make_slices_aux_bound ris : forall i nt sl,
  (forall a, fst (nth a sl (0, 0)) + snd (nth a sl (0, 0)) <= i) ->
  forall a, fst (nth a (make_slices_aux ris i nt sl) (0, 0)) + snd (nth a (make_slices_aux ris i nt sl) (0, 0))
            <= i + length ris.
Proof.
  induction ris as [|ri t IH]; intros i nt sl H a; cbn [make_slices_aux length].
  - rewrite Nat.add_0_r. apply H.
  - rewrite <- Nat.add_succ_comm. pose proof (H nt).
    destruct (Nat.eqb nt (ri_l ri)); apply IH; intros b; pose proof (H b);
      apply (nth_update_P (fun p => fst p + snd p <= S i)); cbn [fst snd]; lia.
Qed.

Lemma make_slices_bound n ris a :
  fst (nth a (make_slices n ris) (0, 0)) + snd (nth a (make_slices n ris) (0, 0)) <= length ris.
Proof.
  unfold make_slices. apply (make_slices_aux_bound ris 0 0). intros b.
  destruct (Nat.lt_ge_cases b n) as [Hlt|Hge].
  - rewrite nth_repeat_lt by assumption. cbn. lia.
  - rewrite nth_overflow by (rewrite repeat_length; assumption). cbn. lia.
Qed.

Theorem analyze_wf_extra rg g : analyze rg = Some g -> grammar_wf_extra g = true.
Proof.
  unfold analyze. 
  set (term_ids := map rt_id (rg_terms rg) ++ [id_eof; id_error]).
  set (nterm_names := rg_nterms rg ++ [id_fake_root]).
  set (all_rules := rg_rules rg ++ [mkRR id_fake_root [RNterm (rg_root rg)] None]).
  destruct (map_opt (fun r => find_str nterm_names (rr_l r)) all_rules) as [ls|] eqn:Els; [|discriminate].
  destruct (map_opt (fun r => map_opt (make_symbol term_ids nterm_names) (rr_r r)) all_rules) as [rs|] eqn:Ers;
    [|discriminate].
  set (ris := map (fun p => mkRI (fst (snd p)) (fst p) (length (snd (snd p))))
                  (combine (seq 0 (length all_rules)) (combine ls rs))).
  intros H. inversion H; subst g; clear H.
  unfold grammar_wf_extra. cbn [rule_count max_elems nterm_count slices].
  apply andb_true_iff. split.
  - apply forallb_seq0. intros i Hi. apply Nat.leb_le. unfold get_ri. cbn [rule_infos].
    destruct (Nat.lt_ge_cases i (length (sort_ris ris))) as [Hlt|Hge].
    + set (x := nth i (sort_ris ris) dummy_ri).
      assert (In x ris) as Hin by (apply (Permutation_in _ (sort_ris_perm ris)), nth_In; assumption).
      unfold ris in Hin. apply in_map_iff in Hin. destruct Hin as ([r [l rhs]] & Ex & Hp).
      rewrite <- Ex. cbn [fst snd ri_n].
      apply in_combine_r in Hp. apply in_combine_r in Hp.
      destruct (map_opt_In _ _ _ _ Ers Hp) as (rule & Hrule & Erhs).
      apply map_opt_length in Erhs. rewrite Erhs.
      unfold all_rules in Hrule. apply in_app_iff in Hrule. destruct Hrule as [Hrule|[<-|[]]].
      * assert (length (rr_r rule) <= max_list (map (fun r0 => length (rr_r r0)) (rg_rules rg))).
        { apply max_list_ge. apply in_map_iff. exists rule. auto. }
        destruct (max_list _); lia.
      * cbn [rr_r length]. destruct (max_list _); lia.
    + rewrite nth_overflow by assumption. cbn. lia.
  - apply forallb_seq0. intros a Ha.
    pose proof (make_slices_bound (length nterm_names) (sort_ris ris) a) as Hb.
    destruct (nth a (make_slices (length nterm_names) (sort_ris ris)) (0, 0)) as [st n]. cbn [fst snd] in Hb.
    apply Nat.leb_le. rewrite (Permutation_length (sort_ris_perm ris)) in Hb. unfold ris in Hb. rewrite map_length, combine_length, seq_length in Hb.
    lia.
Qed.

Corollary gen_validates_analyze : forall rg g lim sts tbl,
  analyze rg = Some g ->
  grammar_wf g = true ->
  gen_with g lim = inl (sts, tbl) ->
  conflict_free g (length sts) tbl = true ->
  accept_clean g sts = true ->
  validate g (map st_all sts) tbl = true.
Proof.
  intros rg g lim sts tbl Ha Hwf. apply gen_validates; [assumption|]. eapply analyze_wf_extra; eassumption.
Qed.

Print Assumptions gen_validates_analyze.
