(* Prop-level reading of table_sound_ok of Valid/LRValid.v (sound_facts); then one lemma per kind of cell for
   cell_justified (the cj_ lemmas), and what an answer of goto_target says of the cell behind it (the goto_ lemmas). *)
Require Import Ctpg.Base.Prelude Ctpg.Proofs.ListFacts Ctpg.Model.Grammar Ctpg.Model.LRGen Ctpg.Model.Driver
               Ctpg.Spec.Cfg Ctpg.Valid.LRValid Ctpg.Proofs.LRReflect Ctpg.Proofs.GenWf.

(* takes every hypothesis b1 && b2 = true of the context apart, down to the single conjuncts *)
Ltac andb_split :=
  repeat match goal with
         | H : _ && _ = true |- _ => apply andb_true_iff in H; destruct H
         end.

Record sound_facts (g : grammar) (sts : list items) (tbl : table) : Prop := {
  sf_tc : 1 < term_count g;
  sf_nc : 0 < nterm_count g;
  sf_rc : 0 < rule_count g;
  sf_len_ri : length (rule_infos g) = rule_count g;
  sf_len_rs : length (right_sides g) = rule_count g;
  sf_len_sl : length (slices g) = nterm_count g;
  sf_ri : forall i, i < rule_count g ->
          ri_r (get_ri g i) < rule_count g /\ ri_l (get_ri g i) < nterm_count g /\
          ri_n (get_ri g i) = length (get_rhs g (ri_r (get_ri g i)));
  sf_sym : forall r x, In r (right_sides g) -> In x r ->
           sym_ok g x = true /\ x <> NT (fake_root_idx g) /\ x <> T (eof_idx g);
  sf_slice : forall a i, a < nterm_count g -> i < rule_count g ->
             (ri_l (get_ri g i) = a <->
              fst (nth a (slices g) (0, 0)) <= i < fst (nth a (slices g) (0, 0)) + snd (nth a (slices g) (0, 0)));
  sf_root_r : ri_r (get_ri g (root_rule_idx g)) = root_rule_idx g;
  sf_root_l : ri_l (get_ri g (root_rule_idx g)) = fake_root_idx g;
  sf_root_rhs : exists x, get_rhs g (root_rule_idx g) = [NT x];
  sf_root_only : forall i, i < rule_count g -> ri_l (get_ri g i) = fake_root_idx g -> i = root_rule_idx g;
  sf_dims1 : length sts <= length tbl;
  sf_dims2 : 0 < length sts;
  sf_dims3 : forall s, s < length sts -> length (nth s tbl []) = symbol_count g;
  sf_st0_root : In (root_item g) (state_items sts 0);
  sf_st0_dot : forall i, In i (state_items sts 0) -> it_d i = 0;
  sf_root_st0 : forall s i, s < length sts -> In i (state_items sts s) ->
                it_r i = root_rule_idx g -> it_d i = 0 -> s = 0;
  sf_item : forall s i, s < length sts -> In i (state_items sts s) ->
            it_r i < rule_count g /\ it_d i <= ri_n (get_ri g (it_r i)) /\ it_t i < term_count g;
  sf_cell : forall s c, s < length sts -> c < symbol_count g -> cell_justified g sts tbl s c = true
}.

Lemma sound_facts_of g sts tbl : table_sound_ok g sts tbl = true -> sound_facts g sts tbl.
Proof.
  unfold table_sound_ok, dims_ok, state0_ok.
  intros (((Hwf & ((D1%Nat.leb_le & D2%Nat.ltb_lt)%andb_prop & D3)%andb_prop)%andb_prop
           & ((Z1%mem_item_In & Z2)%andb_prop & Z3)%andb_prop)%andb_prop & Hst)%andb_prop.
  destruct (wf_facts_of g Hwf). rewrite forallb_seq0 in D3, Z3, Hst. rewrite forallb_forall in Z2.
  constructor; try assumption.
  - intros s Hs. apply Nat.eqb_eq, D3, Hs.
  - intros i Hi. apply Nat.eqb_eq, Z2, Hi.
  - intros s i Hs Hi E1 E2. destruct (orb_prop _ _ (Z3 s Hs)) as [H|H]; [apply Nat.eqb_eq, H|].
    rewrite forallb_forall in H. specialize (H i Hi). rewrite E1, E2, !Nat.eqb_refl in H. discriminate.
  - intros s i Hs Hi. destruct (andb_prop _ _ (Hst s Hs)) as [Hit _].
    rewrite forallb_forall in Hit. specialize (Hit i Hi). unfold item_ok in Hit.
    apply andb_prop in Hit as ((A%Nat.ltb_lt & B%Nat.leb_le)%andb_prop & C%Nat.ltb_lt). auto.
  - intros s c Hs Hc. destruct (andb_prop _ _ (Hst s Hs)) as [_ Hce].
    rewrite forallb_seq0 in Hce. exact (Hce c Hc).
Qed.

Lemma validate_sound_wf g sts tbl : validate_sound g sts tbl = true -> grammar_wf g = true.
Proof.
  unfold validate_sound, table_sound_ok. intros H.
  apply andb_true_iff in H as [H _]. apply andb_true_iff in H as [H _]. apply andb_true_iff in H as [H _]. exact H.
Qed.

Lemma sym_col_inj g x y : sym_ok g x = true -> sym_ok g y = true -> sym_col g x = sym_col g y -> x = y.
Proof.
  destruct x as [i|i], y as [j|j]; cbn; intros H1 H2 E;
    try apply Nat.ltb_lt in H1; try apply Nat.ltb_lt in H2; try (f_equal; lia); exfalso; lia.
Qed.

(* inside the table the driver's checked access is the validator's defaulting access *)
Lemma cell_at_inl tbl s c : s < length tbl -> c < length (nth s tbl []) -> cell tbl s c = inl (cell_at tbl s c).
Proof.
  intros Hs Hc. unfold cell, cell_at.
  rewrite (nth_error_nth' tbl [] Hs), (nth_error_nth' (nth s tbl []) entry_default Hc). reflexivity.
Qed.

Section Facts.
  Variable g : grammar.
  Variable sts : list items.
  Variable tbl : table.
  Hypothesis SF : sound_facts g sts tbl.

  Lemma eof_lt_tc : eof_idx g < term_count g.
  Proof. pose proof (sf_tc _ _ _ SF). unfold eof_idx. lia. Qed.

  Lemma err_eq : err_idx g = S (eof_idx g).
  Proof. pose proof (sf_tc _ _ _ SF). unfold eof_idx, err_idx. lia. Qed.

  (* and whatever the checked access returns, anywhere, is what the defaulting access reads *)
  Lemma cell_cell_at s c e : cell tbl s c = inl e -> e = cell_at tbl s c.
  Proof.
    unfold cell, cell_at. destruct (nth_error tbl s) as [row|] eqn:E1; [|discriminate].
    destruct (nth_error row c) as [e'|] eqn:E2; [|discriminate]. intros H; inversion H; subst e'.
    rewrite (nth_error_nth _ _ [] E1). symmetry. apply nth_error_nth. assumption.
  Qed.

  Lemma cell_in_range s c : s < length sts -> c < symbol_count g -> cell tbl s c = inl (cell_at tbl s c).
  Proof.
    intros Hs Hc. apply cell_at_inl; [pose proof (sf_dims1 _ _ _ SF); lia|]. rewrite (sf_dims3 _ _ _ SF s Hs). exact Hc.
  Qed.

  Lemma cell_row_lt s c e : cell tbl s c = inl e -> s < length tbl.
  Proof.
    unfold cell. destruct (nth_error tbl s) eqn:E; [|discriminate]. intros _.
    apply nth_error_Some. congruence.
  Qed.

  Lemma rhs_in_right_sides r : r < rule_count g -> In (get_rhs g (ri_r (get_ri g r))) (right_sides g).
  Proof.
    intros Hr. unfold get_rhs. apply nth_In. rewrite (sf_len_rs _ _ _ SF).
    apply (sf_ri _ _ _ SF). assumption.
  Qed.

  Lemma rhs_term_lt rhs b : In rhs (right_sides g) -> In (T b) rhs -> b < term_count g.
  Proof. intros Hr Hb. apply Nat.ltb_lt. exact (proj1 (sf_sym _ _ _ SF rhs _ Hr Hb)). Qed.

  Lemma get_ri_nth_error r ri : nth_error (rule_infos g) r = Some ri -> get_ri g r = ri /\ r < rule_count g.
  Proof.
    intros H. split; [apply nth_error_nth; assumption|].
    rewrite <- (sf_len_ri _ _ _ SF). apply nth_error_Some. congruence.
  Qed.

  Lemma nth_error_get_ri r : r < rule_count g -> nth_error (rule_infos g) r = Some (get_ri g r).
  Proof. intros H. apply nth_error_nth'. rewrite (sf_len_ri _ _ _ SF). assumption. Qed.

  Lemma is_rule_ri r : r < rule_count g ->
    is_rule g (ri_r (get_ri g r)) (ri_l (get_ri g r)) (get_rhs g (ri_r (get_ri g r))).
  Proof.
    intros Hr. exists r, (get_ri g r). split; [apply nth_error_get_ri; assumption|].
    split; [reflexivity|]. split; [reflexivity|].
    apply nth_error_nth'. rewrite (sf_len_rs _ _ _ SF). apply (sf_ri _ _ _ SF). assumption.
  Qed.

  Lemma root_lt : root_rule_idx g < rule_count g.
  Proof. pose proof (sf_rc _ _ _ SF). unfold root_rule_idx. lia. Qed.

  Lemma root_symbol_eq x : get_rhs g (root_rule_idx g) = [NT x] -> root_symbol g = Some (NT x).
  Proof.
    intros E. unfold root_symbol. unfold get_rhs in E.
    rewrite (nth_error_nth' (right_sides g) []); [rewrite E; reflexivity|].
    rewrite (sf_len_rs _ _ _ SF). apply root_lt.
  Qed.

  (* the KShift / KShiftErr arm of cell_justified as a Prop: the target is a state other than 0, and each of its items
     with the dot > 0 comes from an item of s by a step over the symbol of column c *)
  Definition shift_just (s c s' : nat) : Prop :=
    s' < length sts /\ s' <> 0 /\
    forall j d, In j (state_items sts s') -> it_d j = S d ->
                In (mkItem (it_r j) d (it_t j)) (state_items sts s) /\
                exists x, nth_error (rhs_of g j) d = Some x /\ sym_col g x = c.

  Lemma forallb_shift_just s c s' :
    forallb (fun j => match it_d j with
                      | 0 => true
                      | S d => mem_item (mkItem (it_r j) d (it_t j)) (state_items sts s) &&
                               match nth_error (rhs_of g j) d with
                               | Some x => Nat.eqb (sym_col g x) c
                               | None => false
                               end
                      end) (state_items sts s') = true ->
    forall j d, In j (state_items sts s') -> it_d j = S d ->
                In (mkItem (it_r j) d (it_t j)) (state_items sts s) /\
                exists x, nth_error (rhs_of g j) d = Some x /\ sym_col g x = c.
  Proof.
    intros Hf j d Hj Hd. rewrite forallb_forall in Hf. specialize (Hf j Hj). rewrite Hd in Hf.
    apply andb_prop in Hf as (Hm%mem_item_In & Hx). split; [exact Hm|].
    destruct (nth_error (rhs_of g j) d) as [x|]; [|discriminate]. exists x. split; [reflexivity|].
    apply Nat.eqb_eq. exact Hx.
  Qed.

  Lemma cj_shift s c : cell_justified g sts tbl s c = true ->
    e_kind (cell_at tbl s c) = KShift \/ e_kind (cell_at tbl s c) = KShiftErr ->
    exists s', e_arg (cell_at tbl s c) = Some s' /\ shift_just s c s' /\
               (e_kind (cell_at tbl s c) = KShiftErr -> c = col_of_term g (err_idx g)).
  Proof.
    unfold cell_justified. intros H Hk.
    destruct Hk as [Hk|Hk]; rewrite Hk in H |- *;
      (destruct (e_arg (cell_at tbl s c)) as [s'|]; [|discriminate]); exists s'; (split; [reflexivity|]);
      apply andb_prop in H as (((Ho & Hlt%Nat.ltb_lt)%andb_prop & Hnz%negb_true_iff)%andb_prop & Hf);
      apply Nat.eqb_neq in Hnz; (split; [exact (conj Hlt (conj Hnz (forallb_shift_just _ _ _ Hf)))|]).
    - discriminate.
    - intros _. apply Nat.eqb_eq. exact Ho.
  Qed.

  Lemma cj_error s c : cell_justified g sts tbl s c = true ->
    e_kind (cell_at tbl s c) = KError -> c < nterm_count g -> e_arg (cell_at tbl s c) = None.
  Proof.
    unfold cell_justified. intros H Hk Hc. rewrite Hk in H. apply orb_true_iff in H. destruct H as [H|H].
    - apply Nat.leb_le in H. lia.
    - destruct (e_arg (cell_at tbl s c)); [discriminate|reflexivity].
  Qed.

  Lemma cj_reduce s c : cell_justified g sts tbl s c = true ->
    e_kind (cell_at tbl s c) = KReduce ->
    exists r, e_arg (cell_at tbl s c) = Some r /\ r < rule_count g /\ r <> root_rule_idx g /\
              nterm_count g <= c /\
              exists i, In i (state_items sts s) /\ it_r i = r /\ is_complete g i = true.
  Proof.
    unfold cell_justified. intros H Hk. rewrite Hk in H.
    destruct (e_arg (cell_at tbl s c)) as [r|]; [|discriminate]. exists r. split; [reflexivity|].
    apply andb_prop in H as (((Hr%Nat.ltb_lt & Hnr%negb_true_iff)%andb_prop & Hc%Nat.leb_le)%andb_prop
                             & (i & Hi & (E%Nat.eqb_eq & Hic)%andb_prop)%existsb_exists).
    apply Nat.eqb_neq in Hnr. repeat split; try assumption. exists i. auto.
  Qed.

  Lemma cj_success s c : cell_justified g sts tbl s c = true ->
    e_kind (cell_at tbl s c) = KSuccess ->
    c = col_of_term g (eof_idx g) /\
    exists i, In i (state_items sts s) /\ it_r i = root_rule_idx g /\ is_complete g i = true.
  Proof.
    unfold cell_justified. intros H Hk. rewrite Hk in H.
    apply andb_prop in H as (Hc%Nat.eqb_eq & (i & Hi & (E%Nat.eqb_eq & Hic)%andb_prop)%existsb_exists).
    split; [exact Hc|]. exists i. auto.
  Qed.

  Lemma cj_rr s c : cell_justified g sts tbl s c = true -> e_kind (cell_at tbl s c) = KRR -> False.
  Proof. unfold cell_justified. intros H Hk. rewrite Hk in H. discriminate. Qed.
End Facts.

(* the error column is empty, in the form the machine simulation wants it *)
Lemma no_error_symbol_cell g tbl : no_error_symbol g tbl = true ->
  forall st e, cell tbl st (nterm_count g + err_idx g) = inl e -> e_kind e = KError.
Proof.
  intros H st e Hc. unfold no_error_symbol in H. rewrite forallb_seq0 in H.
  specialize (H st (cell_row_lt _ _ _ _ Hc)). apply kind_eqb_eq in H.
  rewrite (cell_cell_at _ _ _ _ Hc). exact H.
Qed.

(* the cell behind a terminal's target: a shift, or for the error terminal a shift-on-error *)
Lemma goto_T_any g tbl s a s' : goto_target g tbl s (T a) = Some s' ->
  e_arg (cell_at tbl s (nterm_count g + a)) = Some s' /\
  e_kind (cell_at tbl s (nterm_count g + a)) = (if Nat.eqb a (err_idx g) then KShiftErr else KShift).
Proof.
  unfold goto_target. cbn [sym_col]. intros H.
  destruct (e_kind (cell_at tbl s (nterm_count g + a))); try discriminate;
    destruct (Nat.eqb a (err_idx g)); try discriminate; auto.
Qed.

Lemma goto_T g tbl s a s' : goto_target g tbl s (T a) = Some s' -> a <> err_idx g ->
  e_kind (cell_at tbl s (nterm_count g + a)) = KShift /\ e_arg (cell_at tbl s (nterm_count g + a)) = Some s'.
Proof. intros [H1 H2]%goto_T_any Ha%Nat.eqb_neq. rewrite Ha in H2. auto. Qed.

Lemma shift_goto g tbl s a s' : e_kind (cell_at tbl s (nterm_count g + a)) = KShift ->
  e_arg (cell_at tbl s (nterm_count g + a)) = Some s' -> a <> err_idx g -> goto_target g tbl s (T a) = Some s'.
Proof.
  intros Hk Ha Hne. apply Nat.eqb_neq in Hne. unfold goto_target. cbn [sym_col]. rewrite Hk, Hne. exact Ha.
Qed.

Lemma goto_NT g tbl s l s' : goto_target g tbl s (NT l) = Some s' -> e_arg (cell_at tbl s l) = Some s'.
Proof.
  unfold goto_target. cbn [sym_col]. intros H.
  destruct (e_kind (cell_at tbl s l)); try discriminate. assumption.
Qed.

Lemma item_next_sym_ok g sts tbl (SF : sound_facts g sts tbl) s j d x :
  s < length sts -> In j (state_items sts s) -> nth_error (rhs_of g j) d = Some x ->
  sym_ok g x = true /\ x <> NT (fake_root_idx g) /\ x <> T (eof_idx g).
Proof.
  intros Hs Hj Hx. destruct (sf_item _ _ _ SF s j Hs Hj) as (Hr & _ & _).
  apply (sf_sym _ _ _ SF (rhs_of g j) x).
  - unfold rhs_of. apply (rhs_in_right_sides _ _ _ SF). assumption.
  - eapply nth_error_In. eassumption.
Qed.

Lemma next_sym_incomplete g sts tbl (SF : sound_facts g sts tbl) s i x :
  s < length sts -> In i (state_items sts s) -> next_sym g i = Some x -> is_complete g i = false.
Proof.
  intros Hs Hi Hx. destruct (sf_item _ _ _ SF s i Hs Hi) as (Hr & _ & _).
  destruct (sf_ri _ _ _ SF _ Hr) as (_ & _ & Hn).
  unfold is_complete. apply Nat.leb_gt. rewrite Hn.
  unfold next_sym, rhs_of in Hx. apply nth_error_Some. congruence.
Qed.

Lemma complete_dot g sts tbl (SF : sound_facts g sts tbl) s i :
  s < length sts -> In i (state_items sts s) -> is_complete g i = true -> it_d i = ri_n (get_ri g (it_r i)).
Proof.
  intros Hs Hi Hic. destruct (sf_item _ _ _ SF s i Hs Hi) as (_ & Hd & _).
  unfold is_complete in Hic. apply Nat.leb_le in Hic. lia.
Qed.

Lemma closure_ok_closed g sts ne nf s i b : closure_ok g sts ne nf s = true -> In i (state_items sts s) ->
  next_sym g i = Some (NT b) -> is_complete g i = false ->
  forall k t', k < snd (nth b (slices g) (0, 0)) -> t' < term_count g ->
    bset_test (first_tail g ne nf (skipn (S (it_d i)) (rhs_of g i)) (it_t i)) t' = true ->
    In (mkItem (fst (nth b (slices g) (0, 0)) + k) 0 t') (state_items sts s).
Proof.
  intros Hc Hi Hnx Hic k t' Hk Ht' Hb. unfold closure_ok in Hc. rewrite forallb_forall in Hc. specialize (Hc i Hi).
  rewrite Hnx, Hic in Hc. destruct (nth b (slices g) (0, 0)) as [st n]. cbn [fst snd] in *.
  rewrite forallb_seq0 in Hc. specialize (Hc k Hk). rewrite forallb_seq0 in Hc. specialize (Hc t' Ht').
  rewrite Hb in Hc. apply mem_item_In. exact Hc.
Qed.

Lemma first_tail_term g ne nf t beta la : t < term_count g -> bset_test (first_tail g ne nf (T t :: beta) la) t = true.
Proof.
  intros Ht. unfold first_tail. cbn [first_of_syms all_nullable]. apply bset_set_same.
  rewrite bset_empty_length. assumption.
Qed.

Lemma first_tail_nil g ne nf la : la < term_count g -> bset_test (first_tail g ne nf [] la) la = true.
Proof.
  intros Ht. unfold first_tail. cbn [first_of_syms all_nullable]. apply bset_set_same.
  rewrite bset_empty_length. assumption.
Qed.

Section Goto.
  Variable g : grammar.
  Variable sts : list items.
  Variable tbl : table.
  Hypothesis SF : sound_facts g sts tbl.

  Lemma shift_just_sym s X s' j d : sym_ok g X = true -> shift_just g sts s (sym_col g X) s' ->
    In j (state_items sts s') -> it_d j = S d ->
    In (mkItem (it_r j) d (it_t j)) (state_items sts s) /\ nth_error (rhs_of g j) d = Some X.
  Proof.
    intros HX (Hlt & _ & Hb) Hj Hd. destruct (Hb j d Hj Hd) as (Hin & x & Hx & Hcol). split; [assumption|].
    rewrite Hx. f_equal. apply (sym_col_inj g); try assumption. eapply item_next_sym_ok; eassumption.
  Qed.

  Lemma goto_target_just s X s' :
    s < length sts -> sym_ok g X = true -> goto_target g tbl s X = Some s' -> shift_just g sts s (sym_col g X) s'.
  Proof.
    intros Hs HX Hg.
    assert (sym_col g X < symbol_count g) as Hc.
    { unfold symbol_count. destruct X as [t|b]; cbn in HX |- *; apply Nat.ltb_lt in HX; lia. }
    pose proof (sf_cell _ _ _ SF s _ Hs Hc) as Hcj. unfold goto_target in Hg.
    destruct (e_kind (cell_at tbl s (sym_col g X))) eqn:Ek; try discriminate.
    - destruct (cj_shift _ _ _ _ _ Hcj (or_introl Ek)) as (s1 & Ha & Hsj & _).
      destruct X as [t|b]; [destruct (Nat.eqb t (err_idx g)); [discriminate|]|]; congruence.
    - destruct (cj_shift _ _ _ _ _ Hcj (or_intror Ek)) as (s1 & Ha & Hsj & _).
      destruct X as [t|b]; [destruct (Nat.eqb t (err_idx g)); [|discriminate]|discriminate]; congruence.
  Qed.

  (* a reduction takes the state to push from the cell in the column of the left side without looking at its kind:
     a cell there that has a target is a goto *)
  Lemma nt_cell_goto s l s' : s < length sts -> l < nterm_count g ->
    e_arg (cell_at tbl s l) = Some s' -> goto_target g tbl s (NT l) = Some s'.
  Proof.
    intros Hs Hl Ea.
    assert (Hcj : cell_justified g sts tbl s l = true) by (apply (sf_cell _ _ _ SF); unfold symbol_count; lia).
    unfold goto_target. cbn [sym_col]. destruct (e_kind (cell_at tbl s l)) eqn:Ek.
    - rewrite (cj_error _ _ _ _ _ Hcj Ek Hl) in Ea. discriminate.
    - destruct (cj_success _ _ _ _ _ Hcj Ek) as [Hc _]. unfold col_of_term in Hc. lia.
    - exact Ea.
    - destruct (cj_shift _ _ _ _ _ Hcj (or_intror Ek)) as (? & _ & _ & Hc). specialize (Hc Ek). unfold col_of_term in Hc. lia.
    - destruct (cj_reduce _ _ _ _ _ Hcj Ek) as (? & _ & _ & _ & Hc & _). lia.
    - destruct (cj_rr _ _ _ _ _ Hcj Ek).
  Qed.
End Goto.

(* one state with an item whose transition or reduction is not in the table refutes the full validator: the way to see
   that a table with a resolved conflict does not validate, without running the validator up to that state *)
Lemma validate_false_at g sts tbl s :
  Nat.ltb s (length sts) = true -> goto_ok g sts tbl s && reduce_ok g sts tbl s = false -> validate g sts tbl = false.
Proof.
  intros Hs Hr. unfold validate, table_ok. apply andb_false_iff. right.
  apply not_true_iff_false. rewrite forallb_seq0. intros H. specialize (H s (proj1 (Nat.ltb_lt _ _) Hs)).
  rewrite <- andb_assoc, Hr, andb_false_r in H. discriminate.
Qed.
