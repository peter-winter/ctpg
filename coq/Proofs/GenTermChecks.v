(* The three item-set checks of the termination theorems (Valid/LRProductive.v) hold for EVERY output of the generator,
   with no hypothesis on conflict marks (gen_term_checks_all); hence with Proofs/GenCorrect.v, for a conflict-free
   and accept-clean table, [term_checks g (map st_all sts) tbl = productiveb g], and for productive grammars the
   generated parser decides the language and the generic driver halts on every input.

   - lookahead_generatedb: the closure loop appends the children of an item AFTER it, and every child's lookahead
     lies in FIRST(beta a) of its parent ([st_good] of Proofs/GenResolvedInv.v, [gen_by] and [closure_children_iff] of Proofs/GenClosure.v);
   - reduce_lookaheadb: a reduce cell of column t is written from the scan of the bucket of column t, whose
     completed items all have lookahead t ([cell_rec], [scan_reduce_item] of Proofs/CellResolve.v);
   - states_nonempty_b: a state is created from a non-empty kernel. *)
Require Import Ctpg.Base.Prelude Ctpg.Proofs.ListFacts Ctpg.Model.Grammar Ctpg.Model.LRGen Ctpg.Model.Driver
               Ctpg.Spec.Cfg Ctpg.Spec.LRSpec Ctpg.Spec.Eval Ctpg.Spec.Conflict Ctpg.Valid.LRValid
               Ctpg.Valid.LRProductive Ctpg.Proofs.LRReflect Ctpg.Proofs.LRMachine Ctpg.Proofs.LRSound
               Ctpg.Proofs.SafeDriver Ctpg.Proofs.GenWf Ctpg.Proofs.GenClosure Ctpg.Proofs.GenTrans
               Ctpg.Proofs.GenCorrect Ctpg.Proofs.GenAnalyze Ctpg.Proofs.CellBasics Ctpg.Proofs.CellResolve Ctpg.Proofs.TermAll
               Ctpg.Proofs.TermGeneric Ctpg.Proofs.GenResolvedInv.

Section Checks.
  Variable g : grammar.
  Variable lim : limits.
  Variable sts : list lrstate.
  Variable tbl : table.
  Hypothesis Hwf : grammar_wf g = true.
  Hypothesis Hwfx : grammar_wf_extra g = true.
  Hypothesis Hgen : gen_with g lim = inl (sts, tbl).

  Let WF : wf_facts g := wf_facts_of _ Hwf.
  Let WFX : wfx_facts g := wfx_facts_of _ Hwfx.
  Let GF : gen_facts g lim sts tbl := gen_with_facts g lim sts tbl Hwf Hwfx Hgen.

  Theorem gen_lookahead_generated : lookahead_generatedb g (map st_all sts) = true.
  Proof.
    unfold lookahead_generatedb. cbn zeta. rewrite map_length. apply forallb_seq0. intros s Hs.
    rewrite state_items_map. apply forallb_seq0. intros j Hj.
    destruct (nth_error (st_all (stn sts s)) j) as [i|] eqn:Ei; [|reflexivity].
    destruct (Nat.eqb (it_d i) 0) eqn:Ed; [|reflexivity]. cbn [negb orb]. apply Nat.eqb_eq in Ed.
    destruct (gf_good _ _ _ _ GF s Hs) as (_ & Hord).
    destruct (Hord j i Ei Ed) as [(-> & ->)|(k & ik & Hk & Hik & Hy)].
    - rewrite Nat.eqb_refl, item_eqb_refl. reflexivity.
    - apply orb_true_iff. right. apply existsb_exists. exists k. split; [apply in_seq; lia|]. rewrite Hik.
      assert (item_okP g ik) as Ok.
      { apply (sd_ok _ _ _ (gf_disc _ _ _ _ GF s Hs)). eapply nth_error_In. eassumption. }
      apply (closure_children_iff g WF _ _ ik i Ok) in Hy. destruct Hy as (b & k' & Hn & _ & Hk' & E & Hf).
      destruct (next_sym_ok g WF ik _ Ok Hn) as (Hb%Nat.ltb_lt & _).
      rewrite Hn, E. cbn [it_r]. rewrite (proj2 (slice_rule g WF WFX b k' Hb Hk')), Nat.eqb_refl. exact Hf.
  Qed.

  Theorem gen_reduce_lookahead : reduce_lookaheadb g (map st_all sts) tbl = true.
  Proof.
    unfold reduce_lookaheadb. rewrite map_length. apply forallb_seq0. intros s Hs.
    apply forallb_seq0. intros t Ht. cbn zeta. rewrite state_items_map.
    set (c := nterm_count g + t). assert (c < symbol_count g) as Hc by (unfold c, symbol_count; lia).
    pose proof (gf_cells _ _ _ _ GF s c Hs Hc) as Hrec. unfold cell_rec in Hrec. cbn zeta in Hrec.
    pose proof (gf_disc _ _ _ _ GF) as Hdisc.
    pose proof (term_bucket g WF s (stn sts s) (Hdisc s Hs) c t eq_refl) as HTB.
    pose proof (B_in g s (stn sts s) (Hdisc s Hs) c) as HBin.
    set (B := bucket g (st_all (stn sts s)) c) in *. set (Sc := scan_cell g B scan0) in *.
    fold (cell_at tbl s c). set (e := cell_at tbl s c) in *.
    destruct Hrec as [(_ & Ee)|[(_ & Ek & Ee)|(_ & _ & idx & Ee & _)]].
    - rewrite Ee. reflexivity.
    - destruct (kind_eqb (sc_kind Sc) KReduce) eqn:EK.
      + apply kind_eqb_eq in EK. rewrite Ee, nonshift_entry_kind, EK, nonshift_entry_reduce by assumption.
        destruct (scan_reduce_item g t B HTB EK) as (i & Hi & Ci & Er). fold Sc in Er. rewrite Er.
        apply existsb_exists. exists i. destruct (HBin i Hi) as (Ii & Oi & Bi). split; [assumption|].
        rewrite Nat.eqb_refl, Ci. cbn [andb]. apply Nat.eqb_eq.
        rewrite (bucket_complete g i Ci) in Bi. unfold c in Bi. lia.
      + rewrite Ee, nonshift_entry_kind. destruct (sc_kind Sc); try reflexivity. discriminate.
    - rewrite Ee. cbn [e_kind]. unfold kd. destruct (Nat.eqb _ _); reflexivity.
  Qed.

  Theorem gen_states_nonempty : states_nonempty_b (map st_all sts) = true.
  Proof.
    unfold states_nonempty_b. apply forallb_forall. intros its Hin. apply in_map_iff in Hin.
    destruct Hin as (st & <- & Hst). destruct (In_nth _ _ (mkSt [] []) Hst) as (s & Hs & Es).
    destruct (gf_good _ _ _ _ GF s Hs) as (Hne & _). unfold stn in Hne. rewrite Es in Hne.
    destruct (st_all st); [congruence|reflexivity].
  Qed.
End Checks.

Theorem gen_term_checks_all : forall g lim sts tbl,
  grammar_wf g = true -> grammar_wf_extra g = true -> gen_with g lim = inl (sts, tbl) ->
  lookahead_generatedb g (map st_all sts) = true /\ reduce_lookaheadb g (map st_all sts) tbl = true /\
  states_nonempty_b (map st_all sts) = true.
Proof.
  intros g lim sts tbl Hwf Hwfx Hgen.
  split; [eapply gen_lookahead_generated; eassumption|].
  split; [eapply gen_reduce_lookahead; eassumption|eapply gen_states_nonempty; eassumption].
Qed.

Corollary gen_term_checks_default g sts tbl : grammar_wf g = true -> grammar_wf_extra g = true -> gen g = inl (sts, tbl) ->
  lookahead_generatedb g (map st_all sts) = true /\ reduce_lookaheadb g (map st_all sts) tbl = true /\
  states_nonempty_b (map st_all sts) = true.
Proof. apply gen_term_checks_all. Qed.

(* gen_term_checks_all under the hypotheses of gen_validates, neither of which the proof uses *)
Theorem gen_term_checks : forall g lim sts tbl,
  grammar_wf g = true -> grammar_wf_extra g = true -> gen_with g lim = inl (sts, tbl) ->
  conflict_free g (length sts) tbl = true -> accept_clean g sts = true ->
  lookahead_generatedb g (map st_all sts) = true /\ reduce_lookaheadb g (map st_all sts) tbl = true /\
  states_nonempty_b (map st_all sts) = true.
Proof. intros g lim sts tbl Hwf Hwfx Hgen _ _. eapply gen_term_checks_all; eassumption. Qed.

Print Assumptions gen_term_checks_all.
Print Assumptions gen_term_checks.

(* with gen_validates: of all the checks only productivity of the grammar is left *)
Theorem gen_term_checks_productive : forall g lim sts tbl,
  grammar_wf g = true -> grammar_wf_extra g = true -> gen_with g lim = inl (sts, tbl) ->
  conflict_free g (length sts) tbl = true -> accept_clean g sts = true ->
  term_checks g (map st_all sts) tbl = productiveb g.
Proof.
  intros g lim sts tbl Hwf Hwfx Hgen Hcf Hac. unfold term_checks.
  rewrite (gen_validates g lim sts tbl Hwf Hwfx Hgen Hcf Hac).
  destruct (gen_term_checks_all g lim sts tbl Hwf Hwfx Hgen) as (-> & -> & ->). reflexivity.
Qed.

Corollary gen_term_checks_true : forall g lim sts tbl,
  grammar_wf g = true -> grammar_wf_extra g = true -> gen_with g lim = inl (sts, tbl) ->
  conflict_free g (length sts) tbl = true -> accept_clean g sts = true -> productiveb g = true ->
  term_checks g (map st_all sts) tbl = true.
Proof. intros g lim sts tbl Hwf Hwfx Hgen Hcf Hac Hp. rewrite <- Hp. eapply gen_term_checks_productive; eassumption. Qed.

Corollary gen_machine_halts : forall g lim sts tbl,
  grammar_wf g = true -> grammar_wf_extra g = true -> gen_with g lim = inl (sts, tbl) ->
  conflict_free g (length sts) tbl = true -> accept_clean g sts = true -> productiveb g = true ->
  forall w, tokens_ok g w ->
  exists n c, msteps g tbl n ([0], [], w) c /\ match mstep g tbl c with Next _ => False | _ => True end.
Proof.
  intros g lim sts tbl Hwf Hwfx Hgen Hcf Hac Hp w Hw.
  apply (machine_halts_checked g (map st_all sts) tbl w); [|assumption].
  eapply gen_term_checks_true; eassumption.
Qed.

Corollary gen_decides_language : forall g lim sts tbl,
  grammar_wf g = true -> grammar_wf_extra g = true -> gen_with g lim = inl (sts, tbl) ->
  conflict_free g (length sts) tbl = true -> accept_clean g sts = true -> productiveb g = true ->
  no_error_symbol g tbl = true ->
  forall w, tokens_ok g w ->
  exists fuel, forall fuel', fuel <= fuel' ->
    (derives g w -> exists t, tree_run g tbl w fuel' = Accept t /\ derives_tree g t w) /\
    (~ derives g w -> tree_run g tbl w fuel' = Reject).
Proof.
  intros g lim sts tbl Hwf Hwfx Hgen Hcf Hac Hp Hne w Hw.
  apply (decides_language_checked g (map st_all sts) tbl w); [|assumption|assumption].
  eapply gen_term_checks_true; eassumption.
Qed.

Corollary gen_generic_run_halts : forall g lim sts tbl,
  grammar_wf g = true -> grammar_wf_extra g = true -> gen_with g lim = inl (sts, tbl) ->
  conflict_free g (length sts) tbl = true -> accept_clean g sts = true -> productiveb g = true ->
  no_error_symbol g tbl = true ->
  forall (V C : Type) opts buf lexer
         (term_f : nat -> nat -> nat -> spoint -> V) (err_f : spoint -> V) (rule_f : nat -> C -> list V -> C * V) (c0 : C),
  lexer_ok_for g lexer -> lexer_in_range lexer ->
  exists fuel, fst (fst (run V C g tbl opts buf None lexer term_f err_f rule_f fuel c0)) <> OutOfFuel.
Proof.
  intros g lim sts tbl Hwf Hwfx Hgen Hcf Hac Hp Hne V C opts buf lexer term_f err_f rule_f c0 Hlex Hpos.
  apply (generic_run_halts_checked V C g (map st_all sts) tbl); try assumption.
  eapply gen_term_checks_true; eassumption.
Qed.

(* for grammars coming from the DSL-level description (Proofs/GenAnalyze.v) *)
Corollary gen_term_checks_analyze : forall rg g lim sts tbl,
  analyze rg = Some g -> grammar_wf g = true -> gen_with g lim = inl (sts, tbl) ->
  conflict_free g (length sts) tbl = true -> accept_clean g sts = true ->
  term_checks g (map st_all sts) tbl = productiveb g.
Proof.
  intros rg g lim sts tbl Ha Hwf. apply gen_term_checks_productive; [assumption|]. eapply analyze_wf_extra; eassumption.
Qed.

Corollary gen_decides_language_analyze : forall rg g lim sts tbl,
  analyze rg = Some g -> grammar_wf g = true -> gen_with g lim = inl (sts, tbl) ->
  conflict_free g (length sts) tbl = true -> accept_clean g sts = true -> productiveb g = true ->
  no_error_symbol g tbl = true ->
  forall w, tokens_ok g w ->
  exists fuel, forall fuel', fuel <= fuel' ->
    (derives g w -> exists t, tree_run g tbl w fuel' = Accept t /\ derives_tree g t w) /\
    (~ derives g w -> tree_run g tbl w fuel' = Reject).
Proof.
  intros rg g lim sts tbl Ha Hwf. apply gen_decides_language; [assumption|]. eapply analyze_wf_extra; eassumption.
Qed.

Print Assumptions gen_term_checks_productive.
Print Assumptions gen_decides_language.
Print Assumptions gen_generic_run_halts.
