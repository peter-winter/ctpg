(* What the safety checks say of the generated pattern table: [safe_ok], [closure_min_ok] and [table_wfb] hold,
   [validate_safe] does not (the table has a resolved shift/reduce conflict); the examples after that show what
   [closure_min_ok] and the conflict checks are needed for. *)
Require Import Ctpg.Base.Prelude Ctpg.Model.Grammar Ctpg.Model.LRGen Ctpg.Model.Driver Ctpg.Spec.Cfg Ctpg.Spec.LRSpec
               Ctpg.Model.RegexFront Ctpg.Valid.LRValid Ctpg.Valid.LRSafe Ctpg.Proofs.LRValidCex Ctpg.Proofs.SafeDriver Ctpg.Proofs.PatternParse.

Definition chk_safe (g : grammar) : option (bool * bool * bool * bool) :=
  match gen g with
  | inl (sts, tb) => Some (validate_safe g (map st_all sts) tb, safe_ok g (map st_all sts) tb, closure_min_ok g (map st_all sts),
                           table_wfb g tb (length sts))
  | inr _ => None
  end.

Definition chk_safe_raw (rg : raw_grammar) : option (bool * bool * bool * bool) :=
  match analyze rg with Some g => chk_safe g | None => None end.

(* (validate_safe, safe_ok, closure_min_ok, table_wfb) *)
Example gen_tables_safe :
  (chk_safe g1, chk_safe g2, chk_safe g3) =
  (Some (true, true, true, true), Some (true, true, true, true), Some (true, true, true, true)).
Proof. vm_compute. reflexivity. Qed.
(* [chk_safe_raw] in terms of the generator's result [ga], however that result is named *)
Lemma chk_safe_raw_of rg ga g sts tb :
  match analyze rg with
  | Some g => match gen g with inl (sts, tb) => Some (g, map st_all sts, tb) | inr _ => None end
  | None => None
  end = ga ->
  ga = Some (g, sts, tb) ->
  chk_safe_raw rg = Some (validate_safe g sts tb, safe_ok g sts tb, closure_min_ok g sts, table_wfb g tb (length sts)).
Proof.
  unfold chk_safe_raw, chk_safe. intros <-. destruct (analyze rg) as [g'|]; [|discriminate].
  destruct (gen g') as [[sts' tb']|]; [|discriminate]. intros [= -> <- ->]. rewrite map_length. reflexivity.
Qed.

(* the pattern grammar has a resolved shift/reduce conflict (alt | alt): the full validator says no, [safe_ok] yes *)
Example regex_table_safe : chk_safe_raw regex_raw_grammar = Some (false, true, true, true).
Proof.
  (* PatternParse.v holds the generator's result [regex_gen_all] and the verdicts of both validators on it.
     [regex_gen_all] is unfolded in the goal, never in a hypothesis nor by unification: only then does the kernel
     compare it with the generator call by unfolding the name, not by running the generator. *)
  rewrite (chk_safe_raw_of regex_raw_grammar regex_gen_all regex_g regex_sts regex_tb);
    [|unfold regex_gen_all; reflexivity|exact regex_gen_all_eq].
  unfold validate_safe.
  rewrite regex_validate_full, regex_safe_ok, (safe_ok_closure_min _ _ _ regex_safe_ok).
  vm_compute. reflexivity.
Qed.

(* [validate] alone does not give memory safety: [closure_min_ok] is needed.
   g2 of LRValidCex.v (S -> a ; A -> (empty), A unreachable) with the stray item [A -> ., <eof>] in state 0 and an
   honest ERROR cell (no target) in the goto column of A.  The full validator accepts (nothing forbids extra
   dot-0 items); on the empty input the driver reduces A -> (empty) and reads the uninitialised goto. *)
Definition tbl2' : table :=
  [[mkE KShift (Some 2) false; E; E; mkE KShift (Some 1) false; mkE KReduce (Some 1) false; E];
   [E; E; E; E; mkE KReduce (Some 0) false; E];
   [E; E; E; E; mkE KSuccess None false; E]].
Example validate_not_enough :
  validate g2 sts2 tbl2' = true /\ no_error_symbol g2 tbl2' = true /\
  closure_min_ok g2 sts2 = false /\ validate_safe g2 sts2 tbl2' = false /\
  tree_run g2 tbl2' [] 20 = Crash CrGotoUninit.
Proof. vm_compute. repeat split. Qed.

(* the same table shows why the tight form of capacity independence needs "the unbounded run does not crash":
   with capacity 1 the stack never exceeds 1 entry in either run, yet the bounded run throws where the unbounded one
   crashes (the capacity check comes before the goto target is inspected) *)
Example tight_capacity_needs_no_crash :
  let runc cap := fst (fst (run tree unit g2 tbl2' tree_opts [] cap id_lexer
                              (fun t _ _ _ => Leaf t) (fun _ => Leaf (err_idx g2)) (fun r c args => (c, Node r args)) 20 tt)) in
  runc None = Crash CrGotoUninit /\ runc (Some 1) = Throw /\ runc (Some 2) = Crash CrGotoUninit.
Proof. vm_compute. repeat split. Qed.

(* [table_wfb] holds of tables with conflicts; the other crash kinds then do occur.
   S -> A | B ; A -> a ; B -> a : reduce/reduce conflict on <eof> after a; the cell is KRR without argument. *)
Definition rr_raw : raw_grammar :=
  mkRG [83] [mkRT [97] 0 NoAssoc] [[83]; [65]; [66]]
       [mkRR [83] [RNterm [65]] None; mkRR [83] [RNterm [66]] None;
        mkRR [65] [RTerm [97]] None; mkRR [66] [RTerm [97]] None].
Definition rr_check : option (bool * bool * result tree) :=
  match analyze rr_raw with
  | Some g => match gen g with
              | inl (sts, tb) => Some (table_wfb g tb (length sts), safe_ok g (map st_all sts) tb, tree_run g tb [0] 20)
              | inr _ => None
              end
  | None => None
  end.
Example rr_conflict_table : rr_check = Some (true, false, Crash CrRRArg).
Proof. vm_compute. reflexivity. Qed.
