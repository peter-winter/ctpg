(* Termination of the generic driver -- any semantic algebra, any options, any lexer that answers with proper terms
   and lexemes of positive length inside the remaining input, unbounded stacks (cap = None) -- for some fuel, under
   the boolean check [term_checks].  This is [generic_run_halts_recovery_checked] of Proofs/TermRecAll.v, which holds
   with or without error symbol in the table, with the hypothesis [no_error_symbol] (which the proof does not use)
   and for the one fuel. *)
Require Import Ctpg.Base.Prelude Ctpg.Model.Driver Ctpg.Spec.Cfg Ctpg.Spec.Eval Ctpg.Valid.LRValid
               Ctpg.Valid.LRProductive Ctpg.Proofs.LRMachine Ctpg.Proofs.SafeDriver Ctpg.Proofs.ReportLang
               Ctpg.Proofs.ReportViable Ctpg.Proofs.TermViable Ctpg.Proofs.TermAll Ctpg.Proofs.TermRecAll.

Corollary generic_run_halts_checked : forall (V C : Type) g sts tbl opts buf lexer
    (term_f : nat -> nat -> nat -> spoint -> V) (err_f : spoint -> V) (rule_f : nat -> C -> list V -> C * V) (c0 : C),
  term_checks g sts tbl = true -> no_error_symbol g tbl = true ->
  lexer_ok_for g lexer -> lexer_in_range lexer ->
  exists fuel, fst (fst (run V C g tbl opts buf None lexer term_f err_f rule_f fuel c0)) <> OutOfFuel.
Proof.
  intros V C g sts tbl opts buf lexer term_f err_f rule_f c0 Hc _ Hlex Hpos.
  destruct (generic_run_halts_recovery_checked V C g sts tbl opts buf lexer term_f err_f rule_f c0 Hc Hlex Hpos) as (fuel & Hf).
  exists fuel. exact (proj2 (Hf fuel (Nat.le_refl _))).
Qed.

Print Assumptions generic_run_halts_checked.
