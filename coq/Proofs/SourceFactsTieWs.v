(* Part of the tie between the hand-written model and the facts tools/source_facts.py read out of ctpg.hpp on this run. *)
(* white space, newline and initial source point (C04 C09 C10) *)
Require Import Ctpg.Base.Prelude Ctpg.Model.Driver Ctpg.Model.SourceFacts.

Lemma tie_ws_newline : sf_ws_newline = ws_newline. Proof. reflexivity. Qed.
Lemma tie_ws_no_newline : sf_ws_no_newline = ws_no_newline. Proof. reflexivity. Qed.
Lemma tie_sp0 : sf_sp0 = (sp_line sp0, sp_col sp0). Proof. reflexivity. Qed.
Lemma tie_newline : forall p b, sp_update p [b] = if Nat.eqb b sf_newline then mkSp (S (sp_line p)) 1 else mkSp (sp_line p) (S (sp_col p)).
Proof. reflexivity. Qed.

