(* Prop-level reading of the validator for resolved tables (Valid/LRResolved.v), and the facts about it that the
   grouping theorem (Proofs/Grouping.v) uses. *)
Require Import Ctpg.Base.Prelude Ctpg.Proofs.ListFacts Ctpg.Model.Grammar Ctpg.Model.LRGen Ctpg.Spec.Conflict
               Ctpg.Valid.LRValid Ctpg.Valid.LRResolved Ctpg.Proofs.LRReflect Ctpg.Proofs.GenWf
               Ctpg.Proofs.LRValidFacts Ctpg.Proofs.CellBasics.

Section Reading.
  Variable g : grammar.
  Variable sts : list items.
  Variable tbl : table.
  Variable ne : bset.
  Variable nf : list bset.

  Notation items_of := (state_items sts).

  Lemma items_of_lt s i : In i (items_of s) -> s < length sts.
  Proof.
    intros H. apply Nat.nle_gt. intros L. unfold state_items in H. rewrite (nth_overflow _ _ L) in H. destruct H.
  Qed.

  Lemma in_red_items s t i :
    In i (red_items g sts s t) <->
    In i (items_of s) /\ is_complete g i = true /\ it_r i <> root_rule_idx g /\ it_t i = t.
  Proof.
    unfold red_items, is_red_item. rewrite filter_In, !andb_true_iff, negb_true_iff, Nat.eqb_neq, Nat.eqb_eq. tauto.
  Qed.

  Lemma in_sh_items s t i :
    In i (sh_items g sts s t) <->
    In i (items_of s) /\ is_complete g i = false /\ next_sym g i = Some (T t).
  Proof.
    unfold sh_items, is_sh_item. rewrite filter_In, andb_true_iff, negb_true_iff. split.
    - intros (Hi & Hc & Hn). split; [assumption|]. split; [assumption|].
      destruct (next_sym g i) as [[t'|b]|]; try discriminate. apply Nat.eqb_eq in Hn. subst. reflexivity.
    - intros (Hi & Hc & Hn). rewrite Hn, Nat.eqb_refl. auto.
  Qed.

  (* [target_has] and [reduce_is] of Valid/LRResolved.v as propositions *)
  Definition has_target (s : nat) (x : symbol) (l : items) : Prop :=
    exists s', goto_target g tbl s x = Some s' /\ s' < length sts /\
               forall i, In i l -> In (advance i) (items_of s').
  Definition is_reduce (s t r : nat) : Prop :=
    e_kind (cell_at tbl s (col_of_term g t)) = KReduce /\ e_arg (cell_at tbl s (col_of_term g t)) = Some r.

  Lemma target_has_iff s x l : target_has g sts tbl s x l = true <-> has_target s x l.
  Proof.
    unfold target_has, has_target. destruct (goto_target g tbl s x) as [s'|].
    - rewrite andb_true_iff, Nat.ltb_lt, forallb_forall. split.
      + intros [H1 H2]. exists s'. split; [reflexivity|]. split; [assumption|].
        intros i Hi. apply mem_item_In. apply H2. assumption.
      + intros (s1 & E & H1 & H2). inversion E; subst s1. split; [assumption|].
        intros i Hi. apply mem_item_In. apply H2. assumption.
    - split; [discriminate|]. intros (s1 & E & _). discriminate.
  Qed.

  Lemma reduce_is_iff s t r : reduce_is g tbl s t r = true <-> is_reduce s t r.
  Proof.
    unfold reduce_is, is_reduce. rewrite andb_true_iff, kind_eqb_eq.
    destruct (e_arg (cell_at tbl s (col_of_term g t))) as [r'|].
    - rewrite Nat.eqb_eq. split; intros [H1 H2]; (split; [assumption|]); congruence.
    - split; intros [H1 H2]; discriminate.
  Qed.

  (* what [cell_resolved] demands of the cell (s, t), with R = [red_items s t] and Sh = [sh_items s t] *)
  Definition cell_spec (s t : nat) : Prop :=
    let R := red_items g sts s t in
    let Sh := sh_items g sts s t in
    (* no reduce/reduce *)
    (forall i j, In i R -> In j R -> it_r i = it_r j) /\
    (* only shifts *)
    (R = [] -> Sh <> [] -> has_target s (T t) Sh) /\
    (* only a reduction *)
    (forall i, In i R -> Sh = [] -> is_reduce s t (it_r i)) /\
    (* shift/reduce: the documented rule decides *)
    (forall i, In i R -> Sh <> [] ->
       (sr_choice g (it_r i) t = KReduce /\ is_reduce s t (it_r i)) \/
       (sr_choice g (it_r i) t = KShift /\ has_target s (T t) Sh)).

  Lemma same_rules i (R' : items) : forallb (fun j => Nat.eqb (it_r j) (it_r i)) R' = true <->
    forall x y, In x (i :: R') -> In y (i :: R') -> it_r x = it_r y.
  Proof.
    rewrite forallb_forall. split.
    - intros H. assert (forall x, In x (i :: R') -> it_r x = it_r i) as E.
      { intros x [<-|Hx]; [reflexivity|]. apply Nat.eqb_eq, H, Hx. }
      intros x y Hx Hy. rewrite (E x Hx), (E y Hy). reflexivity.
    - intros H x Hx. apply Nat.eqb_eq, H; [right; assumption|left; reflexivity].
  Qed.

  (* by the four cases of the validator; in each, the clauses of [cell_spec] about an empty list hold trivially *)
  Theorem cell_resolved_iff s t : cell_resolved g sts tbl s t = true <-> cell_spec s t.
  Proof.
    unfold cell_resolved, cell_spec. cbv zeta.
    destruct (red_items g sts s t) as [|i R']; destruct (sh_items g sts s t) as [|j Sh'];
      rewrite ?andb_true_iff, ?same_rules, ?target_has_iff, ?reduce_is_iff.
    - split; [intros _|reflexivity]. split; [|split; [|split]]; easy.
    - split; [intros H|intros (_ & H & _); apply H; easy]. split; [|split; [|split]]; easy.
    - split.
      + intros [Hs Hr]. split; [|split; [|split]]; try easy. intros x Hx _. rewrite (Hs x i Hx (or_introl eq_refl)). exact Hr.
      + intros (Hs & _ & Hr & _). split; [assumption|]. apply Hr; [left|]; reflexivity.
    - split.
      + intros [Hs Hc]. split; [|split; [|split]]; try easy. intros x Hx _. rewrite (Hs x i Hx (or_introl eq_refl)).
        destruct (sr_choice_cases g (it_r i) t) as [E|E]; rewrite E in *; [left|right]; split; try reflexivity.
        * apply reduce_is_iff, Hc.
        * apply target_has_iff, Hc.
      + intros (Hs & _ & _ & Hsr). split; [assumption|].
        destruct (Hsr i (or_introl eq_refl)) as [[E H]|[E H]]; [discriminate| |]; rewrite E.
        * apply reduce_is_iff, H.
        * apply target_has_iff, H.
  Qed.

  (* a cell is not both a transition and a reduction *)
  Lemma goto_target_not_reduce s t s' r : goto_target g tbl s (T t) = Some s' -> is_reduce s t r -> False.
  Proof. unfold goto_target, is_reduce, col_of_term. cbn [sym_col]. intros H [E _]. rewrite E in H. discriminate. Qed.

  Lemma has_target_at s x l s' :
    has_target s x l -> goto_target g tbl s x = Some s' -> forall i, In i l -> In (advance i) (items_of s').
  Proof. intros (s1 & E & _ & H) Hg. assert (s1 = s') by congruence. subst s1. exact H. Qed.

  (* the two ways a resolved cell is used: when the table shifts t in s, the target holds every advanced shift
     item and the documented rule chose the shift against every completed item; when it reduces although t
     can be shifted, the rule chose the reduction *)
  Lemma cell_shifts s t s' : cell_spec s t -> goto_target g tbl s (T t) = Some s' ->
    (forall j, In j (sh_items g sts s t) -> In (advance j) (items_of s')) /\
    (forall i, In i (red_items g sts s t) -> sr_choice g (it_r i) t = KShift).
  Proof.
    intros (_ & Honly & Hro & Hsr) Hg. split.
    - intros j Hj. assert (sh_items g sts s t <> []) as Hne by (intros E; rewrite E in Hj; destruct Hj).
      revert j Hj. destruct (red_items g sts s t) as [|i R'].
      + exact (has_target_at _ _ _ _ (Honly eq_refl Hne) Hg).
      + destruct (Hsr i (or_introl eq_refl) Hne) as [[_ Hr]|[_ Ht]].
        * destruct (goto_target_not_reduce _ _ _ _ Hg Hr).
        * exact (has_target_at _ _ _ _ Ht Hg).
    - intros i Hi. destruct (sh_items g sts s t) as [|x Sh'].
      + destruct (goto_target_not_reduce _ _ _ _ Hg (Hro i Hi eq_refl)).
      + destruct (Hsr i Hi) as [[_ Hr]|[Hc _]]; [discriminate| |assumption].
        destruct (goto_target_not_reduce _ _ _ _ Hg Hr).
  Qed.

  Lemma cell_reduces s t r j : cell_spec s t -> is_reduce s t r -> In j (sh_items g sts s t) ->
    sr_choice g r t = KReduce.
  Proof.
    intros (_ & Honly & _ & Hsr) Hr Hj.
    assert (sh_items g sts s t <> []) as Hne by (intros E; rewrite E in Hj; destruct Hj).
    assert (forall l, has_target s (T t) l -> False) as Hno.
    { intros l (s1 & E & _). exact (goto_target_not_reduce _ _ _ _ E Hr). }
    destruct (red_items g sts s t) as [|i R'].
    - destruct (Hno _ (Honly eq_refl Hne)).
    - destruct (Hsr i (or_introl eq_refl) Hne) as [[Hc [_ Ha']]|[_ Ht]]; [|destruct (Hno _ Ht)].
      assert (it_r i = r) by (destruct Hr; congruence). subst r. assumption.
  Qed.

  Lemma nt_goto_ok_iff s : nt_goto_ok g sts tbl s = true <->
    forall i b, In i (items_of s) -> is_complete g i = false -> next_sym g i = Some (NT b) -> has_target s (NT b) [i].
  Proof.
    unfold nt_goto_ok. rewrite forallb_forall. split.
    - intros H i b Hi Hc Hn. specialize (H i Hi). rewrite Hc, Hn in H. apply target_has_iff. assumption.
    - intros H i Hi. destruct (is_complete g i) eqn:Hc; [reflexivity|].
      destruct (next_sym g i) as [[t|b]|] eqn:Hn; try reflexivity. apply target_has_iff. apply H; assumption.
  Qed.

  Lemma accept_ok_iff s : accept_ok g sts tbl s = true <->
    forall i, In i (items_of s) -> is_complete g i = true -> it_r i = root_rule_idx g ->
              e_kind (cell_at tbl s (col_of_term g (it_t i))) = KSuccess /\ it_t i = eof_idx g.
  Proof.
    unfold accept_ok. rewrite forallb_forall. split.
    - intros H i Hi Hc Hr. specialize (H i Hi). rewrite Hc, Hr, Nat.eqb_refl in H. cbn [andb] in H.
      apply andb_true_iff in H. destruct H as [H1 H2]. apply kind_eqb_eq in H1. apply Nat.eqb_eq in H2. auto.
    - intros H i Hi. destruct (is_complete g i) eqn:Hc; [|reflexivity]. cbn [andb].
      destruct (Nat.eqb (it_r i) (root_rule_idx g)) eqn:Hr; [|reflexivity]. apply Nat.eqb_eq in Hr.
      destruct (H i Hi Hc Hr) as [H1 H2]. rewrite H1, H2, Nat.eqb_refl. reflexivity.
  Qed.

  (* the exact reading of the part of [resolved_ok] that is new with respect to [table_sound_ok] *)
  Theorem resolved_ok_iff : resolved_ok g sts tbl ne nf = true <->
    table_sound_ok g sts tbl = true /\ tables_closed g ne nf = true /\
    forall s, s < length sts ->
      closure_ok g sts ne nf s = true /\
      (forall i b, In i (items_of s) -> is_complete g i = false -> next_sym g i = Some (NT b) -> has_target s (NT b) [i]) /\
      (forall i, In i (items_of s) -> is_complete g i = true -> it_r i = root_rule_idx g ->
                 e_kind (cell_at tbl s (col_of_term g (it_t i))) = KSuccess /\ it_t i = eof_idx g) /\
      (forall t, t < term_count g -> cell_spec s t).
  Proof.
    assert (forall s, state_resolved g sts tbl ne nf s = true <->
              closure_ok g sts ne nf s = true /\ nt_goto_ok g sts tbl s = true /\ accept_ok g sts tbl s = true /\
              forall t, t < term_count g -> cell_spec s t) as Hst.
    { intros s. unfold state_resolved. rewrite !andb_true_iff, forallb_seq0.
      assert ((forall t, t < term_count g -> cell_resolved g sts tbl s t = true) <->
              (forall t, t < term_count g -> cell_spec s t)) as ->; [|tauto].
      split; intros H t Ht; apply cell_resolved_iff; apply H; assumption. }
    unfold resolved_ok. rewrite !andb_true_iff, forallb_seq0. split.
    - intros [[H1 H2] H3]. split; [assumption|]. split; [assumption|]. intros s Hs.
      rewrite <- nt_goto_ok_iff, <- accept_ok_iff. apply Hst. apply H3. assumption.
    - intros (H1 & H2 & H3). split; [split; assumption|]. intros s Hs. apply Hst.
      rewrite nt_goto_ok_iff, accept_ok_iff. apply H3. assumption.
  Qed.

  (* no state has a shift item and a reduce item on the same term: a property of the item sets alone *)
  Definition unconflicted : Prop :=
    forall s t, s < length sts -> t < term_count g -> red_items g sts s t = [] \/ sh_items g sts s t = [].

  (* the full check is the resolved check on item sets without shift/reduce conflict; the converse is
     table_ok_resolved_ok of Proofs/GroupingConservative.v, where every such conflict fails [table_ok] *)
  Theorem resolved_unconflicted_table_ok :
    resolved_ok g sts tbl ne nf = true -> unconflicted -> table_ok g sts tbl ne nf = true.
  Proof.
    intros H U. apply resolved_ok_iff in H. destruct H as (Hs & Htc & Hst).
    pose proof (sound_facts_of _ _ _ Hs) as SF.
    unfold table_ok. rewrite Hs, Htc. apply forallb_seq0. intros s Hlt.
    destruct (Hst s Hlt) as (-> & Hnt & Hacc & Hcell). cbn [andb]. apply andb_true_iff. split.
    - apply forallb_forall. intros i Hi. destruct (is_complete g i) eqn:Ci; [reflexivity|].
      assert (forall x, has_target s x [i] ->
                match goto_target g tbl s x with
                | Some s' => Nat.ltb s' (length sts) && mem_item (mkItem (it_r i) (S (it_d i)) (it_t i)) (items_of s')
                | None => false
                end = true) as Hread.
      { intros x (s' & -> & Hs'%Nat.ltb_lt & Hin). rewrite Hs'. apply mem_item_In, (Hin i). left. reflexivity. }
      destruct (next_sym g i) as [[t|b]|] eqn:Hn.
      + apply Hread.
        assert (In i (sh_items g sts s t)) as HSh by (apply in_sh_items; auto).
        assert (t < term_count g) as Ht.
        { apply Nat.ltb_lt. exact (proj1 (item_next_sym_ok g sts tbl SF s i _ (T t) Hlt Hi Hn)). }
        destruct (Hcell t Ht) as (_ & Honly & _). destruct (U s t Hlt Ht) as [E|E]; [|rewrite E in HSh; destruct HSh].
        destruct (Honly E (fun E' => eq_ind _ (In i) HSh _ E')) as (s' & Hg & Hs' & Hin).
        exists s'. split; [assumption|]. split; [assumption|]. intros j [<-|[]]. apply Hin. assumption.
      + apply Hread, Hnt; assumption.
      + (* an item that is not complete has a symbol after the dot *)
        destruct (sf_item _ _ _ SF s i Hlt Hi) as (Hr & _ & _). destruct (sf_ri _ _ _ SF _ Hr) as (_ & _ & En).
        unfold is_complete in Ci. apply Nat.leb_gt in Ci. rewrite En in Ci.
        apply nth_error_None in Hn. unfold rhs_of in Hn. lia.
    - apply forallb_forall. intros i Hi. destruct (is_complete g i) eqn:Ci; [|reflexivity]. cbv zeta.
      destruct (Nat.eqb_spec (it_r i) (root_rule_idx g)) as [Ri|Ri].
      + destruct (Hacc i Hi Ci Ri) as [-> ->]. rewrite Nat.eqb_refl. reflexivity.
      + destruct (sf_item _ _ _ SF s i Hlt Hi) as (_ & _ & Ht).
        assert (In i (red_items g sts s (it_t i))) as HR by (apply in_red_items; auto).
        destruct (Hcell _ Ht) as (_ & _ & Hro & _).
        destruct (U s _ Hlt Ht) as [E|E]; [rewrite E in HR; destruct HR|].
        destruct (Hro i HR E) as [-> ->]. rewrite Nat.eqb_refl. reflexivity.
  Qed.

  (* rf_distinct speaks of the grammar alone: it is the distinct_r conjunct of grammar_wf, which table_sound_ok checks *)
  Record resolved_facts : Prop := {
    rf_sound : sound_facts g sts tbl;
    rf_distinct : forall i j, i < rule_count g -> j < rule_count g ->
                  ri_r (get_ri g i) = ri_r (get_ri g j) -> i = j;
    rf_tables : tables_closed g ne nf = true;
    rf_closure : forall s i b, s < length sts -> In i (items_of s) ->
        next_sym g i = Some (NT b) -> is_complete g i = false ->
        forall k t', k < snd (nth b (slices g) (0, 0)) -> t' < term_count g ->
          bset_test (first_tail g ne nf (skipn (S (it_d i)) (rhs_of g i)) (it_t i)) t' = true ->
          In (mkItem (fst (nth b (slices g) (0, 0)) + k) 0 t') (items_of s);
    rf_goto_nt : forall s i b, s < length sts -> In i (items_of s) ->
        next_sym g i = Some (NT b) -> is_complete g i = false -> has_target s (NT b) [i];
    rf_accept : forall s i, s < length sts -> In i (items_of s) -> is_complete g i = true ->
        it_r i = root_rule_idx g ->
        e_kind (cell_at tbl s (col_of_term g (it_t i))) = KSuccess /\ it_t i = eof_idx g;
    rf_cell : forall s t, s < length sts -> t < term_count g -> cell_spec s t
  }.

  Theorem resolved_facts_of : resolved_ok g sts tbl ne nf = true -> resolved_facts.
  Proof.
    intros H. apply resolved_ok_iff in H. destruct H as (Hs & Htc & Hst). constructor.
    - apply sound_facts_of. assumption.
    - apply wf_distinct, wf_facts_of. unfold table_sound_ok in Hs. andb_split. assumption.
    - assumption.
    - intros s i b Hlt. apply closure_ok_closed. apply (Hst s Hlt).
    - intros s i b Hlt Hi Hnx Hic. apply (Hst s Hlt); assumption.
    - intros s i Hlt. apply (Hst s Hlt).
    - intros s t Hlt. apply (Hst s Hlt).
  Qed.
End Reading.

Theorem validate_resolved_facts g sts tbl :
  validate_resolved g sts tbl = true ->
  resolved_facts g sts tbl (nterm_empty g) (nterm_first g (nterm_empty g)).
Proof. exact (resolved_facts_of g sts tbl _ _). Qed.

(* the resolved validator is at least as strong as the sound one *)
Theorem validate_resolved_sound g sts tbl : validate_resolved g sts tbl = true -> validate_sound g sts tbl = true.
Proof. intros H. exact (proj1 (proj1 (resolved_ok_iff g sts tbl _ _) H)). Qed.

Print Assumptions cell_resolved_iff.
Print Assumptions resolved_ok_iff.
Print Assumptions resolved_facts_of.
