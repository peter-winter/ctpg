(* The closure loop. What closure_children yields is said once, as an equivalence (closure_children_iff). With the
   generator's fuel the result of close_loop is closed under closure_children, extends the input list by children of
   items standing earlier (gen_by), has no duplicates, consists of well-formed items, and passes the validator's
   closure check (closure_ok). The fuel suffices because item_idx numbers the well-formed items injectively
   below address_space, so a duplicate-free list of them is no longer than that. *)
Require Import Ctpg.Base.Prelude Ctpg.Proofs.ListFacts Ctpg.Model.Grammar Ctpg.Model.LRGen Ctpg.Valid.LRValid
               Ctpg.Proofs.LRReflect Ctpg.Proofs.GenLists Ctpg.Proofs.GenWf Ctpg.Proofs.CellBasics.

Lemma add_item_In l x y : In y (add_item l x) <-> In y l \/ y = x.
Proof.
  unfold add_item. destruct (mem_item x l) eqn:E.
  - apply mem_item_In in E. split; [auto|]. intros [H|H]; subst; assumption.
  - rewrite in_app_iff. cbn. split; intros [H|H]; auto. destruct H; [subst; auto|contradiction].
Qed.

Lemma NoDup_snoc {A} (l : list A) x : NoDup l -> ~ In x l -> NoDup (l ++ [x]).
Proof. intros H Hx. apply (NoDup_Add (a:=x) (l:=l)); [|auto]. rewrite <- (app_nil_r l) at 1. apply Add_app. Qed.

Lemma add_item_NoDup l x : NoDup l -> NoDup (add_item l x).
Proof.
  intros H. unfold add_item. destruct (mem_item x l) eqn:E; [assumption|].
  apply NoDup_snoc; [assumption|]. intros Hc. apply mem_item_In in Hc. congruence.
Qed.

Lemma add_item_not_nil l x : add_item l x <> [].
Proof.
  unfold add_item. destruct (mem_item x l) eqn:E.
  - apply mem_item_In in E. intros ->. destruct E.
  - destruct l; discriminate.
Qed.

Lemma fold_add_ext xs l : exists e, fold_left add_item xs l = l ++ e /\ (forall y, In y e -> In y xs).
Proof. eexists. split; [apply fold_add_item|]. intros y Hy%dedup_first_In%filter_In. apply Hy. Qed.

Lemma fold_add_NoDup xs : forall l, NoDup l -> NoDup (fold_left add_item xs l).
Proof. induction xs as [|x xs IH]; intros l H; cbn; [assumption|]. apply IH. apply add_item_NoDup. assumption. Qed.

Lemma fold_add_subset xs l : (forall x, In x xs -> In x l) -> fold_left add_item xs l = l.
Proof.
  intros H. rewrite fold_add_item, filter_none, app_nil_r; [reflexivity|].
  intros x Hx. apply negb_false_iff, mem_item_In, H, Hx.
Qed.

Definition item_okP (g : grammar) (i : item) : Prop :=
  it_r i < rule_count g /\ it_d i <= ri_n (get_ri g (it_r i)) /\ it_t i < term_count g.

Lemma item_ok_P g i : item_ok g i = true <-> item_okP g i.
Proof.
  unfold item_ok, item_okP. split.
  - intros ((A%Nat.ltb_lt & B%Nat.leb_le)%andb_prop & C%Nat.ltb_lt)%andb_prop. auto.
  - intros (A%Nat.ltb_lt & B%Nat.leb_le & C%Nat.ltb_lt). rewrite A, B, C. reflexivity.
Qed.

Lemma radix_lt a b x y : x < a -> y < b -> x * b + y < a * b.
Proof. nia. Qed.

Lemma radix_inj b x y x' y' : y < b -> y' < b -> x * b + y = x' * b + y' -> x = x' /\ y = y'.
Proof. intros Hy Hy' E. assert (x = x') by nia. subst. lia. Qed.

Section Closure.
  Variable g : grammar.
  Hypothesis WF : wf_facts g.
  Hypothesis WFX : wfx_facts g.
  Variable ne : bset.
  Variable nf : list bset.

  Lemma item_rhs_n i : it_r i < rule_count g ->
    firstn (ri_n (get_ri g (it_r i))) (get_rhs g (ri_r (get_ri g (it_r i)))) = rhs_of g i.
  Proof. intros H. unfold rhs_of. apply wf_firstn_rhs; assumption. Qed.

  Lemma item_n_length i : item_okP g i -> ri_n (get_ri g (it_r i)) = length (rhs_of g i).
  Proof. intros (H & _). unfold rhs_of. apply (wf_ri _ WF). assumption. Qed.

  Lemma next_sym_complete i : item_okP g i -> (is_complete g i = true <-> next_sym g i = None).
  Proof.
    intros H. unfold is_complete, next_sym. rewrite Nat.leb_le, (item_n_length i H). symmetry. apply nth_error_None.
  Qed.

  Lemma next_sym_ok i x : item_okP g i -> next_sym g i = Some x ->
    sym_ok g x = true /\ x <> NT (fake_root_idx g) /\ x <> T (eof_idx g).
  Proof.
    intros (H & _) Hx. apply (wf_sym _ WF (rhs_of g i) x).
    - unfold rhs_of. apply wf_rhs_in; assumption.
    - eapply nth_error_In. exact Hx.
  Qed.

  Lemma first_tail_length beta t : length (first_tail g ne nf beta t) = term_count g.
  Proof.
    unfold first_tail. destruct (all_nullable ne beta); rewrite ?bset_set_length, first_of_syms_length; apply bset_empty_length.
  Qed.

  (* the children of [A -> alpha . B beta, a]: one item [B -> . gamma, b] for every rule of B and every b in FIRST(beta a);
     FIRST(beta a) is written with the validator's first_tail, not with the generator's slice_first / slice_empty, so
     that closure_ok (closed_closure_ok below) and the completeness proofs read it as it stands *)
  Lemma closure_children_iff i y : item_okP g i ->
    (In y (closure_children g ne nf i) <->
     exists b k, next_sym g i = Some (NT b) /\ is_complete g i = false /\ k < snd (nth b (slices g) (0, 0)) /\
                 y = mkItem (fst (nth b (slices g) (0, 0)) + k) 0 (it_t y) /\
                 bset_test (first_tail g ne nf (skipn (S (it_d i)) (rhs_of g i)) (it_t i)) (it_t y) = true).
  Proof.
    intros (Hr & _ & Ht). unfold closure_children, slice_empty, slice_first. rewrite (item_rhs_n i Hr).
    change (Nat.leb (ri_n (get_ri g (it_r i))) (it_d i)) with (is_complete g i).
    change (nth_error (get_rhs g (ri_r (get_ri g (it_r i)))) (it_d i)) with (next_sym g i).
    unfold first_tail. set (beta := skipn (S (it_d i)) (rhs_of g i)).
    set (f := first_of_syms g ne nf (bset_empty (term_count g)) beta).
    assert (length f = term_count g) as Lf by (unfold f; rewrite first_of_syms_length; apply bset_empty_length).
    destruct (is_complete g i); [split; [intros []|intros (b & k & _ & E & _); discriminate]|].
    destruct (next_sym g i) as [[a|b]|]; try (split; [intros []|intros (b' & k & E & _); discriminate]).
    destruct (nth b (slices g) (0, 0)) as [st n] eqn:Esl.
    rewrite in_app_iff, in_flat_map. split.
    - (* a term of FIRST(beta), or the lookahead of the item when beta is nullable *)
      intros [(t & _ & H)|H].
      + destruct (bset_test f t) eqn:Ef; [|destruct H]. apply in_map_iff in H. destruct H as (k & <- & Hk%in_seq).
        exists b, k. rewrite Esl. cbn [it_t fst snd]. repeat split; [lia|].
        destruct (all_nullable ne beta); [apply bset_set_mono|]; exact Ef.
      + destruct (all_nullable ne beta); [|destruct H]. cbn [andb] in H. destruct (bset_test f (it_t i)); [destruct H|].
        apply in_map_iff in H. destruct H as (k & <- & Hk%in_seq). exists b, k. rewrite Esl. cbn [it_t fst snd].
        repeat split; [lia|]. apply bset_set_same. lia.
    - intros (b' & k & [= <-] & _ & Hk & -> & Hf). rewrite Esl in *. cbn [it_t fst snd] in *. set (t := it_t y) in *.
      assert (In (mkItem (st + k) 0 t) (map (fun k0 => mkItem (st + k0) 0 t) (seq 0 n))) as Hin
          by (apply (in_map (fun k0 => mkItem (st + k0) 0 t)), in_seq; lia).
      destruct (bset_test f t) eqn:Eft.
      + left. exists t. rewrite Eft. split; [apply in_seq; apply bset_test_lt in Eft; lia|exact Hin].
      + right. destruct (all_nullable ne beta); [|congruence]. apply bset_test_set in Hf. destruct Hf as [E|Hf]; [|congruence].
        rewrite <- E, Eft. exact Hin.
  Qed.

  Lemma slice_rule b k : b < nterm_count g -> k < snd (nth b (slices g) (0, 0)) ->
    fst (nth b (slices g) (0, 0)) + k < rule_count g /\ ri_l (get_ri g (fst (nth b (slices g) (0, 0)) + k)) = b.
  Proof.
    intros Hb Hk. pose proof (wfx_slice _ WFX b Hb).
    assert (fst (nth b (slices g) (0, 0)) + k < rule_count g) as Hlt by lia.
    split; [assumption|]. apply (wf_slice _ WF b _ Hb Hlt). lia.
  Qed.

  Lemma closure_children_ok i y : item_okP g i -> In y (closure_children g ne nf i) ->
    item_okP g y /\ it_d y = 0 /\ it_r y <> root_rule_idx g.
  Proof.
    intros Oi H. apply (closure_children_iff i y Oi) in H. destruct H as (b & k & Hn & _ & Hk & -> & Hf).
    destruct (next_sym_ok _ _ Oi Hn) as (Hs%Nat.ltb_lt & Hfr & _).
    destruct (slice_rule b k Hs Hk) as (Hlt & El). apply bset_test_lt in Hf. rewrite first_tail_length in Hf.
    cbn [it_t it_r it_d] in *. split; [repeat split; [assumption|cbn; lia|assumption]|]. split; [reflexivity|].
    intros E. rewrite E, (wf_root_l _ WF) in El. apply Hfr. rewrite El. reflexivity.
  Qed.

  (* item_idx numbers (rule, dot, lookahead) in mixed radix (rule_count, situation_size = max_elems + 1, term_count) *)
  Lemma item_idx_radix i : item_idx g i = (it_r i * situation_size g + it_d i) * term_count g + it_t i.
  Proof. unfold item_idx. rewrite Nat.mul_add_distr_r. reflexivity. Qed.

  Lemma item_idx_lt i : item_okP g i -> item_idx g i < address_space g.
  Proof.
    intros (Hr & Hd & Ht). pose proof (wfx_elems _ WFX _ Hr).
    rewrite item_idx_radix. unfold address_space. apply radix_lt; [|assumption].
    apply radix_lt; [assumption|]. unfold situation_size. lia.
  Qed.

  Lemma item_idx_inj i j : item_okP g i -> item_okP g j -> item_idx g i = item_idx g j -> i = j.
  Proof.
    intros (Hr & Hd & Ht) (Hr' & Hd' & Ht') E.
    pose proof (wfx_elems _ WFX _ Hr). pose proof (wfx_elems _ WFX _ Hr').
    rewrite !item_idx_radix in E. apply radix_inj in E as (E & Et); [|assumption|assumption].
    apply radix_inj in E as (Er & Ed); [|unfold situation_size; lia|unfold situation_size; lia].
    destruct i, j; cbn in *; congruence.
  Qed.

  Lemma items_length_bound l : NoDup l -> Forall (item_okP g) l -> length l <= address_space g.
  Proof.
    intros Hnd Hok. rewrite <- (map_length (item_idx g) l). apply NoDup_bounded_length.
    - apply NoDup_map_inj; [|assumption]. rewrite Forall_forall in Hok.
      intros x y Hx Hy. apply item_idx_inj; auto.
    - intros x Hx. apply in_map_iff in Hx. destruct Hx as (i & <- & Hi). apply item_idx_lt.
      rewrite Forall_forall in Hok. auto.
  Qed.

  Definition dot0_nonroot (y : item) : Prop := it_d y = 0 /\ it_r y <> root_rule_idx g.
  Definition closed_at (all : list item) (x : item) : Prop :=
    forall y, In y (closure_children g ne nf x) -> In y all.

  (* [y], standing at position [j], was generated by the closure of an item at an earlier position *)
  Definition gen_by (its : list item) (j : nat) (y : item) : Prop :=
    exists k ik, k < j /\ nth_error its k = Some ik /\ In y (closure_children g ne nf ik).

  Lemma gen_by_app its e j y : gen_by its j y -> gen_by (its ++ e) j y.
  Proof.
    intros (k & ik & Hk & Hik & Hy). exists k, ik. split; [assumption|]. split; [|assumption].
    apply nth_error_app_l. assumption.
  Qed.

  (* i is the loop index: every item before it has its children in the list. n is the length of the list the loop
     was started on: whatever stands from n on was put there as a child of an item standing before it. *)
  Lemma close_loop_spec fuel : forall all i n,
    NoDup all -> Forall (item_okP g) all ->
    (forall j x, j < i -> nth_error all j = Some x -> closed_at all x) ->
    (forall j y, n <= j -> nth_error all j = Some y -> gen_by all j y) ->
    address_space g < fuel + i ->
    let res := close_loop fuel g ne nf all i in
    (exists ext, res = all ++ ext /\ Forall dot0_nonroot ext) /\
    NoDup res /\ Forall (item_okP g) res /\ (forall x, In x res -> closed_at res x) /\
    (forall j y, n <= j -> nth_error res j = Some y -> gen_by res j y).
  Proof.
    induction fuel as [|f IH]; intros all i n Hnd Hok Hcl Hgb Hf; cbn [close_loop].
    - cbn zeta. split; [exists []; rewrite app_nil_r; auto|]. split; [assumption|]. split; [assumption|]. split; [|assumption].
      intros x Hx. destruct (In_nth _ _ x Hx) as (j & Hj & Ej).
      pose proof (items_length_bound _ Hnd Hok). apply (Hcl j); [lia|].
      rewrite <- Ej. apply nth_error_nth'. assumption.
    - destruct (nth_error all i) as [x|] eqn:Ex.
      + set (ch := closure_children g ne nf x).
        destruct (fold_add_ext ch all) as (e & Ee & He).
        assert (item_okP g x) as Hxok.
        { rewrite Forall_forall in Hok. apply Hok. eapply nth_error_In; eassumption. }
        assert (Forall (item_okP g) (fold_left add_item ch all) /\ Forall dot0_nonroot e) as (Hok' & Hnew).
        { rewrite Ee. split.
          - apply Forall_app. split; [assumption|]. apply Forall_forall. intros y Hy.
            apply (closure_children_ok x y Hxok). apply He. assumption.
          - apply Forall_forall. intros y Hy. apply (closure_children_ok x y Hxok). apply He. assumption. }
        destruct (IH (fold_left add_item ch all) (S i) n) as ((ext & Eext & Hext) & B & C & D & G).
        * apply fold_add_NoDup. assumption.
        * assumption.
        * intros j z Hj Hz y Hy. apply fold_add_item_In.
          destruct (Nat.eq_dec j i) as [->|Hne].
          -- rewrite Ee in Hz. rewrite (nth_error_app_l _ e _ _ Ex) in Hz. inversion Hz; subst z. right. exact Hy.
          -- assert (j < length all) as Hjl by (apply nth_error_Some_lt in Ex; lia).
             rewrite Ee, nth_error_app1 in Hz by assumption. left. apply (Hcl j z); [lia|assumption|assumption].
        * (* what this step appends are children of the item at [i] *)
          rewrite Ee. intros j y Hn Hj. destruct (Nat.lt_ge_cases j (length all)) as [Hlt|Hge].
          -- rewrite nth_error_app1 in Hj by assumption. apply gen_by_app. apply Hgb; assumption.
          -- rewrite nth_error_app2 in Hj by assumption. apply nth_error_In in Hj.
             exists i, x. split; [apply nth_error_Some_lt in Ex; lia|]. split; [apply nth_error_app_l; assumption|].
             apply He. assumption.
        * lia.
        * cbn zeta. split; [|auto]. exists (e ++ ext). rewrite Eext, Ee, app_assoc. split; [reflexivity|].
          apply Forall_app. auto.
      + cbn zeta. split; [exists []; rewrite app_nil_r; auto|]. split; [assumption|]. split; [assumption|]. split; [|assumption].
        intros x Hx. destruct (In_nth _ _ x Hx) as (j & Hj & Ej). apply nth_error_None in Ex.
        apply (Hcl j); [lia|]. rewrite <- Ej. apply nth_error_nth'. assumption.
  Qed.

  (* the validator's closure check on a list of items: closure_ok looks at the one state it is asked about *)
  Definition closure_ok_list (its : list item) : bool := closure_ok g [its] ne nf 0.

  Lemma closure_ok_is_list sts s : closure_ok g sts ne nf s = closure_ok_list (state_items sts s).
  Proof. reflexivity. Qed.

  Lemma closed_closure_ok its :
    Forall (item_okP g) its -> (forall x, In x its -> closed_at its x) -> closure_ok_list its = true.
  Proof.
    intros Hok Hcl. unfold closure_ok_list, closure_ok, state_items. cbn [nth]. apply forallb_forall. intros i Hi.
    destruct (next_sym g i) as [[a|b]|] eqn:En; try reflexivity.
    destruct (is_complete g i) eqn:Ci; [reflexivity|].
    destruct (nth b (slices g) (0, 0)) as [st n] eqn:Esl.
    apply forallb_forall. intros k Hk. apply in_seq in Hk.
    apply forallb_forall. intros t' Ht'.
    destruct (bset_test _ t') eqn:Et; [|reflexivity]. cbn [negb orb].
    apply mem_item_In. apply (Hcl i Hi).
    rewrite Forall_forall in Hok. apply (closure_children_iff i _ (Hok i Hi)). exists b, k.
    rewrite Esl. cbn [fst snd it_t]. split; [exact En|]. split; [exact Ci|]. split; [lia|]. split; [reflexivity|exact Et].
  Qed.

  Theorem close_loop_closure_ok all :
    NoDup all -> Forall (item_okP g) all ->
    let res := close_loop (S (address_space g)) g ne nf all 0 in
    closure_ok_list res = true /\ NoDup res /\ Forall (item_okP g) res /\
    (exists ext, res = all ++ ext /\ Forall dot0_nonroot ext) /\
    (forall j y, length all <= j -> nth_error res j = Some y -> gen_by res j y).
  Proof.
    intros Hnd Hok.
    destruct (close_loop_spec (S (address_space g)) all 0 (length all) Hnd Hok) as (A & B & C & D & G).
    - intros j x Hj. lia.
    - intros j y Hj E. apply nth_error_Some_lt in E. lia.
    - lia.
    - cbn zeta. split; [apply closed_closure_ok; assumption|]. auto.
  Qed.
End Closure.
