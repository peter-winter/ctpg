(* The parts of one transition: set_cell, the shift branch of do_transitions (do_shift: it finds a state with the
   kernel and changes none, or appends one, do_shift_cases), the bucket of a column.
   The discipline kept for every state (st_disc): its items with dot > 0 are its kernel items. The scan of a bucket
   of such a state has one of the three outcomes of Proofs/CellResolve.v, whatever the column (bucket_scan_outcome);
   what the generator needs of the scan's kernel is read off them. *)
Require Import Ctpg.Base.Prelude Ctpg.Proofs.ListFacts Ctpg.Model.Grammar Ctpg.Model.LRGen Ctpg.Valid.LRValid Ctpg.Spec.Conflict
               Ctpg.Proofs.LRReflect Ctpg.Proofs.GenLists Ctpg.Proofs.GenWf
               Ctpg.Proofs.CellBasics Ctpg.Proofs.CellResolve Ctpg.Proofs.GenClosure Ctpg.Proofs.GenScan.

Definition stn (sts : list lrstate) (s : nat) : lrstate := nth s sts (mkSt [] []).

Lemma set_cell_length tb s c e : length (set_cell tb s c e) = length tb.
Proof. unfold set_cell. apply update_length. Qed.

Lemma set_cell_row_length tb s c e s' : length (nth s' (set_cell tb s c e) []) = length (nth s' tb []).
Proof.
  unfold set_cell. apply (nth_update_P (fun r => length r = length (nth s' tb []))); [|reflexivity].
  intros ->. apply update_length.
Qed.

Lemma cell_at_set_same tb s c e : s < length tb -> c < length (nth s tb []) -> cell_at (set_cell tb s c e) s c = e.
Proof.
  intros Hs Hc. unfold cell_at, set_cell. rewrite nth_update_eq by assumption. apply nth_update_eq. assumption.
Qed.

Lemma cell_at_set_other tb s c e s' c' : s' <> s \/ c' <> c -> cell_at (set_cell tb s c e) s' c' = cell_at tb s' c'.
Proof.
  intros H. unfold cell_at, set_cell.
  apply (nth_update_P (fun r => nth c' r entry_default = nth c' (nth s' tb []) entry_default)); [|reflexivity].
  intros ->. apply nth_update_neq. destruct H; congruence.
Qed.

(* sd_rootla: an item of the root rule has eof as lookahead. sd_zero / sd_nonzero are why the index s is a parameter:
   state 0 is the one state whose kernel is the root item at dot 0; every other kernel has dots > 0 only, and no
   other state holds the root rule at dot 0. *)
Record st_disc (g : grammar) (s : nat) (st : lrstate) : Prop := {
  sd_nodup : NoDup (st_all st);
  sd_ok : forall i, In i (st_all st) -> item_okP g i;
  sd_rootla : forall i, In i (st_all st) -> it_r i = root_rule_idx g -> it_t i = eof_idx g;
  sd_ker_all : forall i, In i (st_kernel st) -> In i (st_all st);
  sd_dot_ker : forall i, In i (st_all st) -> it_d i <> 0 -> In i (st_kernel st);
  sd_zero : s = 0 -> st_kernel st = [root_item g] /\ forall i, In i (st_all st) -> it_d i = 0;
  sd_nonzero : s <> 0 -> (forall i, In i (st_kernel st) -> it_d i <> 0) /\
                         (forall i, In i (st_all st) -> it_d i = 0 -> it_r i <> root_rule_idx g)
}.
Definition all_disc (g : grammar) (sts : list lrstate) : Prop :=
  forall s, s < length sts -> st_disc g s (stn sts s).

(* i is the index of the head of sts in the whole list, found the last hit before it: the loop does not break, so the
   last state with the kernel wins *)
Lemma find_kernel_some sts k : forall i found idx, find_kernel sts k i found = Some idx ->
  found = Some idx \/
  (i <= idx < i + length sts /\ same_items (st_kernel (nth (idx - i) sts (mkSt [] []))) k = true).
Proof.
  induction sts as [|s t IH]; intros i found idx H; cbn in H; [left; assumption|].
  apply IH in H. destruct H as [H|[H1 H2]].
  - destruct (same_items (st_kernel s) k) eqn:E; [|left; assumption].
    inversion H; subst. right. split; [cbn; lia|]. rewrite Nat.sub_diag. exact E.
  - right. split; [cbn; lia|]. replace (idx - i) with (S (idx - S i)) by lia. exact H2.
Qed.

(* [kd g col] is [entry_kind g col KShift] of Spec/Conflict.v: the two are convertible *)
Definition kd (g : grammar) (col : nat) : kind :=
  if Nat.eqb col (nterm_count g + err_idx g) then KShiftErr else KShift.

Definition do_shift (g : grammar) (lim : limits) (cur col : nat) (sts : list lrstate) (tb : table)
           (k : list item) (sr : bool) : (list lrstate * table) + gen_error :=
  let '(idx, sts1, err) :=
    match find_kernel sts k 0 None with
    | Some i => (i, sts, false)
    | None => (length sts, sts ++ [mkSt [] []], Nat.ltb (state_cap lim) (S (length sts)))
    end in
  if err then inr StateCapExceeded else
  let old := nth idx sts1 (mkSt [] []) in
  let new_all := fold_left add_item k (st_all old) in
  let new_ker := fold_left (fun acc x => if mem_item x (st_all old) then acc else add_item acc x) k (st_kernel old) in
  if Nat.ltb (sit_cap lim) (length new_all) then inr VectorCapExceeded else
  inl (update sts1 idx (mkSt new_all new_ker), set_cell tb cur col (mkE (kd g col) (Some idx) sr)).

Lemma kd_goto_target g tbl s x idx :
  sym_ok g x = true ->
  e_kind (cell_at tbl s (sym_col g x)) = kd g (sym_col g x) ->
  e_arg (cell_at tbl s (sym_col g x)) = Some idx ->
  goto_target g tbl s x = Some idx.
Proof.
  intros Hsx Hk Ea. unfold goto_target. rewrite Hk, Ea. unfold kd. destruct x as [t|n]; cbn [sym_col sym_ok] in *.
  - assert (Nat.eqb (nterm_count g + t) (nterm_count g + err_idx g) = Nat.eqb t (err_idx g)) as ->.
    { destruct (Nat.eqb_spec t (err_idx g)) as [->|Hne]; [apply Nat.eqb_refl|apply Nat.eqb_neq; lia]. }
    destruct (Nat.eqb t (err_idx g)); reflexivity.
  - apply Nat.ltb_lt in Hsx.
    assert (Nat.eqb n (nterm_count g + err_idx g) = false) as -> by (apply Nat.eqb_neq; lia). reflexivity.
Qed.

(* the entry written for a scan result that is not a shift; GenResolvedInv.cell_rec records the cell in this form *)
Definition nonshift_entry (S : scan) : entry :=
  match sc_kind S with
  | KReduce => mkE KReduce (sc_red S) (sc_has_shift S)
  | k => mkE k None (sc_sr S)
  end.

Lemma nonshift_entry_kind Sc : e_kind (nonshift_entry Sc) = sc_kind Sc.
Proof. unfold nonshift_entry. destruct (sc_kind Sc) eqn:E; cbn; congruence. Qed.

Lemma nonshift_entry_reduce Sc : sc_kind Sc = KReduce -> e_arg (nonshift_entry Sc) = sc_red Sc.
Proof. intros E. unfold nonshift_entry. rewrite E. reflexivity. Qed.

Lemma do_transitions_eq g lim cur col sts tb :
  do_transitions g lim cur col sts tb =
  match bucket g (st_all (stn sts cur)) col with
  | [] => inl (sts, tb)
  | _ =>
      let s := scan_cell g (bucket g (st_all (stn sts cur)) col) scan0 in
      match sc_kind s with
      | KShift => do_shift g lim cur col sts tb (sc_kernel s) (sc_sr s)
      | _ => inl (sts, set_cell tb cur col (nonshift_entry s))
      end
  end.
Proof.
  unfold do_transitions, nonshift_entry. fold (stn sts cur). destruct (bucket g (st_all (stn sts cur)) col); [reflexivity|].
  cbv zeta. destruct (sc_kind _); reflexivity.
Qed.

Lemma fold_keep_all (all : list item) k : forall ker,
  (forall x, In x k -> In x all) ->
  fold_left (fun acc x => if mem_item x all then acc else add_item acc x) k ker = ker.
Proof.
  induction k as [|x k IH]; intros ker H; cbn; [reflexivity|].
  assert (mem_item x all = true) as -> by (apply mem_item_In; apply H; cbn; auto).
  apply IH. intros; apply H; cbn; auto.
Qed.

Lemma stn_app_l sts e s : s < length sts -> stn (sts ++ e) s = stn sts s.
Proof. intros H. unfold stn. apply app_nth1. assumption. Qed.

Lemma stn_app_last sts st : stn (sts ++ [st]) (length sts) = st.
Proof. unfold stn. rewrite app_nth2 by lia. rewrite Nat.sub_diag. reflexivity. Qed.

(* a state as a transition creates it: the kernel [K] without repetitions, and nothing else yet *)
Definition kstate (K : list item) : lrstate := mkSt (fold_left add_item K []) (fold_left add_item K []).

Lemma kstate_In K j : In j (st_all (kstate K)) <-> In j K.
Proof. cbn [kstate st_all]. rewrite fold_add_item_In. cbn. tauto. Qed.

(* what an item offered as kernel of a state other than 0 must bring along for the state to satisfy st_disc *)
Definition kitem_ok (g : grammar) (j : item) : Prop :=
  it_d j <> 0 /\ item_okP g j /\ (it_r j = root_rule_idx g -> it_t j = eof_idx g).

Section Shift.
  Variable g : grammar.
  Hypothesis WF : wf_facts g.

  (* the shift branch either finds a state with the kernel [K], and then changes no state, or appends [kstate K] *)
  Lemma do_shift_cases lim cur col sts tb K sr sts' tb' :
    all_disc g sts -> K <> [] -> (forall j, In j K -> kitem_ok g j) ->
    do_shift g lim cur col sts tb K sr = inl (sts', tb') ->
    exists idx, tb' = set_cell tb cur col (mkE (kd g col) (Some idx) sr) /\
      ((sts' = sts /\ idx < length sts /\ idx <> 0 /\ forall j, In j (st_kernel (stn sts idx)) <-> In j K) \/
       (sts' = sts ++ [kstate K] /\ idx = length sts /\ S (length sts) <= state_cap lim)).
  Proof.
    intros Hd HK HKok H. unfold do_shift in H.
    destruct (find_kernel sts K 0 None) as [idx|] eqn:Ef.
    - apply find_kernel_some in Ef. destruct Ef as [Ef|[Hidx Hsame]]; [discriminate|].
      rewrite Nat.sub_0_r in Hsame. fold (stn sts idx) in Hsame, H.
      pose proof (proj1 (same_items_iff _ _) Hsame) as Hiff.
      assert (idx < length sts) as Hlt by lia.
      pose proof (Hd idx Hlt) as D.
      assert (forall x, In x K -> In x (st_all (stn sts idx))) as Hsub.
      { intros x Hx. apply (sd_ker_all _ _ _ D). apply Hiff. assumption. }
      rewrite (fold_add_subset K _ Hsub) in H. rewrite (fold_keep_all _ K _ Hsub) in H.
      assert (mkSt (st_all (stn sts idx)) (st_kernel (stn sts idx)) = stn sts idx) as Eeta
          by (destruct (stn sts idx); reflexivity).
      rewrite Eeta in H. unfold stn in H at 2. rewrite update_nth_same in H.
      destruct (Nat.ltb _ _); [discriminate|]. inversion H; subst sts' tb'. clear H.
      exists idx. split; [reflexivity|]. left. split; [reflexivity|]. split; [assumption|]. split; [|exact Hiff].
      intros ->. destruct (sd_zero _ _ _ D eq_refl) as (Ek & _).
      destruct K as [|x K]; [congruence|].
      assert (In x (st_kernel (stn sts 0))) as Hx by (apply Hiff; cbn; auto).
      rewrite Ek in Hx. destruct Hx as [<-|[]]. destruct (HKok (root_item g) (or_introl eq_refl)) as (Hc & _).
      apply Hc. reflexivity.
    - destruct (Nat.ltb (state_cap lim) (S (length sts))) eqn:Ecap; [discriminate|].
      apply Nat.ltb_ge in Ecap.
      assert (nth (length sts) (sts ++ [mkSt [] []]) (mkSt [] []) = mkSt [] []) as Eold
          by (apply (stn_app_last sts (mkSt [] []))).
      rewrite Eold in H. cbn [st_all st_kernel] in H.
      destruct (Nat.ltb _ _); [discriminate|].
      rewrite update_app_last in H. inversion H; subst sts' tb'.
      exists (length sts). split; [reflexivity|]. right. auto.
  Qed.

End Shift.

(* the state does not hide an accept/reduce conflict (D12): not both the completed root item and a completed item of
   another rule with lookahead eof. GenCorrect.accept_clean asks it of every state. *)
Definition st_clean (g : grammar) (its : list item) : bool :=
  negb (existsb (fun i => Nat.eqb (it_r i) (root_rule_idx g) && is_complete g i) its
        && existsb (fun i => negb (Nat.eqb (it_r i) (root_rule_idx g)) && is_complete g i && Nat.eqb (it_t i) (eof_idx g)) its).

Section Cells.
  Variable g : grammar.
  Hypothesis WF : wf_facts g.

  Lemma bucket_In its c i : In i (bucket g its c) <-> In i its /\ bucket_of g i = c.
  Proof. unfold bucket. rewrite filter_In, Nat.eqb_eq. tauto. Qed.

  Lemma bucket_complete i : is_complete g i = true -> bucket_of g i = nterm_count g + it_t i.
  Proof. intros Hc. unfold bucket_of. rewrite Hc. destruct (next_sym g i); reflexivity. Qed.

  Lemma bucket_incomplete i : item_okP g i -> is_complete g i = false ->
    exists x, next_sym g i = Some x /\ bucket_of g i = sym_col g x.
  Proof.
    intros Oi Hc. unfold bucket_of. rewrite Hc. destruct (next_sym g i) as [x|] eqn:En.
    - exists x. auto.
    - apply (next_sym_complete g WF i Oi) in En. congruence.
  Qed.

  Lemma is_root_item_iff i : item_okP g i -> (is_root_item g i = true <-> it_r i = root_rule_idx g).
  Proof.
    intros (Hr & _). unfold is_root_item. rewrite Nat.eqb_eq. split.
    - intros E. apply (wf_distinct _ WF); [assumption|apply wf_root_lt; assumption|].
      rewrite (wf_root_r _ WF). assumption.
    - intros ->. apply (wf_root_r _ WF).
  Qed.

  Lemma adv_ok i : item_okP g i -> is_complete g i = false -> item_okP g (adv i).
  Proof.
    intros (Hr & Hd & Ht) Hc. unfold is_complete in Hc. apply Nat.leb_gt in Hc.
    unfold item_okP, adv; cbn. repeat split; auto.
  Qed.

  Lemma st_clean_root its i j : st_clean g its = true ->
    In i its -> it_r i = root_rule_idx g -> is_complete g i = true ->
    In j its -> is_complete g j = true -> it_t j = eof_idx g -> it_r j = root_rule_idx g.
  Proof.
    unfold st_clean. intros H Hi Ei Ci Hj Cj Ej. apply negb_true_iff in H. apply andb_false_iff in H.
    destruct H as [H|H].
    - pose proof (existsb_false_all _ _ H i Hi) as Hf. cbn in Hf. rewrite Ei, Nat.eqb_refl, Ci in Hf. discriminate.
    - pose proof (existsb_false_all _ _ H j Hj) as Hf. cbn in Hf. rewrite Cj, Ej, Nat.eqb_refl in Hf.
      rewrite !andb_true_r in Hf. apply negb_false_iff in Hf. apply Nat.eqb_eq. assumption.
  Qed.

  Section OneState.
    Variable s : nat.
    Variable st : lrstate.
    Hypothesis D : st_disc g s st.
    Variable c : nat.
    Let its := st_all st.
    Let B := bucket g its c.

    Lemma B_in i : In i B -> In i its /\ item_okP g i /\ bucket_of g i = c.
    Proof.
      intros H. apply bucket_In in H. destruct H as [H1 H2]. split; [assumption|]. split; [|assumption].
      apply (sd_ok _ _ _ D). assumption.
    Qed.

    (* the bucket of the completed root item contains nothing else *)
    Lemma root_bucket i : st_clean g its = true ->
      In i B -> is_complete g i = true -> it_r i = root_rule_idx g ->
      forall j, In j B -> is_complete g j = true /\ it_r j = root_rule_idx g.
    Proof.
      intros Hcl Hi Ci Ri j Hj.
      destruct (B_in i Hi) as (Ii & Oi & Bi). destruct (B_in j Hj) as (Ij & Oj & Bj).
      rewrite (bucket_complete i Ci), (sd_rootla _ _ _ D i Ii Ri) in Bi.
      destruct (is_complete g j) eqn:Cj.
      - split; [reflexivity|]. rewrite (bucket_complete j Cj) in Bj.
        apply (st_clean_root its i j Hcl Ii Ri Ci Ij Cj). lia.
      - exfalso. destruct (bucket_incomplete j Oj Cj) as (x & Hx & Ex). rewrite Ex in Bj.
        destruct (next_sym_ok g WF j x Oj Hx) as (Hs & _ & Hne).
        destruct x as [t|n]; cbn in Bj, Hs.
        + apply Hne. f_equal. lia.
        + apply Nat.ltb_lt in Hs. lia.
    Qed.

    Lemma term_bucket t : c = nterm_count g + t -> in_term_bucket g t B.
    Proof.
      intros ->. apply bucket_in_term_bucket.
      - intros i Hi. apply (item_n_length g WF i), (sd_ok _ _ _ D i Hi).
      - intros i j Hi Hn. destruct (next_sym_ok g WF i (NT j) (sd_ok _ _ _ D i Hi) Hn) as (Hsx%Nat.ltb_lt & _). exact Hsx.
    Qed.

    Lemma nt_bucket i : c < nterm_count g -> In i B -> is_complete g i = false.
    Proof.
      intros Hc Hi. destruct (B_in i Hi) as (_ & _ & Bi). destruct (is_complete g i) eqn:Ci; [|reflexivity].
      rewrite (bucket_complete i Ci) in Bi. lia.
    Qed.

    (* Whatever the column, the scan of its bucket has one of the three outcomes of Proofs/CellResolve.v: a column of
       a nonterminal holds shift items only, and there the scan runs to the end. For such a column the terminal
       c - nterm_count g is 0 and means nothing: cell_summary reads its terminal only through sr_choice, that is when
       the bucket has a reduce item. *)
    Lemma bucket_scan_outcome : scan_outcome g (c - nterm_count g) B (scan_cell g B scan0).
    Proof.
      destruct (Nat.lt_ge_cases c (nterm_count g)) as [Hlt|Hge]; [|apply scan_cell_characterisation, term_bucket; lia].
      pose proof (fun i => nt_bucket i Hlt) as Hinc.
      rewrite (scan_shift_summary g (c - nterm_count g) B Hinc). apply SO_all. split.
      - intros i Hi. unfold root_complete. rewrite (Hinc i Hi). reflexivity.
      - rewrite reduce_items_none by assumption. cbn. lia.
    Qed.

    Lemma scan_kernel_adv j : In j (sc_kernel (scan_cell g B scan0)) ->
      exists i, In i B /\ is_complete g i = false /\ j = adv i.
    Proof.
      destruct bucket_scan_outcome as [_|pre i0 post (E & _)|pre i0 post (E & _)]; cbn [with_kind sc_kernel cell_summary cell_state];
        intros (i & Hi & H)%target_kernel_In; exists i; (split; [|exact H]); [exact Hi| |]; rewrite E; apply in_or_app; auto.
    Qed.

    (* only a scan that ran to the end can be a shift, and then the bucket has a shift item *)
    Lemma scan_kshift_kernel : sc_kind (scan_cell g B scan0) = KShift -> sc_kernel (scan_cell g B scan0) <> [].
    Proof.
      destruct bucket_scan_outcome as [_|pre i0 post _|pre i0 post _]; [|discriminate..].
      rewrite cell_summary_eq. cbn [cell_state sc_kind sc_kernel]. unfold target_kernel.
      destruct (shift_items g B) as [|j Sh]; [|discriminate].
      unfold cell_kind. destruct (option_map _ _); discriminate.
    Qed.

    Lemma scan_kernel_ok j : In j (sc_kernel (scan_cell g B scan0)) -> kitem_ok g j.
    Proof.
      intros (i & Hi & Ci & ->)%scan_kernel_adv.
      destruct (B_in i Hi) as (Ii & Oi & _). unfold kitem_ok. split; [cbn; lia|]. split; [apply adv_ok; assumption|].
      cbn. intros E. apply (sd_rootla _ _ _ D i Ii E).
    Qed.
  End OneState.
End Cells.
