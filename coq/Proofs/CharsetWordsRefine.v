(* Word-level twins of the model's character sets (Model/Dfa.v: charset = list bool, mirror of regex::char_subset,
   a cbitset<256>) on the cbitset mirror of Model/Containers.v, with refinement theorems: the words of the C++
   bitset, abstracted with cb_abs, are the model's 256 booleans after every char_subset operation. *)
From Ctpg Require Import Base.Prelude Model.Dfa Model.Containers Proofs.ContainersBits.
From Coq Require Import NArith Lia List Bool.
Import ListNotations.

Definition w_cs_empty : cbitset := cb_new 256.
Definition w_cs_single (c : nat) : res cbitset := cb_set w_cs_empty (N.of_nat c).
Definition w_cs_flip (b : cbitset) : cbitset := cb_flip_all b.
Definition w_cs_add_range (b : cbitset) (c1 c2 : nat) : res cbitset :=
  fold_left (fun acc i => match acc with Ok x => cb_set x (N.of_nat i) | r => r end) (seq c1 (S c2 - c1)) (Ok b).

Definition cs_rel (b : cbitset) (s : charset) : Prop := cb_wf b /\ cb_n b = 256%N /\ cb_abs b = s.

Lemma n256 : 256%N = N.of_nat 256.
Proof. reflexivity. Qed.

Theorem w_cs_empty_rel : cs_rel w_cs_empty cs_empty.
Proof.
  unfold cs_rel, w_cs_empty, cs_empty. split; [apply cb_new_wf |]. split; [reflexivity |].
  rewrite cb_abs_new. reflexivity.
Qed.

Lemma w_cs_set_rel : forall b s c, cs_rel b s -> c < 256 ->
  exists b', cb_set b (N.of_nat c) = Ok b' /\ cs_rel b' (update s c true).
Proof.
  intros b s c [Hwf [Hn Habs]] Hc.
  destruct (cb_set_nat b c 256 Hwf Hn Hc) as (b' & Hs & Hwf' & Hn' & _ & _ & Ha').
  exists b'. split; [exact Hs |]. split; [exact Hwf' |]. split; [exact Hn' |].
  rewrite Ha', Habs. reflexivity.
Qed.

Theorem w_cs_single_rel : forall c, c < 256 -> exists b, w_cs_single c = Ok b /\ cs_rel b (cs_single c).
Proof.
  intros c Hc. unfold w_cs_single, cs_single. apply w_cs_set_rel; [apply w_cs_empty_rel | exact Hc].
Qed.

Theorem w_cs_flip_rel : forall b s, cs_rel b s -> cs_rel (w_cs_flip b) (cs_flip s).
Proof.
  intros b s [Hwf [Hn Habs]]. unfold w_cs_flip, cs_flip.
  split; [apply (cb_step_spec b BFlipAll); exact Hwf |]. split; [exact Hn |].
  rewrite cb_abs_flip_all by exact Hwf. rewrite Habs. reflexivity.
Qed.

Theorem w_cs_add_range_rel : forall b s c1 c2, cs_rel b s -> c2 < 256 ->
  exists b', w_cs_add_range b c1 c2 = Ok b' /\ cs_rel b' (cs_add_range s c1 c2).
Proof.
  intros b s c1 c2 Hr Hc. unfold w_cs_add_range, cs_add_range.
  assert (Hl : Forall (fun i => i < 256) (seq c1 (S c2 - c1))).
  { apply Forall_forall. intros i Hi. apply in_seq in Hi. lia. }
  revert b s Hr. induction Hl as [| i l Hi _ IH]; intros b s Hr.
  - exists b. split; [reflexivity | exact Hr].
  - destruct (w_cs_set_rel b s i Hr Hi) as [b1 [Hs1 Hr1]]. cbn [fold_left]. rewrite Hs1. apply IH. exact Hr1.
Qed.

Theorem w_cs_test_rel : forall b s c, cs_rel b s -> c < 256 -> cb_test b (N.of_nat c) = Ok (nth c s false).
Proof.
  intros b s c [Hwf [Hn Habs]] Hc. rewrite (cb_test_nat b c 256 Hn Hc). rewrite Habs. reflexivity.
Qed.

(* utils::char_to_idx keeps every index below 256, so this never happens *)
Theorem w_cs_out_of_range_throws : forall b s c, cs_rel b s -> 256 <= c -> cb_set b (N.of_nat c) = Throw.
Proof.
  intros b s c [Hwf [Hn Habs]] Hc. unfold cb_set. apply cb_upd_throw. rewrite Hn. lia.
Qed.

Theorem w_cs_test_out_of_range_throws : forall b s c, cs_rel b s -> 256 <= c -> cb_test b (N.of_nat c) = Throw.
Proof.
  intros b s c [Hwf [Hn Habs]] Hc. apply cb_test_throws_iff_out_of_range. rewrite Hn. lia.
Qed.

(* the set of "[^a-c]" *)
Definition ex_neg_abc : res cbitset :=
  match w_cs_add_range w_cs_empty 97 99 with Ok b => Ok (w_cs_flip b) | r => r end.

Example ex_neg_abc_words :
  ex_neg_abc = Ok {| cb_n := 256;
                     cb_data := [N.ones 64; (2 ^ 64 - 1 - 2 ^ 33 - 2 ^ 34 - 2 ^ 35)%N; N.ones 64; N.ones 64] |}.
Proof. vm_compute. reflexivity. Qed.

Example ex_neg_abc_abs :
  match ex_neg_abc with Ok b => cb_abs b | _ => [] end = cs_flip (cs_add_range cs_empty 97 99).
Proof. vm_compute. reflexivity. Qed.

(* 'a', 'b', 'c' are out, '`' and 'd' are in; the bytes 0xC8 and 0xFF are members: the whole-set flip is exact on the
   last word (256 is a multiple of 64, no padding bits) *)
Example ex_neg_abc_tests :
  match ex_neg_abc with
  | Ok b => map (fun c => cb_test b (N.of_nat c)) [96; 97; 98; 99; 100; 200; 255; 256]
  | _ => []
  end = [Ok true; Ok false; Ok false; Ok false; Ok true; Ok true; Ok true; Throw].
Proof. vm_compute. reflexivity. Qed.

Print Assumptions w_cs_flip_rel.
Print Assumptions w_cs_add_range_rel.
