(* The pattern scanner (regex_lexer of Model/RegexFront.v) never reads beyond the terminator, and its results are
   in range.
   One inversion lemma per helper; everything else is built on those.
   The bytes: 92 backslash, 120 x, 45 -, 91 [, 93 ], 94 ^; 32 .. 126 are the printable ones. *)
Require Import Ctpg.Base.Prelude Ctpg.Proofs.ListFacts Ctpg.Model.RegexFront Ctpg.Spec.Eval.

Section LexFacts.
  Variable p : list nat.
  Notation E := (length p).
  (* the unchecked read: the byte at i, the terminator 0 at and beyond the end *)
  Definition pr (i : nat) : nat := nth i p 0.

  Lemma e_len : e p = length p. Proof. reflexivity. Qed.

  Lemma rd_le i : i <= E -> rd p i = Some (pr i).
  Proof.
    intros H. unfold rd, pr, RegexFront.e. destruct (Nat.ltb_spec i E) as [Hlt|Hge].
    - apply nth_error_nth'. exact Hlt.
    - assert (i = E) by lia. subst i. rewrite Nat.eqb_refl. rewrite nth_overflow by lia. reflexivity.
  Qed.

  Lemma rd_gt i : E < i -> rd p i = None.
  Proof.
    intros H. unfold rd, RegexFront.e. destruct (Nat.ltb_spec i E); [lia|].
    destruct (Nat.eqb_spec i E); [lia|reflexivity].
  Qed.

  Lemma rd_none i : rd p i = None -> E < i.
  Proof. intros H. destruct (Nat.le_gt_cases i E) as [Hle|Hgt]; [|exact Hgt]. rewrite rd_le in H by assumption. discriminate. Qed.

  Lemma pr_end i : E <= i -> pr i = 0.
  Proof. intros H. unfold pr. apply nth_overflow. exact H. Qed.

  Lemma pr_nz i : pr i <> 0 -> i < E.
  Proof. intros H. destruct (Nat.lt_ge_cases i E); [assumption|]. exfalso. apply H. apply pr_end. assumption. Qed.

  (* rd_step: the first checked read rd p j of the goal becomes Some (pr j), j <= E by lia;
     eqb_step: case split on the first Nat.eqb of the goal *)
  Ltac rd_step := match goal with
    | |- context [rd p ?j] => rewrite (rd_le j) by (unfold RegexFront.e in *; lia)
    end.
  Ltac eqb_step := match goal with
    | |- context [Nat.eqb ?a ?b] => destruct (Nat.eqb_spec a b)
    end.

  Lemma printable_range c : is_printable c = true -> 32 <= c <= 126.
  Proof. apply range_iff. Qed.

  Lemma dec_printable c : is_dec_digit c = true -> is_printable c = true.
  Proof. intros H. apply range_iff in H. apply range_iff. lia. Qed.

  Lemma hex_printable c : is_hex_digit c = true -> is_printable c = true.
  Proof.
    unfold is_hex_digit. intros H. apply orb_true_iff in H as [H|H]; [apply orb_true_iff in H as [H|H]|];
      [apply dec_printable; exact H| |]; apply range_iff in H; apply range_iff; lia.
  Qed.

  (* the terminator is not printable: a printable byte lies before the end *)
  Lemma printable_lt i : is_printable (pr i) = true -> i < E.
  Proof. intros H. apply pr_nz. apply printable_range in H. lia. Qed.

  (* the length of a \x escape at i: 2 + the number of hex digits (at most two) that follow; the terminator is none *)
  Definition xlen (i : nat) : nat :=
    if is_hex_digit (pr (i + 2)) then if is_hex_digit (pr (i + 3)) then 4 else 3 else 2.

  Lemma xlen_bounds i : S i < E -> 2 <= xlen i <= 4 /\ i + xlen i <= E.
  Proof.
    intros H. unfold xlen. destruct (is_hex_digit (pr (i + 2))) eqn:H2; [apply hex_printable, printable_lt in H2|lia].
    destruct (is_hex_digit (pr (i + 3))) eqn:H3; [apply hex_printable, printable_lt in H3|]; lia.
  Qed.

  (* a character unit the scanner accepts at i: one printable byte other than '\', or an escape *)
  Inductive unit_at (i : nat) : nat -> Prop :=
  | UPlain : i < E -> pr i <> 92 -> is_printable (pr i) = true -> unit_at i 1
  | UEsc : pr i = 92 -> S i < E -> pr (S i) <> 120 -> is_printable (pr (S i)) = true -> unit_at i 2
  | UHex : pr i = 92 -> S i < E -> pr (S i) = 120 -> unit_at i (xlen i).

  Lemma unit_at_bounds i l : unit_at i l -> 0 < l <= 4 /\ i + l <= E.
  Proof. intros [H1 H2 H3|H1 H2 H3 H4|H1 H2 H3]; try lia. apply xlen_bounds in H2. lia. Qed.

  (* what a helper called inside the pattern returns: no over-read, and with [true] a length of which P holds *)
  Definition returns (P : nat -> Prop) (r : lres) : Prop :=
    match r with LOver => False | LOk false _ => True | LOk true l => P l end.

  Lemma returns_no_over P r : returns P r -> r <> LOver.
  Proof. intros H Hr. rewrite Hr in H. exact H. Qed.

  Lemma returns_true P r l : returns P r -> r = LOk true l -> P l.
  Proof. intros H Hr. rewrite Hr in H. exact H. Qed.

  Lemma match_escaped_inv i l0 : i <= E ->
    returns (fun l => if Nat.eqb (pr i) 92 then unit_at i l else l = l0) (match_escaped p i l0).
  Proof.
    intros Hi. unfold match_escaped. rd_step. eqb_step; [|exact eq_refl].
    assert (Hlt : i < E) by (apply pr_nz; lia).
    unfold RegexFront.e. eqb_step; [exact I|].
    rd_step. eqb_step; [|destruct (is_printable (pr (S i))) eqn:Hp; [apply UEsc; auto; lia|exact I]].
    (* every exit of the hex part is [xlen i]: the tests at the end agree with the terminator not being a hex digit *)
    generalize (UHex i ltac:(assumption) ltac:(lia) ltac:(assumption)). unfold xlen.
    eqb_step; [rewrite (pr_end (i + 2)) by lia; exact id|].
    rd_step. destruct (is_hex_digit (pr (i + 2))); cbn [negb]; [|exact id].
    eqb_step; [rewrite (pr_end (i + 3)) by lia; exact id|].
    rd_step. destruct (is_hex_digit (pr (i + 3))); exact id.
  Qed.

  Lemma match_escaped_no_over i l0 : i <= E -> match_escaped p i l0 <> LOver.
  Proof. intros Hi. exact (returns_no_over _ _ (match_escaped_inv i l0 Hi)). Qed.

  (* match_escaped_inv in the shape of its callers' test: they pass the length 0 in and learn from rl = 0 that there was
     no backslash *)
  Lemma esc_unit k : k <= E ->
    match match_escaped p k 0 with
    | LOver => False
    | LOk false _ => True
    | LOk true rl => if Nat.eqb rl 0 then pr k <> 92 else (pr k = 92 /\ unit_at k rl)
    end.
  Proof.
    intros Hk. pose proof (match_escaped_inv k 0 Hk) as H. destruct (match_escaped p k 0) as [[|] rl|]; [|exact I|exact H].
    cbn [returns] in H. destruct (Nat.eqb_spec (pr k) 92) as [H92|H92]; [|subst rl; exact H92].
    pose proof (unit_at_bounds _ _ H) as Hb. destruct (Nat.eqb_spec rl 0); [lia|auto].
  Qed.

  (* an item of a set: a unit, or unit - unit *)
  Inductive item_at (i : nat) : nat -> Prop :=
  | ItSingle l1 : unit_at i l1 -> pr (i + l1) <> 45 -> item_at i l1
  | ItRange l1 rl : unit_at i l1 -> pr (i + l1) = 45 -> S (i + l1) < E -> pr (S (i + l1)) <> 93 ->
                    unit_at (S (i + l1)) rl -> item_at i (l1 + 1 + rl).

  Lemma match_range_item_inv i : i <= E -> returns (item_at i) (match_range_item p i).
  Proof.
    intros Hi. unfold match_range_item. pose proof (esc_unit i Hi) as H.
    destruct (match_escaped p i 0) as [[|] l|]; [|exact I|contradiction].
    (* the first unit: an escape, or one printable byte *)
    set (r1 := if Nat.eqb l 0 then _ else _).
    assert (Hu : returns (unit_at i) r1).
    { subst r1. destruct (Nat.eqb l 0); [|apply H].
      rd_step. destruct (is_printable (pr i)) eqn:Hp; [|exact I].
      apply UPlain; auto using printable_lt. }
    clearbody r1. destruct r1 as [[|] l1|]; [|exact I|contradiction]. clear H. cbn [returns] in Hu.
    (* what follows it: nothing, or '-' and a second unit *)
    pose proof (unit_at_bounds _ _ Hu) as Hb. cbv zeta.
    rd_step. eqb_step; [|apply ItSingle; assumption].
    assert (Hlt : i + l1 < E) by (apply pr_nz; lia).
    unfold RegexFront.e. eqb_step; [exact I|].
    rd_step. eqb_step; [exact I|].
    pose proof (esc_unit (S (i + l1)) ltac:(lia)) as He.
    destruct (match_escaped p (S (i + l1)) 0) as [[|] rl|]; [|exact I|contradiction].
    destruct (Nat.eqb_spec rl 0) as [Hrl|Hrl].
    - subst rl. destruct (is_printable (pr (S (i + l1)))) eqn:Hp; [|exact I].
      replace (S (S l1)) with (l1 + 1 + 1) by lia. apply ItRange; auto; try lia.
      apply UPlain; auto. lia.
    - replace (S l1 + rl) with (l1 + 1 + rl) by lia. apply ItRange; auto; try lia. tauto.
  Qed.

  Lemma match_range_item_no_over i : i <= E -> match_range_item p i <> LOver.
  Proof. intros Hi. exact (returns_no_over _ _ (match_range_item_inv i Hi)). Qed.

  Lemma item_true i il : i <= E -> match_range_item p i = LOk true il -> item_at i il.
  Proof. intros Hi. exact (returns_true _ _ _ (match_range_item_inv i Hi)). Qed.

  Lemma item_true_bounds i il : i <= E -> match_range_item p i = LOk true il -> 0 < il /\ i + il <= E.
  Proof.
    intros Hi H. destruct (item_true i il Hi H) as [l1 Hu Hn|l1 rl Hu H45 Hlt H93 Hu2].
    - apply unit_at_bounds in Hu. lia.
    - apply unit_at_bounds in Hu. apply unit_at_bounds in Hu2. lia.
  Qed.

  (* from i the loop accepts items up to the closing ']' at k *)
  Inductive items_to : nat -> nat -> Prop :=
  | ItsEnd i : i < E -> pr i = 93 -> items_to i i
  | ItsStep i il k : i < E -> pr i <> 93 -> match_range_item p i = LOk true il -> items_to (i + il) k -> items_to i k.

  Lemma items_to_bounds i k : items_to i k -> i <= k /\ k < E /\ pr k = 93.
  Proof.
    induction 1 as [i H1 H2|i il k H1 H2 H3 H4 IH]; [lia|].
    apply item_true_bounds in H3; lia.
  Qed.

  (* the loop: no over-read, and with [true] the items up to the closing bracket (one induction for both) *)
  Lemma range_items_inv f : forall i len, i <= E ->
    returns (fun L => exists k, items_to i k /\ L = len + (k - i) + 1) (range_items p f i len).
  Proof.
    induction f as [|f IH]; intros i len Hi; cbn [range_items]; [exact I|].
    unfold RegexFront.e. eqb_step; [exact I|]. rd_step. eqb_step.
    - exists i. split; [apply ItsEnd; [lia|assumption]|lia].
    - pose proof (match_range_item_no_over i Hi) as Hno.
      destruct (match_range_item p i) as [[|] il|] eqn:Hit; [|exact I|contradiction].
      eqb_step; [exact I|]. pose proof (item_true_bounds i il Hi Hit) as Hb.
      specialize (IH (i + il) (len + il) ltac:(lia)).
      destruct (range_items p f (i + il) (len + il)) as [[|] L|]; [|exact I|exact IH].
      destruct IH as (k & Hk & ->). exists k. split; [eapply ItsStep; eauto; lia|].
      apply items_to_bounds in Hk. lia.
  Qed.

  Lemma range_items_no_over f i len : i <= E -> range_items p f i len <> LOver.
  Proof. intros Hi. exact (returns_no_over _ _ (range_items_inv f i len Hi)). Qed.

  (* the fuel never runs out: any fuel above the remaining length gives the same answer *)
  Lemma range_items_fuel f1 : forall f2 i len, i <= E -> E - i < f1 -> E - i < f2 ->
    range_items p f1 i len = range_items p f2 i len.
  Proof.
    induction f1 as [|f1 IH]; intros f2 i len Hi H1 H2; [lia|]. destruct f2 as [|f2]; [lia|].
    cbn [range_items]. unfold RegexFront.e. eqb_step; [reflexivity|]. rd_step. eqb_step; [reflexivity|].
    destruct (match_range_item p i) as [[|] il|] eqn:Hit; try reflexivity.
    eqb_step; [reflexivity|]. pose proof (item_true_bounds i il Hi Hit) as Hb.
    apply IH; lia.
  Qed.

  (* the length of the opening of a set: [^ or [ *)
  Definition set_hd (i : nat) : nat := if Nat.eqb (pr (S i)) 94 then 2 else 1.

  Lemma set_hd_cases i : (pr (S i) = 94 /\ set_hd i = 2) \/ (pr (S i) <> 94 /\ set_hd i = 1).
  Proof. unfold set_hd. destruct (Nat.eqb_spec (pr (S i)) 94); auto. Qed.

  Lemma set_hd_bounds i : 1 <= set_hd i <= 2.
  Proof. destruct (set_hd_cases i) as [[_ ->]|[_ ->]]; lia. Qed.

  (* a set at i: the length reaches behind the closing bracket; no '[' at i leaves the length 0 *)
  Lemma match_range_inv i : i <= E ->
    returns (fun l => if Nat.eqb l 0 then pr i <> 91
                     else pr i = 91 /\ exists k, items_to (i + set_hd i) k /\ l = S k - i) (match_range p i).
  Proof.
    intros Hi. unfold match_range. rd_step. eqb_step; [|assumption].
    assert (Hlt : i < E) by (apply pr_nz; lia).
    unfold RegexFront.e. eqb_step; [exact I|]. rd_step.
    replace (if Nat.eqb (pr (S i)) 94 then (i + 2, 2) else (S i, 1)) with (i + set_hd i, set_hd i)
      by (unfold set_hd; destruct (Nat.eqb (pr (S i)) 94); f_equal; lia).
    pose proof (set_hd_bounds i) as Hs.
    eqb_step; [exact I|].
    assert (Hle : i + set_hd i <= E) by lia.
    pose proof (range_items_inv (S E) (i + set_hd i) (set_hd i) Hle) as Hr.
    destruct (range_items p (S E) (i + set_hd i) (set_hd i)) as [[|] L|]; [|exact I|contradiction].
    destruct Hr as (k & Hk & HL).
    pose proof (items_to_bounds _ _ Hk) as Hb. cbn [returns].
    destruct (Nat.eqb_spec L 0); [lia|]. split; [assumption|]. exists k. split; [assumption|lia].
  Qed.

  Lemma match_range_no_over i : i <= E -> match_range p i <> LOver.
  Proof. intros Hi. exact (returns_no_over _ _ (match_range_inv i Hi)). Qed.

  (* the lexemes of term 1 (regex_primary) *)
  Inductive prim_at (i : nat) : nat -> Prop :=
  | PrEsc l : pr i = 92 -> unit_at i l -> prim_at i l
  | PrSet k : pr i = 91 -> items_to (i + set_hd i) k -> prim_at i (S k - i)
  | PrChar : i < E -> pr i <> 92 -> pr i <> 91 -> is_printable (pr i) = true -> prim_at i 1.

  Lemma match_primary_inv i : i <= E -> returns (prim_at i) (match_primary p i).
  Proof.
    intros Hi. unfold match_primary. pose proof (esc_unit i Hi) as He.
    destruct (match_escaped p i 0) as [[|] l|]; [|exact I|exact He].
    destruct (Nat.eqb_spec l 0) as [Hl|Hl]; cbn [negb]; [|apply PrEsc; tauto].
    subst l. cbn [Nat.eqb] in He.
    pose proof (match_range_inv i Hi) as Hr.
    destruct (match_range p i) as [[|] l2|]; [|exact I|exact Hr]. cbn [returns] in Hr.
    destruct (Nat.eqb l2 0); cbn [negb].
    - rd_step. destruct (is_printable (pr i)) eqn:Hp; [|exact I].
      apply PrChar; auto using printable_lt.
    - destruct Hr as (H91 & k & Hk & ->). apply PrSet; assumption.
  Qed.

  Lemma prim_at_bounds i l : prim_at i l -> 0 < l /\ i + l <= E.
  Proof.
    intros [l' H1 H2|k H1 H3|H1 H2 H3 H4].
    - apply unit_at_bounds in H2. lia.
    - apply items_to_bounds in H3. pose proof (set_hd_bounds i). lia.
    - lia.
  Qed.

  Lemma match_primary_no_over i : i <= E -> match_primary p i <> LOver.
  Proof. intros Hi. exact (returns_no_over _ _ (match_primary_inv i Hi)). Qed.

  (* the eight operator bytes: a finite table, looked through below 126; above it the match falls through *)
  Lemma special_inv c t : special c = Some t -> 2 <= t <= 9 /\ is_printable c = true.
  Proof.
    intros H. destruct (Nat.lt_ge_cases c 126) as [Hlt|Hge].
    - assert (Hall : forallb (fun c => match special c with
                                       | Some t => Nat.leb 2 t && Nat.leb t 9 && is_printable c
                                       | None => true end) (seq 0 126) = true) by (vm_compute; reflexivity).
      rewrite forallb_forall in Hall. specialize (Hall c ltac:(apply in_seq; lia)). rewrite H in Hall.
      apply andb_true_iff in Hall as [Ht Hp]. apply range_iff in Ht. auto.
    - exfalso. replace c with (126 + (c - 126)) in H by lia. cbn in H. discriminate.
  Qed.

  (* the token the scanner delivers at i *)
  Inductive tok_at (i : nat) : nat -> nat -> Prop :=
  | TkSpecial t : i < E -> special (pr i) = Some t -> tok_at i t 1
  | TkDigit : i < E -> special (pr i) = None -> is_dec_digit (pr i) = true -> tok_at i 0 1
  | TkPrim l : i < E -> special (pr i) = None -> is_dec_digit (pr i) = false -> prim_at i l -> tok_at i 1 l.

  Lemma lex_at_inv i :
    match lex_at p i with TokNone => True | TokOver => False | Tok t len => tok_at i t len end.
  Proof.
    unfold lex_at, RegexFront.e. destruct (Nat.leb_spec E i) as [Hge|Hlt]; [exact I|].
    rd_step. destruct (special (pr i)) as [t|] eqn:Hs; [apply TkSpecial; assumption|].
    destruct (is_dec_digit (pr i)) eqn:Hd; [apply TkDigit; assumption|].
    pose proof (match_primary_inv i ltac:(lia)) as H.
    destruct (match_primary p i) as [[|] l|]; [|exact I|contradiction].
    apply TkPrim; assumption.
  Qed.

  Lemma lex_at_tok i t len : lex_at p i = Tok t len -> tok_at i t len.
  Proof. intros H. pose proof (lex_at_inv i) as Hc. rewrite H in Hc. exact Hc. Qed.

  Theorem lex_at_no_over i : lex_at p i <> TokOver.
  Proof. intros H. pose proof (lex_at_inv i) as Hc. rewrite H in Hc. exact Hc. Qed.

  Theorem lex_at_in_range i t len : lex_at p i = Tok t len -> 0 < len /\ i + len <= E /\ t < 10.
  Proof.
    intros H. destruct (lex_at_tok _ _ _ H) as [t' H1 H2|H1 H2 H3|l H1 H2 H3 H4].
    - apply special_inv in H2. lia.
    - lia.
    - apply prim_at_bounds in H4. lia.
  Qed.

  Lemma lex_at_tok1 i len : lex_at p i = Tok 1 len -> prim_at i len.
  Proof.
    intros H. apply lex_at_tok in H. inversion H as [t' H1 H2| |l H1 H2 H3 H4]; [|assumption].
    apply special_inv in H2. lia.
  Qed.

  Lemma lex_at_set i t len : lex_at p i = Tok t len -> pr i = 91 ->
    t = 1 /\ exists k, items_to (i + set_hd i) k /\ len = S k - i.
  Proof.
    intros H H91. destruct (lex_at_tok _ _ _ H) as [t' H1 H2|H1 H2 H3|l H1 H2 H3 H4].
    - rewrite H91 in H2. discriminate.
    - rewrite H91 in H3. discriminate.
    - split; [reflexivity|]. destruct H4 as [l' Ha Hb|k Ha Hc|Ha Hb Hc Hd]; [lia|eauto|contradiction].
  Qed.

  Lemma prim_at_unit i l : prim_at i l -> pr i <> 91 -> unit_at i l.
  Proof. intros [l' Ha Hb|k Ha Hc|Ha Hb Hc Hd] H91; [assumption|contradiction|apply UPlain; assumption]. Qed.

  Lemma unit_printable i l : unit_at i l -> forall k, i <= k < i + l -> is_printable (pr k) = true.
  Proof.
    intros [H1 H2 H3|H1 H2 H3 H4|H1 H2 H3] k Hk.
    - replace k with i by lia. assumption.
    - assert (Hc : k = i \/ k = S i) by lia. destruct Hc as [->| ->]; [rewrite H1; reflexivity|assumption].
    - unfold xlen in Hk. assert (Hc : k = i \/ k = S i \/ i + 2 <= k) by lia.
      destruct Hc as [->|[->|Hc]]; [rewrite H1; reflexivity|rewrite H3; reflexivity|].
      destruct (is_hex_digit (pr (i + 2))) eqn:X2; [|lia].
      destruct (Nat.eq_dec k (i + 2)) as [->|Hn]; [apply hex_printable; exact X2|].
      destruct (is_hex_digit (pr (i + 3))) eqn:X3; [|lia]. replace k with (i + 3) by lia. apply hex_printable; exact X3.
  Qed.

  Lemma item_printable i il : i <= E -> match_range_item p i = LOk true il ->
    forall k, i <= k < i + il -> is_printable (pr k) = true.
  Proof.
    intros Hi H k Hk. destruct (item_true i il Hi H) as [l1 Hu Hn|l1 rl Hu H45 Hlt H93 Hu2].
    - apply (unit_printable _ _ Hu). lia.
    - assert (Hcs : k < i + l1 \/ k = i + l1 \/ S (i + l1) <= k) by lia. destruct Hcs as [Hcs|[->|Hcs]].
      + apply (unit_printable _ _ Hu). lia.
      + rewrite H45. reflexivity.
      + apply (unit_printable _ _ Hu2). lia.
  Qed.

  Lemma items_printable i k : items_to i k -> forall j, i <= j <= k -> is_printable (pr j) = true.
  Proof.
    induction 1 as [i H1 H2|i il k H1 H2 H3 H4 IH]; intros j Hj.
    - replace j with i by lia. rewrite H2. reflexivity.
    - destruct (Nat.lt_ge_cases j (i + il)) as [Hlt|Hge].
      + apply (item_printable i il ltac:(lia) H3). lia.
      + apply IH. lia.
  Qed.

  Lemma prim_printable i l : prim_at i l -> forall k, i <= k < i + l -> is_printable (pr k) = true.
  Proof.
    intros [l' H1 H2|k' H1 H3|H1 H2 H3 H4] k Hk.
    - apply (unit_printable _ _ H2). lia.
    - pose proof (items_to_bounds _ _ H3) as Hb.
      destruct (Nat.lt_ge_cases k (i + set_hd i)) as [Hlt|Hge]; [|apply (items_printable _ _ H3); lia].
      destruct (set_hd_cases i) as [[H94 Hs]|[_ Hs]]; rewrite Hs in Hlt.
      + assert (Hc : k = i \/ k = S i) by lia. destruct Hc as [->| ->]; [rewrite H1|rewrite H94]; reflexivity.
      + replace k with i by lia. rewrite H1. reflexivity.
    - replace k with i by lia. assumption.
  Qed.

  Theorem lexeme_printable i t len : lex_at p i = Tok t len ->
    forall k, i <= k < i + len -> is_printable (pr k) = true.
  Proof.
    intros H k Hk. destruct (lex_at_tok _ _ _ H) as [t' H1 H2|H1 H2 H3|l H1 H2 H3 H4].
    - replace k with i by lia. exact (proj2 (special_inv _ _ H2)).
    - replace k with i by lia. apply dec_printable; assumption.
    - apply (prim_printable _ _ H4). lia.
  Qed.

  Lemma lexeme_set_closed i t len : lex_at p i = Tok t len -> pr i = 91 ->
    2 <= len /\ pr (i + len - 1) = 93.
  Proof.
    intros H H91. destruct (lex_at_set _ _ _ H H91) as (_ & k & Hk & ->).
    pose proof (items_to_bounds _ _ Hk) as Hb. pose proof (set_hd_bounds i) as Hs.
    split; [lia|]. replace (i + (S k - i) - 1) with k by lia. tauto.
  Qed.

  Lemma lexeme_single i t len : lex_at p i = Tok t len -> pr i <> 92 -> pr i <> 91 -> len = 1.
  Proof.
    intros H H92 H91. destruct (lex_at_tok _ _ _ H) as [t' H1 H2|H1 H2 H3|l H1 H2 H3 H4]; try reflexivity.
    destruct (prim_at_unit _ _ H4 H91) as [Ha Hb Hc|Ha|l' Ha]; [reflexivity|contradiction|contradiction].
  Qed.
End LexFacts.

(* on  Some s = Some t  with a large closed s (the 256-entry cs_empty, the generated table) injection and inversion
   are slow to check; this lemma is applied instead *)
Lemma some_eq {A} (x y : A) : Some x = Some y -> x = y.
Proof. intros [= ->]. reflexivity. Qed.

(* the preconditions are exact: beyond the terminator every helper over-reads at once *)
Lemma over_iff (r : lres) n i : (i <= n -> r <> LOver) -> (n < i -> r = LOver) -> (r = LOver <-> n < i).
Proof. intros H1 H2. split; [|exact H2]. intros H. destruct (Nat.le_gt_cases i n); [contradiction (H1 H0 H)|assumption]. Qed.

Lemma match_escaped_over_iff p i l0 : match_escaped p i l0 = LOver <-> length p < i.
Proof.
  apply over_iff; [apply match_escaped_no_over|].
  intros H. unfold match_escaped. now rewrite rd_gt.
Qed.

Lemma match_range_item_over_iff p i : match_range_item p i = LOver <-> length p < i.
Proof.
  apply over_iff; [apply match_range_item_no_over|].
  intros H. unfold match_range_item. now rewrite (proj2 (match_escaped_over_iff p i 0) H).
Qed.

Lemma match_range_over_iff p i : match_range p i = LOver <-> length p < i.
Proof.
  apply over_iff; [apply match_range_no_over|].
  intros H. unfold match_range. now rewrite rd_gt.
Qed.

Lemma match_primary_over_iff p i : match_primary p i = LOver <-> length p < i.
Proof.
  apply over_iff; [apply match_primary_no_over|].
  intros H. unfold match_primary. now rewrite (proj2 (match_escaped_over_iff p i 0) H).
Qed.

Lemma range_items_over_iff p f i len : range_items p (S f) i len = LOver <-> length p < i.
Proof.
  apply over_iff; [apply range_items_no_over|].
  intros H. cbn [range_items]. unfold RegexFront.e. destruct (Nat.eqb_spec i (length p)); [lia|]. now rewrite rd_gt.
Qed.

(* no read beyond the terminator: [lex_at] without condition, each helper under its precondition (the lemmas above
   in one statement, the one property C17 cites) *)
Theorem no_over_read :
  (forall p i, lex_at p i <> TokOver) /\
  (forall p i l0, i <= length p -> match_escaped p i l0 <> LOver) /\
  (forall p i, i <= length p -> match_range_item p i <> LOver) /\
  (forall p f i len, i <= length p -> range_items p f i len <> LOver) /\
  (forall p i, i <= length p -> match_range p i <> LOver) /\
  (forall p i, i <= length p -> match_primary p i <> LOver) /\
  (* the fuel S e of the loop never runs out *)
  (forall p f i len, i <= length p -> S (length p) <= f -> range_items p f i len = range_items p (S (length p)) i len).
Proof.
  repeat split.
  - apply lex_at_no_over.
  - apply match_escaped_no_over.
  - apply match_range_item_no_over.
  - intros. apply range_items_no_over. assumption.
  - apply match_range_no_over.
  - apply match_primary_no_over.
  - intros. apply range_items_fuel; lia.
Qed.

Lemma regex_lexer_inv v sp rest t len :
  snd (regex_lexer v sp rest) = Some (t, len) -> lex_at rest 0 = Tok t len.
Proof.
  unfold regex_lexer. destruct (lex_at rest 0) as [| |t' len']; cbn [snd]; try discriminate.
  intros H. inversion H. reflexivity.
Qed.

Lemma regex_lexer_snd v sp rest :
  snd (regex_lexer v sp rest) = match lex_at rest 0 with Tok t len => Some (t, len) | _ => None end.
Proof. unfold regex_lexer. destruct (lex_at rest 0); reflexivity. Qed.

Theorem regex_lexer_bounds v sp rest t len :
  snd (regex_lexer v sp rest) = Some (t, len) -> 0 < len /\ len <= length rest /\ t < 10.
Proof. intros H. apply regex_lexer_inv in H. apply lex_at_in_range in H. lia. Qed.

Theorem regex_lexer_in_range : lexer_in_range regex_lexer.
Proof. intros v sp rest t len H. apply regex_lexer_bounds in H. lia. Qed.

Print Assumptions no_over_read.
Print Assumptions lex_at_in_range.
Print Assumptions regex_lexer_in_range.
