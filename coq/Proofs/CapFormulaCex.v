(* The capacity formula  N + EmptyRulesCount + 1  of cstring_buffer parsers is REFUTED, by computation:
   (a) finding D8 -- it counts empty RULES, not the empty REDUCTIONS that can be pending on the stack:
         S -> A A A A A A b ;  A -> (empty)        input "b"  (N = 2, one empty rule: capacity 4), 8 entries needed;
   (b) finding D16, independent of empty rules -- the error token is pushed without consuming input:
         S -> error a error b                      input "ab" (N = 3, no empty rule: capacity 4), 5 entries needed.
   Both grammars are analysed by [Grammar.analyze], their tables generated by [LRGen.gen], and pass [validate]
   (conflict-free LR(1)).  The run with unbounded stacks accepts, the run with the formula's capacity ends in Throw.
   (c) non-vacuity of the positive theorem (Proofs/CapFormula.v, CapFormulaValid.v) on  S -> a S | a . *)
Require Import Ctpg.Base.Prelude Ctpg.Model.Grammar Ctpg.Model.LRGen Ctpg.Model.Driver
               Ctpg.Spec.Cfg Ctpg.Spec.LRSpec Ctpg.Spec.Eval Ctpg.Valid.LRValid Ctpg.Valid.LRProductive
               Ctpg.Proofs.LRSound Ctpg.Proofs.DriverBasics Ctpg.Proofs.SafeCap
               Ctpg.Proofs.CapFormula Ctpg.Proofs.CapFormulaValid Ctpg.Proofs.CapFormulaTree.

Definition id_S := [83]. Definition id_A := [65]. Definition id_a := [97]. Definition id_b := [98].
Definition dummy_g : grammar := mkG 0 0 0 0 [] [] [] [] [] [] [] [].
Definition g_of (rg : raw_grammar) : grammar := match analyze rg with Some g => g | None => dummy_g end.
Definition sts_of (g : grammar) : list items := match gen g with inl (sts, _) => map st_all sts | inr _ => [] end.
Definition tbl_of (g : grammar) : table := match gen g with inl (_, tb) => tb | inr _ => [] end.
Definition res {V} (x : result V * pstate V unit * list event) : result V := fst (fst x).

Lemma gen_tables g n : length (sts_of g) = S n ->
  exists sts, gen g = inl (sts, tbl_of g) /\ map st_all sts = sts_of g /\ length sts = S n.
Proof. unfold sts_of, tbl_of. destruct (gen g) as [[sts tb]|]; [|discriminate]. rewrite map_length. eauto. Qed.

(* decidable form of [never_above] for concrete runs *)
Section Check.
  Variables V C : Type.
  Variable g : grammar.
  Variable tbl : table.
  Variable opts : options.
  Variable buf : list nat.
  Variable lexer : bool -> spoint -> list nat -> list lex_event * option (nat * nat).
  Variable term_f : nat -> nat -> nat -> spoint -> V.
  Variable err_f : spoint -> V.
  Variable rule_f : nat -> C -> list V -> C * V.

  Definition max_height (fuel : nat) (c : C) : nat :=
    let '(_, sf, _, v) := run_gh V C g tbl opts buf None lexer term_f err_f rule_f fuel (init c) [] [] in
    fold_right Nat.max 0 (map height (v ++ [sf])).

  Lemma never_above_iff n fuel c :
    never_above V C g tbl opts buf lexer term_f err_f rule_f n fuel c <-> max_height fuel c <= n.
  Proof.
    unfold never_above, max_height.
    destruct (run_gh V C g tbl opts buf None lexer term_f err_f rule_f fuel (init c) [] []) as [[[r sf] o] v].
    fold (list_max (map height (v ++ [sf]))). rewrite list_max_le, Forall_map, Forall_forall. reflexivity.
  Qed.
End Check.

(* (a) D8: empty reductions pending on the stack *)
Definition d8_raw : raw_grammar :=
  mkRG id_S [mkRT id_b 0%Z NoAssoc] [id_S; id_A]
    [mkRR id_S [RNterm id_A; RNterm id_A; RNterm id_A; RNterm id_A; RNterm id_A; RNterm id_A; RTerm id_b] None;   (* rule 0 *)
     mkRR id_A [] None].                                                                                          (* rule 1 *)
Definition d8_g : grammar := g_of d8_raw.
Definition d8_tbl : table := tbl_of d8_g.
Definition d8_tree : tree := Node 0 [Node 1 []; Node 1 []; Node 1 []; Node 1 []; Node 1 []; Node 1 []; Leaf 0].

(* terms: b = 0, <eof> = 1, <error_recovery_token> = 2; nonterminals: S = 0, A = 1, ## = 2 *)
Example d8_analyzed : analyze d8_raw = Some d8_g /\ eof_idx d8_g = 1 /\ empty_rules d8_g = 1 /\ empty_right_sides d8_g = 1.
Proof. vm_compute. repeat split. Qed.

Example d8_generated_valid :
  (exists sts, gen d8_g = inl (sts, d8_tbl) /\ map st_all sts = sts_of d8_g /\ length sts = 9) /\
  validate d8_g (sts_of d8_g) d8_tbl = true /\ term_checks d8_g (sts_of d8_g) d8_tbl = true /\
  no_error_symbol d8_g d8_tbl = true /\ eof_err_not_shiftedb d8_g d8_tbl = true /\ no_shifterrb d8_tbl = true.
Proof.
  split.
  - apply (gen_tables d8_g 8). vm_compute. reflexivity.
  - vm_compute. repeat split.
Qed.

(* input "b": one byte, N = 2; the formula gives 2 + 1 + 1 = 4 *)
Theorem cstring_capacity_formula_refuted :
  analyze d8_raw = Some d8_g /\
  (exists sts, gen d8_g = inl (sts, d8_tbl)) /\
  validate d8_g (sts_of d8_g) d8_tbl = true /\
  tokens_ok d8_g [0] /\
  cstring_cap d8_g (length [0]) = 4 /\
  res (tree_run_cap d8_g d8_tbl None [0] 20) = Accept d8_tree /\
  tree_run d8_g d8_tbl [0] 20 = Accept d8_tree /\
  res (tree_run_cap d8_g d8_tbl (Some (cstring_cap d8_g (length [0]))) [0] 20) = Throw.
Proof.
  destruct d8_generated_valid as ((sts & Hg & _) & Hv & _).
  split; [exact (proj1 d8_analyzed)|]. split; [exists sts; exact Hg|]. split; [exact Hv|].
  split; [repeat constructor|].
  vm_compute. repeat split.
Qed.

(* ... for every fuel: the bounded run never accepts *)
Theorem cstring_capacity_formula_refuted_all_fuel : forall fuel,
  res (tree_run_cap d8_g d8_tbl (Some (cstring_cap d8_g (length [0]))) [0] fuel) = Throw \/
  res (tree_run_cap d8_g d8_tbl (Some (cstring_cap d8_g (length [0]))) [0] fuel) = OutOfFuel.
Proof.
  intros fuel.
  destruct cstring_capacity_formula_refuted as (_ & _ & _ & _ & _ & _ & _ & H).
  unfold res, tree_run_cap, run in *.
  (* a run that stops without running out of fuel is the run with fuel 20 *)
  set (r := fst (fst (run_from _ _ _ _ _ _ _ _ _ _ _ fuel _ _))).
  assert (Hd : r = OutOfFuel \/ r <> OutOfFuel) by (destruct r; (left; reflexivity) || (right; discriminate)).
  destruct Hd as [E|Hr]; [right; exact E|left]. subst r.
  rewrite (Ctpg.Proofs.LRMachine.run_from_det _ _ _ _ _ _ _ _ _ _ _ fuel 20 _ _ Hr); [exact H|rewrite H; discriminate].
Qed.

(* the bound of Proofs/CapFormulaTree.v (length w + empty nodes of the tree + 1) is exactly what this run needs *)
Example d8_tree_bound_tight :
  length [0] + empty_nodes d8_tree + 1 = 8 /\ empty_yield_nodes d8_tree = 6 /\
  forall n, length [0] + empty_nodes d8_tree + 1 <= n ->
    tree_run_cap d8_g d8_tbl (Some n) [0] 20 = tree_run_cap d8_g d8_tbl None [0] 20 /\
    fst (fst (tree_run_cap d8_g d8_tbl (Some n) [0] 20)) = Accept d8_tree.
Proof.
  split; [reflexivity|]. split; [reflexivity|].
  destruct d8_generated_valid as (_ & Hv & _ & Hne & _).
  destruct cstring_capacity_formula_refuted as (_ & _ & _ & Hw & _ & _ & Hacc & _).
  apply (capacity_from_tree_suffices d8_g (sts_of d8_g) d8_tbl [0] d8_tree 20);
    [apply Ctpg.Proofs.LRComplete.validate_validate_sound; exact Hv|exact Hne|exact Hw|exact Hacc].
Qed.

(* the stack of the unbounded run reaches 8 entries; a capacity works iff it is at least 8 = 2 * formula *)
Theorem d8_min_capacity :
  max_height tree unit d8_g d8_tbl tree_opts [0] id_lexer (fun t _ _ _ => Leaf t) (fun _ => Leaf (err_idx d8_g))
             (fun r c args => (c, Node r args)) 20 tt = 8 /\
  forall n, (n < 8 -> res (tree_run_cap d8_g d8_tbl (Some n) [0] 20) = Throw) /\
            (8 <= n -> tree_run_cap d8_g d8_tbl (Some n) [0] 20 = tree_run_cap d8_g d8_tbl None [0] 20 /\
                       res (tree_run_cap d8_g d8_tbl (Some n) [0] 20) = Accept d8_tree).
Proof.
  assert (Hm : max_height tree unit d8_g d8_tbl tree_opts [0] id_lexer (fun t _ _ _ => Leaf t) (fun _ => Leaf (err_idx d8_g))
                 (fun r c args => (c, Node r args)) 20 tt = 8) by (vm_compute; reflexivity).
  split; [exact Hm|]. intros n. split; [|apply d8_tree_bound_tight].
  intros Hn. destruct n as [|n]; [vm_compute; reflexivity|].
  unfold res, tree_run_cap. apply capacity_too_small; [lia|]. rewrite never_above_iff, Hm. lia.
Qed.

(* (b) error recovery: the error token occupies a stack entry but no input byte *)
Definition rec_raw : raw_grammar :=
  mkRG id_S [mkRT id_a 0%Z NoAssoc; mkRT id_b 0%Z NoAssoc] [id_S]
    [mkRR id_S [RTerm id_error; RTerm id_a; RTerm id_error; RTerm id_b] None].
Definition rec_g : grammar := g_of rec_raw.
Definition rec_tbl : table := tbl_of rec_g.
(* terms: a = 0, b = 1, <eof> = 2, <error_recovery_token> = 3 *)
Definition rec_tree : tree := Node 0 [Leaf 3; Leaf 0; Leaf 3; Leaf 1].

(* input "ab": two bytes, N = 3, no empty rule; the formula gives 3 + 0 + 1 = 4; the stack needs 5 entries
   (state 0, error token, a, error token, b).  All hypotheses of the positive theorem hold except "no shift-on-error
   cell" / [no_error_symbol]. *)
Theorem cstring_capacity_without_empty_rules_refuted_with_recovery :
  analyze rec_raw = Some rec_g /\
  (exists sts, gen rec_g = inl (sts, rec_tbl)) /\
  validate rec_g (sts_of rec_g) rec_tbl = true /\ term_checks rec_g (sts_of rec_g) rec_tbl = true /\
  empty_rules rec_g = 0 /\ eof_err_not_shiftedb rec_g rec_tbl = true /\
  no_error_symbol rec_g rec_tbl = false /\ no_shifterrb rec_tbl = false /\
  tokens_ok rec_g [0; 1] /\
  cstring_cap rec_g (length [0; 1]) = 4 /\
  res (tree_run_cap rec_g rec_tbl None [0; 1] 20) = Accept rec_tree /\
  res (tree_run_cap rec_g rec_tbl (Some (cstring_cap rec_g (length [0; 1]))) [0; 1] 20) = Throw /\
  max_height tree unit rec_g rec_tbl tree_opts [0; 1] id_lexer (fun t _ _ _ => Leaf t) (fun _ => Leaf (err_idx rec_g))
             (fun r c args => (c, Node r args)) 20 tt = 5.
Proof.
  split; [vm_compute; reflexivity|].
  split.
  { destruct (gen_tables rec_g 5) as (sts & E & _); [vm_compute; reflexivity|]. exists sts. exact E. }
  vm_compute. repeat split; repeat constructor.
Qed.

(* (c) the positive theorem is not vacuous:  S -> a S | a *)
Definition lst_raw : raw_grammar :=
  mkRG id_S [mkRT id_a 0%Z NoAssoc] [id_S]
    [mkRR id_S [RTerm id_a; RNterm id_S] None; mkRR id_S [RTerm id_a] None].
Definition lst_g : grammar := g_of lst_raw.
Definition lst_tbl : table := tbl_of lst_g.

Example lst_hyps :
  analyze lst_raw = Some lst_g /\ empty_rules lst_g = 0 /\
  term_checks lst_g (sts_of lst_g) lst_tbl = true /\ no_error_symbol lst_g lst_tbl = true /\
  eof_err_not_shiftedb lst_g lst_tbl = true /\ no_shifterrb lst_tbl = true.
Proof. vm_compute. repeat split. Qed.

(* every input, every fuel, every semantic algebra, every lexer with non-empty lexemes inside the input
   ([lexer_in_range]) *)
Theorem lst_capacity_suffices :
  forall (V C : Type) opts buf lexer
         (term_f : nat -> nat -> nat -> spoint -> V) (err_f : spoint -> V) (rule_f : nat -> C -> list V -> C * V) fuel c,
  lexer_in_range lexer ->
  run V C lst_g lst_tbl opts buf (Some (cstring_cap lst_g (length buf))) lexer term_f err_f rule_f fuel c =
  run V C lst_g lst_tbl opts buf None lexer term_f err_f rule_f fuel c /\
  fst (fst (run V C lst_g lst_tbl opts buf (Some (cstring_cap lst_g (length buf))) lexer term_f err_f rule_f fuel c)) <> Throw.
Proof.
  intros V C opts buf lexer term_f err_f rule_f fuel c Hlex.
  destruct lst_hyps as (_ & Hempty & Hc & Hne & _).
  apply (cstring_capacity_suffices_checked V C lst_g (sts_of lst_g) lst_tbl); assumption.
Qed.

(* the bound bytes + 1 is reached (so capacity bytes + 1 is the least that always works; the formula has one spare) *)
Example lst_height_reached :
  max_height tree unit lst_g lst_tbl tree_opts [0; 0; 0] id_lexer (fun t _ _ _ => Leaf t) (fun _ => Leaf (err_idx lst_g))
             (fun r c args => (c, Node r args)) 20 tt = 4 /\
  res (tree_run_cap lst_g lst_tbl None [0; 0; 0] 20) = Accept (Node 0 [Leaf 0; Node 0 [Leaf 0; Node 1 [Leaf 0]]]).
Proof. vm_compute. split; reflexivity. Qed.

Print Assumptions cstring_capacity_formula_refuted.
Print Assumptions cstring_capacity_formula_refuted_all_fuel.
Print Assumptions d8_min_capacity.
Print Assumptions cstring_capacity_without_empty_rules_refuted_with_recovery.
Print Assumptions lst_capacity_suffices.
