(* Soundness of the mirror's nullable / FIRST iteration (Model/LRGen.v: nterm_empty, nterm_first) with respect to
   derivation trees: every bit the iteration sets is witnessed by a tree, since one step of a pass ([estep], [fstep] of
   Proofs/GenFirst.v) sets only such bits. (Proofs/GenFirst.v proves the converse direction, closedness; the
   completeness proof, Proofs/PatternCompleteLR.v, uses only closedness.) FIRST bits are witnessed by TREES, so the
   nonterminals that follow the one contributing the term must derive something: the statement is about the
   nonterminals reachable from the root of a productive grammar ([productive], [reachable] of Proofs/ReportLang.v;
   [nts_reachable], [prod_trees] of Proofs/ReportViable.v). *)
Require Import Ctpg.Base.Prelude Ctpg.Proofs.ListFacts Ctpg.Model.Grammar Ctpg.Model.LRGen Ctpg.Spec.Cfg
               Ctpg.Valid.LRValid Ctpg.Proofs.LRReflect Ctpg.Proofs.LRValidFacts Ctpg.Proofs.ReportLang Ctpg.Proofs.ReportViable
               Ctpg.Proofs.GenLists Ctpg.Proofs.GenFirst.

Section FirstSound.
  Variable g : grammar.
  Variable sts : list items.
  Variable tbl : table.
  Hypothesis SF : sound_facts g sts tbl.
  Hypothesis Hprod : productive g.

  Notation tc := (term_count g).
  Notation yields := (flat_map yield).

  Definition ne_just (ne : bset) : Prop :=
    forall l, bset_test ne l = true -> exists t, valid_tree g (NT l) t /\ yield t = [].
  Definition nf_just (nf : list bset) : Prop :=
    forall l a, reachable g l -> bset_test (nth l nf (bset_empty tc)) a = true ->
                exists t u, valid_tree g (NT l) t /\ yield t = a :: u.

  Lemma rule_of_In ri : In ri (rule_infos g) ->
    is_rule g (ri_r ri) (ri_l ri) (get_rhs g (ri_r ri)) /\
    firstn (ri_n ri) (get_rhs g (ri_r ri)) = get_rhs g (ri_r ri).
  Proof.
    intros Hin. destruct (In_nth _ _ dummy_ri Hin) as (i & Hi & E).
    rewrite (sf_len_ri _ _ _ SF) in Hi. change (get_ri g i = ri) in E. subst ri. split.
    - apply (is_rule_ri g sts tbl SF). exact Hi.
    - destruct (sf_ri _ _ _ SF i Hi) as (_ & _ & Hn). rewrite Hn. apply firstn_all.
  Qed.

  Lemma rule_nts_reachable ri : In ri (rule_infos g) -> reachable g (ri_l ri) ->
    nts_reachable g (get_rhs g (ri_r ri)).
  Proof.
    intros Hin Hl. destruct (rule_of_In ri Hin) as [Hrule _].
    unfold nts_reachable. apply Forall_forall. intros [a|m] Hm; [exact I|].
    eapply reach_rule; eassumption.
  Qed.

  Lemma nullable_trees ne r : ne_just ne -> all_nullable ne r = true ->
    exists ts, Forall2 (valid_tree g) r ts /\ yields ts = [].
  Proof.
    intros Hj. induction r as [|[a|n] r IH]; cbn [all_nullable]; intros H.
    - exists []. split; [constructor|reflexivity].
    - discriminate.
    - apply andb_true_iff in H. destruct H as [H1 H2].
      destruct (Hj n H1) as (t & Ht & Hy). destruct (IH H2) as (ts & Hts & Hys).
      exists (t :: ts). split; [constructor; assumption|]. cbn. rewrite Hy, Hys. reflexivity.
  Qed.

  Lemma nterm_empty_just : ne_just (nterm_empty g).
  Proof.
    apply (fix_inv (estep g) (echanged g) (empty_pass g) (fun f => empty_iter f g) (rule_infos g)
             (fun _ _ => eq_refl) (empty_pass_cons g) (fun _ => eq_refl) (fun _ _ => eq_refl) ne_just).
    - intros ri ne Hri Hj. unfold estep, rhs_n. destruct (bset_test ne (ri_l ri)); [exact Hj|].
      destruct (all_nullable ne _) eqn:En; [|exact Hj].
      destruct (rule_of_In ri Hri) as [Hrule Hfn]. rewrite Hfn in En.
      destruct (nullable_trees ne _ Hj En) as (ts & Hts & Hys).
      intros l Hl. apply bset_test_set in Hl. destruct Hl as [->|Hl]; [|apply Hj; exact Hl].
      exists (Node (ri_r ri) ts). split; [econstructor; eassumption|exact Hys].
    - intros l Hl. rewrite bset_test_empty in Hl. discriminate.
  Qed.

  Lemma fos_just ne nf : ne_just ne -> nf_just nf ->
    forall r, nts_reachable g r -> forall acc a,
      bset_test (first_of_syms g ne nf acc r) a = true ->
      bset_test acc a = true \/ exists ts u, Forall2 (valid_tree g) r ts /\ yields ts = a :: u.
  Proof.
    intros Hne Hnf. induction r as [|[i|n] r IH]; intros Hr acc a H; cbn [first_of_syms] in H.
    - left. exact H.
    - inversion Hr as [|? ? _ Hr']; subst.
      apply bset_test_set in H. destruct H as [->|H]; [|left; exact H].
      right. destruct (prod_trees g Hprod r Hr') as [ts Hts].
      exists (Leaf i :: ts), (yields ts). split; [constructor; [constructor|assumption]|reflexivity].
    - inversion Hr as [|? ? Hn Hr']; subst.
      assert (Hor : bset_test (bset_or acc (nth n nf (bset_empty tc))) a = true ->
                    bset_test acc a = true \/ exists ts u, Forall2 (valid_tree g) (NT n :: r) ts /\ yields ts = a :: u).
      { intros Ho. rewrite bset_test_or in Ho. apply orb_prop in Ho. destruct Ho as [Ho|(_ & Ho)%andb_prop]; [left; exact Ho|right].
        destruct (Hnf n a Hn Ho) as (t & u & Ht & Hy). destruct (prod_trees g Hprod r Hr') as [ts Hts].
        exists (t :: ts), (u ++ yields ts). split; [constructor; assumption|]. cbn. rewrite Hy. reflexivity. }
      destruct (bset_test ne n) eqn:En; [|apply Hor; exact H].
      destruct (IH Hr' _ _ H) as [Ho|(ts & u & Hts & Hy)]; [apply Hor; exact Ho|right].
      destruct (Hne n En) as (t & Ht & Hyt).
      exists (t :: ts), u. split; [constructor; assumption|]. cbn. rewrite Hyt. exact Hy.
  Qed.

  Lemma nterm_first_just ne : ne_just ne -> nf_just (nterm_first g ne).
  Proof.
    intros Hne.
    apply (fix_inv (fstep g ne) (fchanged g ne) (first_pass g ne) (fun f => first_iter f g ne) (rule_infos g)
             (fun _ _ => eq_refl) (fun _ _ _ _ => eq_refl) (fun _ => eq_refl) (fun _ _ => eq_refl) nf_just).
    - intros ri nf Hri Hj l a Hl Ha. unfold fstep, fafter, rhs_n in Ha.
      destruct (rule_of_In ri Hri) as [Hrule Hfn]. rewrite Hfn, nth_update in Ha.
      destruct (Nat.eqb l (ri_l ri) && Nat.ltb (ri_l ri) (length nf)) eqn:E; [|apply Hj; assumption].
      apply andb_true_iff in E as [E _]. apply Nat.eqb_eq in E. subst l.
      destruct (fos_just ne nf Hne Hj _ (rule_nts_reachable ri Hri Hl) _ _ Ha) as [Hb|(ts & u & Hts & Hy)].
      + apply Hj; assumption.
      + exists (Node (ri_r ri) ts), u. split; [econstructor; eassumption|exact Hy].
    - intros l a _ Ha. rewrite nth_repeat, bset_test_empty in Ha. discriminate.
  Qed.

  (* FIRST(beta t), as the validator and the generator compute it *)
  Theorem first_tail_just beta t b : nts_reachable g beta ->
    bset_test (first_tail g (nterm_empty g) (nterm_first g (nterm_empty g)) beta t) b = true ->
    (exists ts u, Forall2 (valid_tree g) beta ts /\ yields ts = b :: u) \/
    (b = t /\ exists ts, Forall2 (valid_tree g) beta ts /\ yields ts = []).
  Proof.
    intros Hr H. unfold first_tail in H.
    pose proof nterm_empty_just as Hne. pose proof (nterm_first_just _ Hne) as Hnf.
    assert (Hf : forall b', bset_test (first_of_syms g (nterm_empty g) (nterm_first g (nterm_empty g))
                                                     (bset_empty tc) beta) b' = true ->
                            exists ts u, Forall2 (valid_tree g) beta ts /\ yields ts = b' :: u).
    { intros b' Hb. destruct (fos_just _ _ Hne Hnf beta Hr _ _ Hb) as [Hb'|Hb']; [|exact Hb'].
      rewrite bset_test_empty in Hb'. discriminate. }
    destruct (all_nullable (nterm_empty g) beta) eqn:En.
    - apply bset_test_set in H. destruct H as [->|H]; [|left; apply Hf; exact H].
      right. split; [reflexivity|]. apply (nullable_trees _ _ Hne En).
    - left. apply Hf. exact H.
  Qed.
End FirstSound.

Print Assumptions first_tail_just.
