(* An abstract LR machine on token lists (state stack, tree stack, remaining input; plain table lookup,
   no error recovery) and its correspondence with the driver.  Section Generic, for any driver instance: the run is
   monotone and deterministic in the fuel, and over an empty error column ([err_col_empty]) recovery mode pops or
   ends and never accepts ([rec_step], [rec_no_accept]).  Section Machine: the machine, [mstep], [mrun], [msteps].
   Section Sim: one action of the driver, for ANY algebra of functors, performs the machine's move on the same
   lookahead ([perform] of Proofs/DriverIter.v), the machine running on any stack of trees as high as the driver's
   stack of values.  Section Tree: the instance [tree_run] of Spec/LRSpec.v accepts the trees
   the machine accepts ([mrun_accepts]), and no other where the machine makes no [Bad] move and the error column
   is empty ([accepts_mrun], Section Sound). *)
Require Import Ctpg.Base.Prelude Ctpg.Proofs.ListFacts Ctpg.Model.Grammar Ctpg.Model.LRGen Ctpg.Model.Driver
               Ctpg.Spec.Cfg Ctpg.Spec.LRSpec Ctpg.Proofs.DriverBasics Ctpg.Proofs.DriverIter.

Section Generic.
  Variables V C : Type.
  Variable g : grammar.
  Variable tbl : table.
  Variable opts : options.
  Variable buf : list nat.
  Variable cap : option nat.
  Variable lexer : bool -> spoint -> list nat -> list lex_event * option (nat * nat).
  Variable term_f : nat -> nat -> nat -> spoint -> V.
  Variable err_f : spoint -> V.
  Variable rule_f : nat -> C -> list V -> C * V.

  Notation grun := (run_from V C g tbl opts buf cap lexer term_f err_f rule_f).

  Lemma run_from_mono fuel k s out r s' out' :
    grun fuel s out = (r, s', out') -> r <> OutOfFuel -> grun (fuel + k) s out = (r, s', out').
  Proof.
    revert s out. induction fuel as [|f IH]; intros s out H Hr; cbn in *.
    - inversion H; subst. congruence.
    - destruct (step V C g tbl opts buf cap lexer term_f err_f rule_f s) as [[s1|[r1 s1]] ev].
      + apply IH; assumption.
      + assumption.
  Qed.

  (* a run that has ended is the run on any larger fuel: result, final state and output *)
  Lemma run_from_stable fuel fuel' s out :
    fst (fst (grun fuel s out)) <> OutOfFuel -> fuel <= fuel' -> grun fuel' s out = grun fuel s out.
  Proof.
    intros Hn Hle. destruct (grun fuel s out) as [[r s'] out'] eqn:E.
    replace fuel' with (fuel + (fuel' - fuel)) by lia. exact (run_from_mono _ _ _ _ _ _ _ E Hn).
  Qed.

  Lemma run_from_det f1 f2 s out :
    fst (fst (grun f1 s out)) <> OutOfFuel -> fst (fst (grun f2 s out)) <> OutOfFuel -> grun f1 s out = grun f2 s out.
  Proof. intros N1 N2. destruct (Nat.le_ge_cases f1 f2); [symmetry|]; now apply run_from_stable. Qed.

  Notation gstep := (step V C g tbl opts buf cap lexer term_f err_f rule_f).

  (* more than DriverBasics' [no_shift_col g tbl (err_idx g)], which rules out KShift alone *)
  Definition err_col_empty : Prop :=
    forall st e, cell tbl st (nterm_count g + err_idx g) = inl e -> e_kind e = KError.

  (* With the error column empty, recovery mode never accepts: each step pops a state or ends the run. *)
  Lemma rec_step s : err_col_empty -> ps_rec s = true -> ps_cons s = false ->
    (exists r s' ev, gstep s = (inr (r, s'), ev) /\ match r with Reject | Crash _ => True | _ => False end) \/
    (exists ev, gstep s = (inl (set_stacks s (tl (ps_cursors s)) (tl (ps_values s))), ev) /\ tl (ps_cursors s) <> []).
  Proof.
    intros Herr Hr Hc. destruct (ps_cursors s) as [|cur cs] eqn:Ecs.
    - left. rewrite (step_empty Ecs). do 3 eexists. split; [reflexivity|exact I].
    - rewrite (step_rec Hr Ecs), act_eq. unfold decide.
      destruct (cell tbl cur (nterm_count g + err_idx g)) as [e|c] eqn:Ecell.
      2:{ left. do 3 eexists. split; [reflexivity|exact I]. }
      rewrite (Herr _ _ Ecell), Hc, Hr, Ecs. cbn [tl].
      destruct cs as [|top cs']; cbn [perform fst snd].
      + left. do 3 eexists. split; [reflexivity|exact I].
      + right. eexists. split; [unfold pop1; rewrite Ecs; reflexivity|discriminate].
  Qed.

  (* hence a run from recovery mode ends within one iteration per state of the stack, and not with Accept *)
  Lemma rec_ends : err_col_empty -> forall fuel s out, ps_rec s = true -> ps_cons s = false ->
    match fst (fst (grun fuel s out)) with
    | Accept _ => False
    | OutOfFuel => fuel <= length (ps_cursors s)
    | _ => True
    end.
  Proof.
    intros Herr. induction fuel as [|f IH]; intros s out Hr Hc; cbn [run_from]; [apply Nat.le_0_l|].
    destruct (rec_step s Herr Hr Hc) as [(r & s' & ev & Hs & Hna)|(ev & Hs & Hne)]; rewrite Hs.
    - destruct r; try destruct Hna; exact I.
    - specialize (IH (set_stacks s (tl (ps_cursors s)) (tl (ps_values s))) (out ++ filter (visible opts) ev) Hr Hc).
      cbn [set_stacks ps_cursors] in IH.
      destruct (ps_cursors s); [destruct Hne; reflexivity|].
      destruct (fst (fst (grun f _ _))); cbn [tl length] in *; auto. lia.
  Qed.

  Lemma rec_no_accept : err_col_empty -> forall fuel s out v, ps_rec s = true -> ps_cons s = false ->
    fst (fst (grun fuel s out)) <> Accept v.
  Proof. intros Herr fuel s out v Hr Hc E. pose proof (rec_ends Herr fuel s out Hr Hc) as H. rewrite E in H. exact H. Qed.
End Generic.

Section Machine.
  Variable g : grammar.
  Variable tbl : table.

  Definition cfg := (list nat * list tree * list nat)%type.   (* states (top first), trees (top first), rest *)
  Definition look (rest : list nat) : nat := hd (eof_idx g) rest.

  (* [Fail]: an error cell, or whatever makes the driver crash; [Bad]: a kind of cell the machine does not model *)
  Inductive outcome := Next (c : cfg) | Acc (t : tree) | Fail | Bad.

  (* [decide_reduce] without a capacity, every failure a [Fail]: [mreduce_decide] *)
  Definition mreduce (sts : list nat) (trs : list tree) (rest : list nat) (r : nat) : outcome :=
    match nth_error (rule_infos g) r with
    | None => Fail
    | Some ri =>
        let n := ri_n ri in
        if Nat.ltb (length sts) n then Fail else
        match skipn n sts with
        | [] => Fail
        | top :: _ =>
            match cell tbl top (ri_l ri) with
            | inr _ => Fail
            | inl e =>
                match e_arg e with
                | None => Fail
                | Some nst =>
                    if Nat.ltb (length trs) n then Fail else
                    Next (nst :: skipn n sts, Node (ri_r ri) (rev (firstn n trs)) :: skipn n trs, rest)
                end
            end
        end
    end.

  (* [act] in normal mode, with trees for values and [look rest] for the term get_current_term finds.  KShiftErr and
     KRR are set apart as [Bad]: every theorem about a run of the machine assumes an invariant that excludes it. *)
  Definition mstep (c : cfg) : outcome :=
    let '(sts, trs, rest) := c in
    match sts with
    | [] => Fail
    | cur :: _ =>
        match cell tbl cur (nterm_count g + look rest) with
        | inr _ => Fail
        | inl e =>
            match e_kind e with
            | KError => Fail
            | KShift => match e_arg e with
                        | None => Fail
                        | Some nst => Next (nst :: sts, Leaf (look rest) :: trs, tl rest)
                        end
            | KReduce => match e_arg e with
                         | None => Fail
                         | Some r => mreduce sts trs rest r
                         end
            | KSuccess => match rev trs with [] => Fail | v :: _ => Acc v end
            | KShiftErr | KRR => Bad
            end
        end
    end.

  (* the machine has stopped in c *)
  Definition halted (c : cfg) : Prop := match mstep c with Next _ => False | _ => True end.

  Definition reads (cur : nat) (rest : list nat) (k : kind) : Prop :=
    exists e, cell tbl cur (nterm_count g + look rest) = inl e /\ e_kind e = k.

  Fixpoint mrun (n : nat) (c : cfg) : option tree :=
    match n with
    | 0 => None
    | S n' => match mstep c with
              | Next c' => mrun n' c'
              | Acc t => Some t
              | _ => None
              end
    end.

  Lemma mrun_mono n k c t : mrun n c = Some t -> mrun (n + k) c = Some t.
  Proof.
    revert c; induction n as [|n IH]; intros c H; cbn in *; [discriminate|].
    destruct (mstep c); auto.
  Qed.

  Fixpoint msteps (n : nat) (c c' : cfg) : Prop :=
    match n with
    | 0 => c = c'
    | S n' => exists c1, mstep c = Next c1 /\ msteps n' c1 c'
    end.

  Lemma msteps_trans n m c1 c2 c3 : msteps n c1 c2 -> msteps m c2 c3 -> msteps (n + m) c1 c3.
  Proof.
    revert c1; induction n as [|n IH]; intros c1 H1 H2; cbn in *.
    - subst; assumption.
    - destruct H1 as (c & Hs & H1). exists c. split; [assumption|]. apply IH; assumption.
  Qed.

  Lemma msteps_mrun n c c' m t : msteps n c c' -> mrun m c' = Some t -> mrun (n + m) c = Some t.
  Proof.
    revert c; induction n as [|n IH]; intros c H1 H2; cbn in *.
    - subst; assumption.
    - destruct H1 as (c1 & Hs & H1). rewrite Hs. apply IH; assumption.
  Qed.

  (* the reduce the driver decides on from the heights of its stacks is the machine's *)
  Lemma mreduce_decide cs trs rest r :
    match decide_reduce g tbl None cs (length trs) r with
    | inl (ri, nst) =>
        mreduce cs trs rest r =
        Next (nst :: skipn (ri_n ri) cs, Node (ri_r ri) (rev (firstn (ri_n ri) trs)) :: skipn (ri_n ri) trs, rest)
    | inr x => mreduce cs trs rest r = Fail /\ exists c, x = VCrash c
    end.
  Proof.
    unfold mreduce, decide_reduce. cbn [full]. destruct (nth_error (rule_infos g) r) as [ri|]; [|eauto].
    destruct (Nat.ltb (length cs) (ri_n ri)); [eauto|]. destruct (skipn (ri_n ri) cs) as [|top below] eqn:Hsk; [eauto|].
    destruct (cell tbl top (ri_l ri)) as [e|c]; [|eauto]. destruct (e_arg e) as [nst|]; [|eauto].
    destruct (Nat.ltb (length trs) (ri_n ri)); [eauto|]. now rewrite Hsk.
  Qed.

  Lemma mreduce_inv ss trs rest r c' : mreduce ss trs rest r = Next c' ->
    exists ri top stk e nst,
      nth_error (rule_infos g) r = Some ri /\ skipn (ri_n ri) ss = top :: stk /\
      cell tbl top (ri_l ri) = inl e /\ e_arg e = Some nst /\
      c' = (nst :: top :: stk, Node (ri_r ri) (rev (firstn (ri_n ri) trs)) :: skipn (ri_n ri) trs, rest).
  Proof.
    pose proof (mreduce_decide ss trs rest r) as H. pose proof (decided_reduce_holds g tbl None ss (length trs) r) as D.
    destruct (decide_reduce g tbl None ss (length trs) r) as [[ri nst]|x]; [|destruct H as [-> _]; discriminate].
    rewrite H. intros [= <-]. inversion D as [| | | | | | | |? top stk e ? (Hri & _ & Hsk) Hc _ Ha]. rewrite Hsk. eauto 10.
  Qed.

  Lemma mreduce_outcome sts trs rest r :
    match mreduce sts trs rest r with Acc _ | Bad => False | Next _ | Fail => True end.
  Proof.
    pose proof (mreduce_decide sts trs rest r) as H.
    destruct (decide_reduce g tbl None sts (length trs) r) as [[ri nst]|x]; [rewrite H|destruct H as [-> _]]; exact I.
  Qed.

  Lemma mstep_shift cur ss trs rest e nst :
    cell tbl cur (nterm_count g + look rest) = inl e -> e_kind e = KShift -> e_arg e = Some nst ->
    mstep (cur :: ss, trs, rest) = Next (nst :: cur :: ss, Leaf (look rest) :: trs, tl rest).
  Proof. intros Hc Hk Ha. unfold mstep. rewrite Hc, Hk, Ha. reflexivity. Qed.

  Lemma mstep_reduce cur ss trs rest e r ri ch top below e' nst :
    cell tbl cur (nterm_count g + look rest) = inl e -> e_kind e = KReduce -> e_arg e = Some r ->
    nth_error (rule_infos g) r = Some ri -> length ch = ri_n ri ->
    skipn (ri_n ri) (cur :: ss) = top :: below ->
    cell tbl top (ri_l ri) = inl e' -> e_arg e' = Some nst ->
    mstep (cur :: ss, rev ch ++ trs, rest) = Next (nst :: top :: below, Node (ri_r ri) ch :: trs, rest).
  Proof.
    intros Hc Hk Ha Hri Hn Hsk Hc' Ha'. unfold mstep. rewrite Hc, Hk, Ha. unfold mreduce. rewrite Hri.
    assert (Hlt : ri_n ri < length (cur :: ss)) by (apply nth_error_Some; rewrite (proj1 (skipn_cons_nth_error _ _ _ _ Hsk)); discriminate).
    replace (Nat.ltb (length (cur :: ss)) (ri_n ri)) with false by (symmetry; apply Nat.ltb_ge; lia).
    rewrite Hsk, Hc', Ha'.
    replace (Nat.ltb (length (rev ch ++ trs)) (ri_n ri)) with false
      by (symmetry; apply Nat.ltb_ge; rewrite app_length, rev_length; lia).
    rewrite <- Hn, <- (rev_length ch), firstn_app_exact, skipn_app_exact, rev_involutive. reflexivity.
  Qed.

  (* the move depends on the input through the lookahead only: it is the move on the lookahead alone, where an
     empty rest afterwards tells a shift from a reduction *)
  Lemma mstep_look sts trs rest :
    mstep (sts, trs, rest) =
    match mstep (sts, trs, [look rest]) with
    | Next (a, b, []) => Next (a, b, tl rest)
    | Next (a, b, _ :: _) => Next (a, b, rest)
    | o => o
    end.
  Proof.
    unfold mstep, look. cbn [hd tl]. destruct sts as [|cur ss]; [reflexivity|].
    destruct (cell tbl cur (nterm_count g + hd (eof_idx g) rest)) as [e|]; [|reflexivity].
    destruct (e_kind e); try reflexivity.
    - destruct (rev trs); reflexivity.
    - destruct (e_arg e); reflexivity.
    - destruct (e_arg e) as [r|]; [|reflexivity].
      pose proof (mreduce_decide (cur :: ss) trs rest r) as H1.
      pose proof (mreduce_decide (cur :: ss) trs [hd (eof_idx g) rest] r) as H2.
      destruct (decide_reduce g tbl None (cur :: ss) (length trs) r) as [[ri nst]|x];
        [rewrite H1, H2|destruct H1 as [-> _], H2 as [-> _]]; reflexivity.
  Qed.

  (* one step looks at the remaining input through [look] only, and either keeps it or drops its head *)
  Lemma mstep_swap ss trs r1 r2 : look r1 = look r2 ->
    match mstep (ss, trs, r1) with
    | Next (ss', trs', r1') =>
        (r1' = r1 /\ mstep (ss, trs, r2) = Next (ss', trs', r2)) \/
        (r1' = tl r1 /\ mstep (ss, trs, r2) = Next (ss', trs', tl r2))
    | Acc t => mstep (ss, trs, r2) = Acc t
    | Fail => mstep (ss, trs, r2) = Fail
    | Bad => mstep (ss, trs, r2) = Bad
    end.
  Proof.
    intros Hl. rewrite (mstep_look ss trs r1), (mstep_look ss trs r2), <- Hl.
    destruct (mstep (ss, trs, [look r1])) as [[[a b] [|x l]]| | |]; auto.
  Qed.

  Lemma mstep_rest ss trs r ss' trs' r' : mstep (ss, trs, r) = Next (ss', trs', r') -> r' = r \/ r' = tl r.
  Proof.
    intros H. pose proof (mstep_swap ss trs r r eq_refl) as Hs. rewrite H in Hs. tauto.
  Qed.

  Lemma msteps_rest_len n : forall ss trs r ss' trs' r',
    msteps n (ss, trs, r) (ss', trs', r') -> length r' <= length r.
  Proof.
    induction n as [|n IH]; intros ss trs r ss' trs' r' H; cbn in H.
    - inversion H; subst. lia.
    - destruct H as ([[ss1 trs1] r1] & Hs & H). apply IH in H. apply mstep_rest in Hs.
      destruct Hs as [->| ->]; [assumption|]. destruct r; cbn in *; lia.
  Qed.

  (* prefix independence: what the machine does until a given token is pending does not depend on what follows it *)
  Lemma msteps_tail v v' n : forall ss0 trs0 p ss trs q, q <> [] ->
    msteps n (ss0, trs0, p ++ v) (ss, trs, q ++ v) -> msteps n (ss0, trs0, p ++ v') (ss, trs, q ++ v').
  Proof.
    induction n as [|n IH]; intros ss0 trs0 p ss trs q Hq H.
    - cbn in H |- *. inversion H; subst. apply app_inv_tail in H3. subst. reflexivity.
    - pose proof (msteps_rest_len _ _ _ _ _ _ _ H) as Hlen. rewrite !app_length in Hlen.
      destruct p as [|x p].
      { destruct q; [congruence|]. cbn in Hlen. lia. }
      cbn [msteps] in H |- *. destruct H as ([[ss1 trs1] r1] & Hs & H).
      pose proof (mstep_swap ss0 trs0 ((x :: p) ++ v) ((x :: p) ++ v') eq_refl) as Hsw. rewrite Hs in Hsw.
      destruct Hsw as [[-> Hs']|[-> Hs']].
      + exists (ss1, trs1, (x :: p) ++ v'). split; [assumption|]. apply IH; assumption.
      + exists (ss1, trs1, p ++ v'). split; [assumption|]. apply IH; assumption.
  Qed.

  (* a run through a failing configuration accepts nothing *)
  Lemma msteps_fail_mrun n : forall c c', msteps n c c' -> mstep c' = Fail -> forall m, mrun m c = None.
  Proof.
    induction n as [|n IH]; intros c c' H Hf m.
    - cbn in H. subst c'. destruct m; cbn; [reflexivity|]. rewrite Hf. reflexivity.
    - destruct H as (c1 & Hs & H). destruct m; cbn; [reflexivity|]. rewrite Hs. eapply IH; eassumption.
  Qed.

  Lemma mrun_steps n : forall c t, mrun n c = Some t ->
    exists k c', k < n /\ msteps k c c' /\ mstep c' = Acc t.
  Proof.
    induction n as [|n IH]; intros c t H; cbn [mrun] in H; [discriminate|].
    destruct (mstep c) as [c1|v| |] eqn:Em; try discriminate.
    - destruct (IH _ _ H) as (k & c' & Hk & Hs & Ha). exists (S k), c'. split; [lia|]. split; [|exact Ha].
      cbn. exists c1. auto.
    - inversion H; subst v. exists 0, c. split; [lia|]. split; [reflexivity|exact Em].
  Qed.

End Machine.

(* The action of any driver instance. *)
Section Sim.
  Variables V C : Type.
  Variable g : grammar.
  Variable tbl : table.
  Variable buf : list nat.
  Variable term_f : nat -> nat -> nat -> spoint -> V.
  Variable err_f : spoint -> V.
  Variable rule_f : nat -> C -> list V -> C * V.

  Notation pst := (pstate V C).
  Notation gact := (act V C g tbl buf None term_f err_f rule_f).
  Notation gperform := (perform buf term_f err_f rule_f).

  (* none of the lines a run shows when verbose is off *)
  Definition quiet (ev : list event) : Prop := filter is_nonverbose ev = [].

  (* outside recovery and consume mode, with the lexeme inside the buffer: the action performs the machine's move on
     the same lookahead, over any stack of trees as high as the value stack.  Where the machine fails, the driver
     crashes, or on an error cell enters recovery *)
  Lemma act_sim (s1 : pst) cur cs trs rest :
    ps_rec s1 = false -> ps_cons s1 = false -> ps_cursors s1 = cur :: cs -> ps_end s1 <= length buf ->
    length trs = length (ps_values s1) ->
    match mstep g tbl (cur :: cs, trs, rest) with
    | Next c' =>
        (reads g tbl cur rest KShift /\
         exists nst, gact s1 cur (look g rest) = gperform (MShift (look g rest) nst) s1 /\
                     c' = (nst :: cur :: cs, Leaf (look g rest) :: trs, tl rest)) \/
        (exists r ri nst, gact s1 cur (look g rest) = gperform (MReduce false r ri nst) s1 /\
                          c' = (nst :: skipn (ri_n ri) (cur :: cs),
                                Node (ri_r ri) (rev (firstn (ri_n ri) trs)) :: skipn (ri_n ri) trs, rest))
    | Acc t => reads g tbl cur rest KSuccess /\ hd_error (rev trs) = Some t /\
               gact s1 cur (look g rest) = gperform MAccept s1
    | Fail => (exists c ev, gact s1 cur (look g rest) = (inr (Crash c, s1), ev) /\ quiet ev) \/
              (reads g tbl cur rest KError /\ gact s1 cur (look g rest) = gperform MEnter s1)
    | Bad => reads g tbl cur rest KShiftErr \/ reads g tbl cur rest KRR
    end.
  Proof.
    intros Hr Hc Hcs Hle Hlen. rewrite act_eq. destruct (clr_id V C s1 Hc) as [Hclr Hlc].
    unfold mstep, reads, decide.
    destruct (cell tbl cur (nterm_count g + look g rest)) as [e|c].
    2:{ left. do 2 eexists. split; reflexivity. }
    destruct (e_kind e) eqn:Ek; eauto.
    - (* KError *) right. rewrite Hc, Hr. eauto.
    - (* KSuccess *) destruct trs as [|t trs]; cbn [rev].
      + left. cbn [perform]. destruct (ps_values s1); [|discriminate]. rewrite Hclr, Hlc. do 2 eexists. split; reflexivity.
      + destruct (rev trs); cbn [app]; eauto.
    - (* KShift *) destruct (e_arg e) as [nst|].
      + apply Nat.ltb_ge in Hle. cbn [full]. rewrite Hle. eauto 7.
      + left. cbn [perform]. rewrite Hclr, Hlc. do 2 eexists. split; reflexivity.
    - (* KReduce *) destruct (e_arg e) as [r|].
      2:{ left. cbn [perform]. rewrite Hclr, Hlc. do 2 eexists. split; reflexivity. }
      pose proof (mreduce_decide g tbl (cur :: cs) trs rest r) as Hrs. rewrite Hlen in Hrs. rewrite Hcs.
      destruct (decide_reduce g tbl None (cur :: cs) (length (ps_values s1)) r) as [[ri nst]|x].
      + rewrite Hrs. eauto 6.
      + destruct Hrs as [-> [c ->]]. left. cbn [perform]. rewrite Hclr, Hlc. do 2 eexists. split; reflexivity.
  Qed.
End Sim.

Section Tree.
  Variable g : grammar.
  Variable tbl : table.
  Variable w : list nat.

  (* the three functors of [tree_run] (Spec/LRSpec.v), under names *)
  Definition tf : nat -> nat -> nat -> spoint -> tree := fun t _ _ _ => Leaf t.
  Definition ef : spoint -> tree := fun _ => Leaf (err_idx g).
  Definition rlf : nat -> unit -> list tree -> unit * tree := fun r c args => (c, Node r args).

  Notation dstate := (pstate tree unit).
  Notation dstep := (step tree unit g tbl tree_opts w None id_lexer tf ef rlf).
  Notation drun := (run_from tree unit g tbl tree_opts w None id_lexer tf ef rlf).
  Notation dgct := (get_current_term tree unit g tree_opts w id_lexer).

  Lemma tree_run_eq fuel : tree_run g tbl w fuel = fst (fst (drun fuel (init tt) [])).
  Proof. reflexivity. Qed.

  (* on a boundary inside w, or with the one element w[ps_it s] fetched *)
  Definition pos_ok (s : dstate) : Prop :=
    (ps_it s = ps_end s /\ ps_it s <= length w) \/
    (ps_end s = S (ps_it s) /\ exists a, ps_term s = Some a /\ nth_error w (ps_it s) = Some a).

  Definition normal (s : dstate) : Prop := ps_rec s = false /\ ps_cons s = false /\ pos_ok s.

  Definition abs (s : dstate) : cfg := (ps_cursors s, ps_values s, skipn (ps_it s) w).

  Lemma init_normal : normal (init tt).
  Proof. unfold normal, pos_ok; cbn. repeat split; auto. left. split; [reflexivity|lia]. Qed.

  Lemma init_abs : abs (init tt) = ([0], [], w).
  Proof. reflexivity. Qed.

  Lemma skipn_adv n : skipn (n + length (firstn 1 (skipn n w))) w = tl (skipn n w).
  Proof.
    destruct (skipn n w) as [|a r] eqn:E; cbn.
    - rewrite Nat.add_0_r. assumption.
    - apply skipn_cons_nth_error in E. destruct E as [_ E]. rewrite Nat.add_1_r. assumption.
  Qed.

  Lemma gct_normal s : normal s ->
    exists s1 ev, dgct s = (s1, Some (look g (skipn (ps_it s) w)), ev) /\
      ps_cursors s1 = ps_cursors s /\ ps_values s1 = ps_values s /\
      ps_rec s1 = false /\ ps_cons s1 = false /\
      ps_it s1 = ps_it s /\ ps_end s1 = ps_it s + length (firstn 1 (skipn (ps_it s) w)) /\
      ps_end s1 <= length w /\ ps_term s1 = Some (look g (skipn (ps_it s) w)) /\ quiet ev /\ pos_ok s1.
  Proof.
    destruct s as [cs vs sp it en tm rc cn cx]. unfold normal, pos_ok; cbn.
    intros (Hr & Hc & Hp). subst rc cn.
    unfold get_current_term; cbn [ps_rec ps_it ps_end ps_term ps_sp o_skip_ws tree_opts o_verbose].
    destruct Hp as [[He Hle]|[He (a & Ht & Hn)]].
    - subst en. rewrite Nat.eqb_refl. cbn [negb skipn firstn].
      destruct (skipn it w) as [|c rest] eqn:E.
      + eexists; eexists. split; [reflexivity|]. cbn. repeat split; try reflexivity; try lia.
      + cbn [id_lexer]. eexists; eexists. split; [reflexivity|]. cbn.
        apply skipn_cons_nth_error in E. destruct E as [E _].
        assert (it < length w) by (apply nth_error_Some; congruence).
        repeat split; try reflexivity; try lia.
        right. cbn. split; [lia|]. exists c. rewrite Nat.add_0_r. auto.
    - subst en. replace (Nat.eqb it (S it)) with false by (symmetry; apply Nat.eqb_neq; lia).
      cbn [negb]. rewrite (skipn_nth_error_cons _ _ _ Hn). cbn.
      assert (it < length w) by (apply nth_error_Some; congruence).
      eexists; eexists. split; [rewrite Ht; reflexivity|]. cbn. repeat split; try reflexivity; try lia; [assumption|].
      right. cbn. split; [reflexivity|]. exists a. auto.
  Qed.

  (* one iteration from a state that mirrors a configuration is the machine's move and writes no message; where the
     machine fails the driver crashes, or on an error cell writes the syntax error and enters recovery; [Bad] is
     excluded by every user *)
  Lemma tree_step_sim s : normal s ->
    match mstep g tbl (abs s) with
    | Next c' => exists s' ev, dstep s = (inl s', ev) /\ quiet ev /\ normal s' /\ abs s' = c'
    | Acc v => exists s' ev, dstep s = (inr (Accept v, s'), ev) /\ quiet ev
    | Fail => (exists c s' ev, dstep s = (inr (Crash c, s'), ev) /\ quiet ev /\
                 forall cur cs, ps_cursors s = cur :: cs -> ~ reads g tbl cur (skipn (ps_it s) w) KError) \/
              (exists s1 ev1 cur cs,
                 dstep s = (inl (set_modes s1 true false),
                            ev1 ++ [EvSyntaxError (ps_sp s1) (look g (skipn (ps_it s) w)); EvEnterRecovery (ps_sp s1)]) /\
                 quiet ev1 /\ ps_cursors s1 = ps_cursors s /\ ps_it s1 = ps_it s /\
                 ps_cursors s = cur :: cs /\ reads g tbl cur (skipn (ps_it s) w) KError)
    | Bad => True
    end.
  Proof.
    intros Hn. destruct (gct_normal s Hn) as (s1 & ev1 & Hg & Hcs & Hvs & Hr & Hc & Hit & Hen & Hle & Htm & Hq1 & Hp1).
    unfold abs. destruct (ps_cursors s) as [|cur cs] eqn:Ecs.
    - left. rewrite (step_empty Ecs). do 3 eexists. split; [reflexivity|]. split; [reflexivity|discriminate].
    - rewrite (step_gct Ecs Hg), <- Hvs. destruct (clr_id tree unit s1 Hc) as [Hclr Hlc].
      pose proof (act_sim tree unit g tbl w tf ef rlf s1 cur cs (ps_values s1) (skipn (ps_it s) w) Hr Hc Hcs Hle eq_refl) as Ha.
      unfold quiet in *.
      destruct (mstep g tbl (cur :: cs, ps_values s1, skipn (ps_it s) w)) as [c'|v| |].
      + destruct Ha as [(_ & nst & -> & ->)|(r & ri & nst & -> & ->)]; cbn [perform fst snd]; rewrite Hclr, Hlc;
          do 2 eexists; (split; [reflexivity|]); (split; [now rewrite filter_app, Hq1|]);
          unfold normal, pos_ok, abs; simp_mv; rewrite Hcs.
        * rewrite <- skipn_adv, <- Hen. repeat split; auto.
        * rewrite <- Hit. repeat split; auto.
      + destruct Ha as (_ & Hv & ->). cbn [perform fst snd]. destruct (rev (ps_values s1)); [discriminate|].
        injection Hv as ->. do 2 eexists. split; [reflexivity|]. now rewrite filter_app, Hq1, Hlc.
      + destruct Ha as [(c & ev & Ha & Hq)|(He & Ha)]; rewrite Ha; cbn [perform fst snd].
        * left. do 3 eexists. split; [reflexivity|]. split; [now rewrite filter_app, Hq1, Hq|].
          (* on an error cell the action would have entered recovery *)
          intros ? ? [= <- <-] (e & He & Hk). rewrite act_eq, (decide_error s1 He Hk), Hc, Hr in Ha. discriminate.
        * right. exists s1, ev1, cur, cs. unfold term_or0. rewrite Htm. auto 7.
      + exact I.
  Qed.

  Lemma sim_complete n : forall s t, normal s -> mrun g tbl n (abs s) = Some t ->
    forall out, fst (fst (drun n s out)) = Accept t.
  Proof.
    induction n as [|n IH]; intros s t Hn Hm out; cbn [mrun] in Hm; [discriminate|].
    pose proof (tree_step_sim s Hn) as Hs. destruct (mstep g tbl (abs s)) as [c'|v| |]; try discriminate.
    - destruct Hs as (s' & ev & Hs & _ & Hn' & Ha). subst c'. cbn [run_from]. rewrite Hs. apply IH; assumption.
    - inversion Hm; subst v. destruct Hs as (s' & ev & Hs & _). cbn [run_from]. rewrite Hs. reflexivity.
  Qed.

  Section Sound.
    Variable Inv : cfg -> Prop.
    Hypothesis Inv_not_bad : forall c, Inv c -> mstep g tbl c <> Bad.
    Hypothesis Inv_next : forall c c', Inv c -> mstep g tbl c = Next c' -> Inv c'.
    Hypothesis Herr : err_col_empty g tbl.

    Lemma tree_sim_sound fuel : forall s out t, normal s -> Inv (abs s) ->
      fst (fst (drun fuel s out)) = Accept t -> exists n, mrun g tbl n (abs s) = Some t.
    Proof.
      induction fuel as [|f IH]; intros s out t Hn Hi Hrun; cbn [run_from] in Hrun; [cbn in Hrun; discriminate|].
      pose proof (tree_step_sim s Hn) as Hs. destruct (mstep g tbl (abs s)) as [c'|v| |] eqn:Em.
      - destruct Hs as (s' & ev & Hs & _ & Hn' & Ha). subst c'. rewrite Hs in Hrun.
        destruct (IH _ _ _ Hn' (Inv_next _ _ Hi Em) Hrun) as (n & Hm). exists (S n). cbn [mrun]. rewrite Em. assumption.
      - destruct Hs as (s' & ev & Hs & _). rewrite Hs in Hrun. cbn in Hrun. inversion Hrun; subst v.
        exists 1. cbn [mrun]. rewrite Em. reflexivity.
      - destruct Hs as [(c & s' & ev & Hs & _)|(s1 & ev & cur & cs & Hs & _)]; rewrite Hs in Hrun; [discriminate|].
        exfalso. exact (rec_no_accept _ _ _ _ _ _ _ _ _ _ _ Herr _ (set_modes s1 true false) _ _ eq_refl eq_refl Hrun).
      - exfalso. exact (Inv_not_bad _ Hi Em).
    Qed.

    Theorem accepts_mrun t : Inv ([0], [], w) -> accepts g tbl w t -> exists n, mrun g tbl n ([0], [], w) = Some t.
    Proof.
      intros Hi [fuel Hf]. rewrite tree_run_eq in Hf. rewrite <- init_abs.
      eapply tree_sim_sound; [apply init_normal|rewrite init_abs; assumption|eassumption].
    Qed.
  End Sound.

  Theorem mrun_accepts n t : mrun g tbl n ([0], [], w) = Some t -> accepts g tbl w t.
  Proof.
    intros Hm. rewrite <- init_abs in Hm. exists n. rewrite tree_run_eq. apply (sim_complete n _ _ init_normal Hm).
  Qed.

  Theorem accepts_det t1 t2 : accepts g tbl w t1 -> accepts g tbl w t2 -> t1 = t2.
  Proof.
    intros [f1 H1] [f2 H2]. rewrite tree_run_eq in H1, H2.
    assert (E : drun f1 (init tt) [] = drun f2 (init tt) []) by (apply run_from_det; [rewrite H1|rewrite H2]; discriminate).
    rewrite E, H2 in H1. now inversion H1.
  Qed.
End Tree.
