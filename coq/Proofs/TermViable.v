(* The Prop readings of the checks of Valid/LRProductive.v, which the termination theorems assume
   (Proofs/TermRecMachine.v, Proofs/TermAll.v), and what the checks give by themselves: every reduce the machine
   performs is viable.
   [productiveb_ok]: the boolean productivity check of Valid/LRProductive.v implies [productive].
   Items are valid with their lookahead: under [validate], the check [lookahead_generated] (dot-0 items come after
   an item that generates them, with a lookahead from FIRST(beta a)), [states_nonempty] and [productive], every item
   [A -> alpha . beta, t] of a state on the stack is valid for the stack contents delta alpha below it, and whatever
   delta A derives can be followed by t (t = <eof>: is a sentence).  The proofs use this as [stk_item_follow] of
   Proofs/ReportViable.v at [follow_ok]; [ivalid_la] spells the property out and is used by no proof.
   [action_viable]: when the machine reduces under lookahead a (needs [reduce_lookahead]: the reduce cell is
   justified by a completed item whose lookahead is a), the tokens shifted so far followed by a are a prefix of a
   sentence; at the end of input they are a sentence.  Without [reduce_lookahead] that is false
   ([action_viable_refuted]). *)
Require Import Ctpg.Base.Prelude Ctpg.Proofs.ListFacts Ctpg.Model.Grammar Ctpg.Model.LRGen Ctpg.Model.Driver
               Ctpg.Spec.Cfg Ctpg.Valid.LRValid Ctpg.Valid.LRProductive Ctpg.Proofs.LRReflect Ctpg.Proofs.LRMachine
               Ctpg.Proofs.LRValidFacts Ctpg.Proofs.LRSound Ctpg.Proofs.LRComplete Ctpg.Proofs.ReportLang
               Ctpg.Proofs.ReportViable Ctpg.Proofs.TermFirst.
Require Ctpg.Proofs.LRValidCex Ctpg.Proofs.ReportCex.

Section Productive.
  Variable g : grammar.

  Definition prod_just (p : bset) : Prop := forall l, bset_test p l = true -> exists t, valid_tree g (NT l) t.

  Lemma all_marked_trees p r : prod_just p -> all_marked p r = true -> exists ts, Forall2 (valid_tree g) r ts.
  Proof.
    intros Hj. induction r as [|[a|n] r IH]; cbn [all_marked]; intros H.
    - exists []. constructor.
    - destruct (IH H) as [ts Hts]. exists (Leaf a :: ts). constructor; [constructor|assumption].
    - apply andb_true_iff in H. destruct H as [H1 H2]. destruct (Hj n H1) as [t Ht]. destruct (IH H2) as [ts Hts].
      exists (t :: ts). constructor; assumption.
  Qed.

  Lemma all_marked_In p r m : all_marked p r = true -> In (NT m) r -> bset_test p m = true.
  Proof.
    induction r as [|[a|n] r IH]; cbn [all_marked]; intros H Hin.
    - destruct Hin.
    - destruct Hin as [E|Hin]; [discriminate|]. apply IH; assumption.
    - apply andb_true_iff in H. destruct H as [H1 H2]. destruct Hin as [E|Hin]; [inversion E; subst; exact H1|].
      apply IH; assumption.
  Qed.

  Lemma prod_step_just p ri : In ri (rule_infos g) -> prod_just p -> prod_just (prod_step g p ri).
  Proof.
    intros Hin Hj. unfold prod_step.
    destruct (nth_error (right_sides g) (ri_r ri)) as [rhs|] eqn:Er; [|exact Hj].
    destruct (all_marked p rhs) eqn:Em; [|exact Hj].
    destruct (all_marked_trees p rhs Hj Em) as [ts Hts].
    intros l Hl. apply bset_test_set in Hl. destruct Hl as [->|Hl]; [|apply Hj; exact Hl].
    exists (Node (ri_r ri) ts). econstructor; [|exact Hts].
    apply In_nth_error in Hin. destruct Hin as [i Hi]. exists i, ri. auto.
  Qed.

  Lemma prod_fold_just ris : (forall ri, In ri ris -> In ri (rule_infos g)) ->
    forall p, prod_just p -> prod_just (fold_left (prod_step g) ris p).
  Proof.
    induction ris as [|ri ris IH]; intros Hin p Hj; cbn [fold_left]; [exact Hj|].
    apply IH; [intros; apply Hin; right; assumption|]. apply prod_step_just; [apply Hin; left; reflexivity|exact Hj].
  Qed.

  Lemma prod_iter_just n : forall p, prod_just p -> prod_just (iter_n n (prod_pass g) p).
  Proof.
    induction n as [|n IH]; intros p Hj; cbn [iter_n]; [exact Hj|].
    apply IH. unfold prod_pass. apply prod_fold_just; [auto|exact Hj].
  Qed.

  Lemma prod_set_just : prod_just (prod_set g).
  Proof.
    unfold prod_set. apply prod_iter_just. intros l Hl. rewrite bset_test_empty in Hl. discriminate.
  Qed.

  (* a set that contains the root and is closed under the rules contains every reachable nonterminal *)
  Lemma reach_closed_complete rs x : root_symbol g = Some (NT x) -> bset_test rs x = true ->
    reach_closed g rs = true -> forall l, reachable g l -> bset_test rs l = true.
  Proof.
    intros Hroot Hx Hc l Hl. induction Hl as [y Hy|l r rhs m Hl IH Hrule Hm].
    - rewrite Hroot in Hy. inversion Hy; subst. exact Hx.
    - destruct Hrule as (i & ri & Hi & Hr & Hll & Hrhs). subst r l.
      unfold reach_closed in Hc. rewrite forallb_forall in Hc. specialize (Hc ri (nth_error_In _ _ Hi)).
      rewrite IH, Hrhs in Hc. cbn in Hc. eapply all_marked_In; eassumption.
  Qed.

  Theorem productiveb_ok : productiveb g = true -> productive g.
  Proof.
    unfold productiveb, productive. intros H l Hl.
    destruct (root_symbol g) as [[a|x]|] eqn:Hroot.
    - exfalso. induction Hl as [y Hy|]; [congruence|assumption].
    - cbv zeta in H. apply andb_true_iff in H. destruct H as [H Hall]. apply andb_true_iff in H. destruct H as [Hx Hc].
      pose proof (reach_closed_complete _ x Hroot Hx Hc l Hl) as Hr.
      rewrite forallb_seq0 in Hall. specialize (Hall l (bset_test_lt _ _ Hr)). rewrite Hr in Hall. cbn in Hall.
      exact (prod_set_just l Hall).
    - exfalso. induction Hl as [y Hy|]; [congruence|assumption].
  Qed.
End Productive.

Definition first_tail_gen (g : grammar) (beta : list symbol) (t : nat) : bset :=
  first_tail g (nterm_empty g) (nterm_first g (nterm_empty g)) beta t.

Definition lookahead_generated (g : grammar) (sts : list items) : Prop :=
  forall s j i, nth_error (state_items sts s) j = Some i -> it_d i = 0 ->
    (s = 0 /\ i = root_item g) \/
    exists k ik, k < j /\ nth_error (state_items sts s) k = Some ik /\ next_sym g ik = Some (NT (lhs_of g i)) /\
                 bset_test (first_tail_gen g (skipn (S (it_d ik)) (rhs_of g ik)) (it_t ik)) (it_t i) = true.

Definition reduce_lookahead (g : grammar) (sts : list items) (tbl : table) : Prop :=
  forall s t r, s < length sts -> t < term_count g ->
    e_kind (cell_at tbl s (nterm_count g + t)) = KReduce -> e_arg (cell_at tbl s (nterm_count g + t)) = Some r ->
    exists i, In i (state_items sts s) /\ it_r i = r /\ is_complete g i = true /\ it_t i = t.

Lemma lookahead_generatedb_ok g sts : lookahead_generatedb g sts = true -> lookahead_generated g sts.
Proof.
  intros H s j i Hj Hd. pose proof (forallb_state_items _ _ H s j i Hj) as Ht. cbv beta zeta in Ht.
  rewrite Hj, Hd in Ht. cbn [Nat.eqb negb orb] in Ht.
  apply orb_true_iff in Ht. destruct Ht as [Ht|Ht].
  - left. apply andb_true_iff in Ht. destruct Ht as [H1 H2]. apply Nat.eqb_eq in H1. apply item_eqb_eq in H2. auto.
  - right. apply existsb_nth_before in Ht. destruct Ht as (k & ik & Hk & Ek & Ht).
    exists k, ik. split; [exact Hk|]. split; [exact Ek|].
    destruct (next_sym g ik) as [[a|b]|]; try discriminate.
    apply andb_true_iff in Ht. destruct Ht as [H1 H2]. apply Nat.eqb_eq in H1. subst b. split; [reflexivity|exact H2].
Qed.

Lemma lookahead_closure_generated g sts : lookahead_generated g sts -> closure_generated g sts.
Proof.
  intros H s j i Hj Hd. destruct (H s j i Hj Hd) as [Hl|(k & ik & Hk & Hik & Hnx & _)]; [left; exact Hl|right; eauto].
Qed.

Lemma reduce_lookaheadb_ok g sts tbl : reduce_lookaheadb g sts tbl = true -> reduce_lookahead g sts tbl.
Proof.
  intros H s t r Hs Ht Hk Ha. unfold reduce_lookaheadb in H. rewrite forallb_seq0 in H. specialize (H s Hs).
  rewrite forallb_seq0 in H. specialize (H t Ht). cbv zeta in H. rewrite Hk, Ha in H.
  apply existsb_exists in H. destruct H as (i & Hi & H). exists i. split; [exact Hi|].
  apply andb_true_iff in H. destruct H as [H H3]. apply andb_true_iff in H. destruct H as [H1 H2].
  apply Nat.eqb_eq in H1, H3. auto.
Qed.

Lemma states_nonempty_b_ok sts : states_nonempty_b sts = true -> states_nonempty sts.
Proof. exact (states_nonemptyb_ok sts). Qed.

(* what the boolean checks of Valid/LRProductive.v establish: the hypotheses of the termination results *)
Lemma term_checks_facts g sts tbl : term_checks g sts tbl = true ->
  validate g sts tbl = true /\ lookahead_generated g sts /\ states_nonempty sts /\ reduce_lookahead g sts tbl /\
  productive g.
Proof.
  unfold term_checks. intros H. andb_split.
  repeat split; auto using lookahead_generatedb_ok, states_nonempty_b_ok, reduce_lookaheadb_ok, productiveb_ok.
Qed.

Section ViableLA.
  Variable g : grammar.
  Variable sts : list items.
  Variable tbl : table.
  Hypothesis SF : sound_facts g sts tbl.
  Hypothesis Hprod : productive g.
  Hypothesis Hgen : lookahead_generated g sts.
  Hypothesis Hnonempty : states_nonempty sts.

  Notation items_of := (state_items sts).
  Notation yields := (flat_map yield).
  Notation lhs := (lhs_of g).

  (* the string u can be followed by the term t: u t begins a sentence; for t = <eof>: u is a sentence *)
  Definition follow_ok (u : list nat) (t : nat) : Prop :=
    (t = eof_idx g /\ derives g u) \/ sentence_prefix g (u ++ [t]).

  Lemma follow_ok_prefix u t : follow_ok u t -> sentence_prefix g u.
  Proof.
    intros [[_ Hd]|Hp]; [exact (prefix_root g u Hd)|exact (sentence_prefix_app g u [t] Hp)].
  Qed.

  Lemma follow_ok_cut u b u' t : follow_ok (u ++ b :: u') t -> follow_ok u b.
  Proof.
    intros H. right. apply follow_ok_prefix in H. apply (sentence_prefix_app g _ u').
    rewrite <- app_assoc. exact H.
  Qed.

  Definition lviable_la (delta : list symbol) (A t : nat) : Prop :=
    forall ts tA, Forall2 (valid_tree g) delta ts -> valid_tree g (NT A) tA ->
                  follow_ok (yields ts ++ yield tA) t.

  Definition ivalid_la (gamma : list symbol) (i : item) : Prop :=
    it_r i < rule_count g /\ nts_reachable g (rhs_of g i) /\
    exists delta, gamma = delta ++ firstn (it_d i) (rhs_of g i) /\ it_d i <= length (rhs_of g i) /\
                  lviable_la delta (lhs i) (it_t i).

  (* it strengthens [ivalid] of Proofs/ReportViable.v *)
  Lemma ivalid_la_ivalid gamma i : ivalid_la gamma i -> ivalid g gamma i.
  Proof. exact (ivalid_for_weaken g follow_ok (fun u _ => sentence_prefix g u) gamma i follow_ok_prefix). Qed.

  (* [ivalid_la] is [ivalid_for follow_ok] of Proofs/ReportViable.v written out (ivalid_la_ivalid type-checks by that
     conversion); [la_gen] accounts for the lookaheads of the dot-0 items as [lookahead_generated] says *)
  Notation la_gen := (fun ik i : item =>
    bset_test (first_tail_gen g (skipn (S (it_d ik)) (rhs_of g ik)) (it_t ik)) (it_t i) = true).

  Lemma follow_root u : derives g u -> follow_ok u (eof_idx g).
  Proof. intros Hd. left. auto. Qed.

  (* hypothesis F_cut of Section Follow (Proofs/ReportViable.v) at follow_ok / la_gen. By first_tail_just, t' in
     FIRST(beta t) means: either beta derives a string that begins with t', or beta derives the empty string and t' = t *)
  Lemma follow_cut (i j : item) u : la_gen i j -> nts_reachable g (skipn (S (it_d i)) (rhs_of g i)) ->
    (forall ts, Forall2 (valid_tree g) (skipn (S (it_d i)) (rhs_of g i)) ts -> follow_ok (u ++ yields ts) (it_t i)) ->
    follow_ok u (it_t j).
  Proof.
    intros Hft Hreach H. unfold first_tail_gen in Hft.
    destruct (first_tail_just g sts tbl SF Hprod _ _ _ Hreach Hft) as [(ts & u' & Hts & Hy)|(-> & ts & Hts & Hy)];
      specialize (H ts Hts); rewrite Hy in H.
    - exact (follow_ok_cut _ _ _ _ H).
    - rewrite app_nil_r in H. exact H.
  Qed.

  (* the target of a shift cell is not empty and its first item is a kernel item: its predecessor in the source
     state has the column's term after its dot *)
  Lemma shift_cell_item s a : s < length sts -> a < term_count g ->
    e_kind (cell_at tbl s (nterm_count g + a)) = KShift \/ e_kind (cell_at tbl s (nterm_count g + a)) = KShiftErr ->
    exists i, In i (items_of s) /\ next_sym g i = Some (T a).
  Proof.
    intros Hs Ha Hk.
    destruct (cj_shift _ _ _ _ _ (sf_cell _ _ _ SF s _ Hs (col_lt g _ Ha)) Hk) as (s' & _ & (Hlt & Hnz & Hj) & _).
    assert (Hex : exists i0, nth_error (items_of s') 0 = Some i0).
    { pose proof (Hnonempty s' Hlt) as Hne. destruct (items_of s') as [|i0 its]; [contradiction|]. exists i0. reflexivity. }
    destruct Hex as [i0 H0]. pose proof (nth_error_In _ _ H0) as Hin.
    destruct (it_d i0) as [|d] eqn:Ed.
    - destruct (Hgen s' 0 i0 H0 Ed) as [[E _]|(k & _ & Hk0 & _)]; [contradiction|lia].
    - destruct (Hj i0 d Hin Ed) as (Hin' & x & Hx & Hcol). exists (mkItem (it_r i0) d (it_t i0)). split; [exact Hin'|].
      destruct (item_next_sym_ok g sts tbl SF s' i0 d x Hlt Hin Hx) as (Hok & _).
      rewrite <- (sym_col_inj g x (T a) Hok); [exact Hx|cbn; apply Nat.ltb_lt; exact Ha|exact Hcol].
  Qed.

  (* the machine never shifts <eof>: no item has <eof> after the dot *)
  Lemma eof_not_shifted s : s < length sts ->
    e_kind (cell_at tbl s (nterm_count g + eof_idx g)) = KShift -> False.
  Proof.
    intros Hs Hk. destruct (shift_cell_item s _ Hs (eof_lt_tc g sts tbl SF) (or_introl Hk)) as (i & Hi & Hx).
    exact (proj2 (proj2 (item_next_sym_ok g sts tbl SF s i _ _ Hs Hi Hx)) eq_refl).
  Qed.

  Hypothesis Hred : reduce_lookahead g sts tbl.

  (* a reduce cell is there for a completed item with the column's term as lookahead *)
  Lemma reduce_cell_item s a : s < length sts -> a < term_count g ->
    e_kind (cell_at tbl s (nterm_count g + a)) = KReduce ->
    exists i, In i (items_of s) /\ it_t i = a /\ it_d i = length (rhs_of g i).
  Proof.
    intros Hs Ha Hk. destruct (cj_reduce _ _ _ _ _ (sf_cell _ _ _ SF s _ Hs (col_lt g _ Ha)) Hk) as (r & Harg & _).
    destruct (Hred s a r Hs Ha Hk Harg) as (i & Hi & _ & Hic & Hit). exists i. split; [exact Hi|]. split; [exact Hit|].
    destruct (sf_item _ _ _ SF s i Hs Hi) as (Hrlt & _ & _). destruct (sf_ri _ _ _ SF _ Hrlt) as (_ & _ & Hn).
    rewrite (complete_dot g sts tbl SF s i Hs Hi Hic). exact Hn.
  Qed.

  Lemma no_eof_sentence_prefix u v : ~ sentence_prefix g (u ++ eof_idx g :: v).
  Proof.
    intros (v' & tr & s & Hroot & Hval & Hy).
    destruct (sf_root_rhs _ _ _ SF) as (x & Hrhs).
    rewrite (root_symbol_eq g sts tbl SF x Hrhs) in Hroot. inversion Hroot; subst s.
    apply (no_eof_yield g sts tbl SF tr (NT x) Hval); [discriminate|].
    rewrite Hy. rewrite <- app_assoc. apply in_or_app. right. left. reflexivity.
  Qed.

  (* the reduce is justified by a completed item with the pending term as lookahead *)
  Theorem reduce_viable w cur ss trs rest e :
    SInv g sts w (cur :: ss, trs, rest) ->
    cell tbl cur (nterm_count g + look g rest) = inl e -> e_kind e = KReduce ->
    follow_ok (yields (rev trs)) (look g rest).
  Proof.
    intros (syms & Hst & Hv & _ & Hr) Hc Hk.
    destruct (top_cell g sts tbl SF _ _ _ _ Hst Hr) as (Hcur & Hc' & _). rewrite Hc' in Hc. injection Hc as <-.
    destruct (reduce_cell_item cur _ Hcur (look_lt g sts tbl SF _ Hr) Hk) as (i & Hi & <- & Hd).
    pose proof (stk_item_follow g sts tbl SF follow_ok _ follow_root follow_cut Hgen _ _ _ _ i [] Hst Hv Hi) as Hf.
    rewrite skipn_all2, app_nil_r in Hf by lia. apply Hf. constructor.
  Qed.

  Theorem action_viable w cur ss trs rest e :
    tokens_ok g w -> reach g tbl w (cur :: ss, trs, rest) ->
    cell tbl cur (nterm_count g + look g rest) = inl e -> e_kind e = KReduce ->
    let u := yields (rev trs) in
    (rest <> [] -> sentence_prefix g (u ++ [look g rest])) /\
    (rest = [] -> exists t, derives_tree g t u).
  Proof.
    intros Hw Hr Hc Hk u.
    pose proof (reach_SInv g sts tbl w SF Hw _ Hr) as Hinv.
    pose proof (reduce_viable w _ _ _ _ _ Hinv Hc Hk) as Hf. fold u in Hf.
    destruct Hinv as (_ & _ & _ & _ & Hrest).
    split.
    - intros Hne. destruct Hf as [[E _]|Hf]; [|exact Hf].
      exfalso. apply Hne. apply (look_eof g rest Hrest E).
    - intros ->. cbn [look hd] in Hf. destruct Hf as [[_ Hd]|Hf]; [exact Hd|].
      exfalso. apply (no_eof_sentence_prefix u []). exact Hf.
  Qed.
End ViableLA.

Theorem action_viable_checked g sts tbl w cur ss trs rest e :
  validate g sts tbl = true -> lookahead_generatedb g sts = true ->
  reduce_lookaheadb g sts tbl = true -> productiveb g = true -> tokens_ok g w ->
  reach g tbl w (cur :: ss, trs, rest) ->
  cell tbl cur (nterm_count g + look g rest) = inl e -> e_kind e = KReduce ->
  let u := flat_map yield (rev trs) in
  (rest <> [] -> sentence_prefix g (u ++ [look g rest])) /\
  (rest = [] -> exists t, derives_tree g t u).
Proof.
  intros Hval Hla Hrl Hp Hw.
  pose proof (validate_facts g sts tbl Hval) as SF.
  apply (action_viable g sts tbl SF (productiveb_ok g Hp) (lookahead_generatedb_ok _ _ Hla)
                       (reduce_lookaheadb_ok _ _ _ Hrl) w); exact Hw.
Qed.

Print Assumptions productiveb_ok.
Print Assumptions action_viable.
Print Assumptions action_viable_checked.

Definition term_gen_checks (g : grammar) : option (bool * bool * bool * bool * bool) :=
  match gen g with
  | inl (st, tb) => let sts := map st_all st in
                    Some (validate g sts tb, lookahead_generatedb g sts, states_nonempty_b sts,
                          reduce_lookaheadb g sts tb, productiveb g)
  | inr _ => None
  end.

(* the tables the mirror generator writes pass all checks *)
Example term_generated_pass :
  (term_gen_checks LRValidCex.g1, term_gen_checks LRValidCex.g2, term_gen_checks LRValidCex.g3,
   term_gen_checks ReportCex.g1, term_gen_checks ReportCex.g2, term_gen_checks g_expr) =
  (Some (true, true, true, true, true), Some (true, true, true, true, true), Some (true, true, true, true, true),
   Some (true, true, true, true, true), Some (true, true, true, true, true), Some (true, true, true, true, true)).
Proof. vm_compute. reflexivity. Qed.

(* the item sets of the counterexamples of ReportCex.v (junk items in state 0) do not *)
Example term_junk_fails :
  lookahead_generatedb ReportCex.g1 ReportCex.sts1 = false /\ lookahead_generatedb ReportCex.g2 ReportCex.sts2 = false.
Proof. vm_compute. auto. Qed.

(* S -> A ; A -> A a  (A derives no terminal string).  terms a <eof> <err>; nonterminals S A ## *)
Definition g_unprod :=
  mkG 3 3 3 2 [[NT 1]; [NT 1; T 0]; [NT 0]] [mkRI 0 0 1; mkRI 1 1 2; mkRI 2 2 1] [(0,1);(1,1);(2,1)]
      [0%Z;0%Z;0%Z] [NoAssoc;NoAssoc;NoAssoc] [0%Z;0%Z;0%Z] [NoAssoc;NoAssoc;NoAssoc] [None; Some 0; None].
(* S -> a ; A -> A a, A unreachable: productive in the sense of [productive] *)
Definition g_unprod_unreach :=
  mkG 3 3 3 2 [[T 0]; [NT 1; T 0]; [NT 0]] [mkRI 0 0 1; mkRI 1 1 2; mkRI 2 2 1] [(0,1);(1,1);(2,1)]
      [0%Z;0%Z;0%Z] [NoAssoc;NoAssoc;NoAssoc] [0%Z;0%Z;0%Z] [NoAssoc;NoAssoc;NoAssoc] [Some 0; Some 0; None].

Example productiveb_examples :
  (productiveb g_unprod, productiveb g_unprod_unreach, productiveb g_expr, productiveb ReportCex.g1, productiveb ReportCex.g2) =
  (false, true, true, true, true).
Proof. vm_compute. reflexivity. Qed.

Lemma g_unprod_not_productive : ~ productive g_unprod.
Proof.
  intros H.
  assert (Hr : reachable g_unprod 1).
  { eapply (reach_rule g_unprod 0 0 [NT 1] 1).
    - apply reach_root. reflexivity.
    - exists 0, (mkRI 0 0 1). cbn. auto.
    - left. reflexivity. }
  destruct (H 1 Hr) as [t Ht].
  assert (Hno : forall t, ~ valid_tree g_unprod (NT 1) t).
  { clear. intros t. induction t as [a|r ch IH] using tree_ind'; intros Hv; inversion Hv as [|r' l rhs ch' Hrule Hch]; subst.
    destruct Hrule as (i & ri & Hi & Hr & Hl & Hrhs).
    destruct i as [|[|[|i]]]; cbn in Hi; try (destruct i; discriminate); inversion Hi; subst ri; cbn in *; try discriminate.
    subst r. cbn in Hrhs. inversion Hrhs; subst rhs.
    inversion Hch as [|x c rhs' ch'' Hx Hrest]; subst. inversion IH as [|? ? Hc _]; subst. exact (Hc Hx). }
  exact (Hno t Ht).
Qed.

(* [action_viable] needs [reduce_lookahead].
   S -> a.  terms a=0 <eof>=1 <err>=2; nonterminals S=0 ##=1; columns S ## a <eof> <err>.
   State 1 = {[S -> a ., <eof>]} carries its reduce also in the column of a: [validate] accepts that.
   On input a a the machine reduces S -> a under lookahead a, although no sentence begins with a a. *)
Definition g_la := LRValidCex.g1.
Definition sts_la : list items := [[mkItem 1 0 1; mkItem 0 0 1]; [mkItem 0 1 1]; [mkItem 1 1 1]].
Definition tbl_la : table :=
  [[mkE KShift (Some 2) false; entry_default; mkE KShift (Some 1) false; entry_default; entry_default];
   [entry_default; entry_default; mkE KReduce (Some 0) false; mkE KReduce (Some 0) false; entry_default];
   [entry_default; entry_default; entry_default; mkE KSuccess None false; entry_default]].

Example la_checks :
  (validate g_la sts_la tbl_la, lookahead_generatedb g_la sts_la, states_nonempty_b sts_la, productiveb g_la,
   reduce_lookaheadb g_la sts_la tbl_la) = (true, true, true, true, false).
Proof. vm_compute. reflexivity. Qed.

Lemma g_la_sentences t w : derives_tree g_la t w -> w = [0].
Proof.
  intros (s & Hs & Hv & Hy). cbn in Hs. inversion Hs; subst s. subst w.
  inversion Hv as [|r l rhs ch Hr Hch]; subst.
  destruct Hr as (i & ri & Hi & Hr & Hl & Hrhs).
  destruct i as [|[|i]]; cbn in Hi; try (destruct i; discriminate); inversion Hi; subst ri; cbn in *; try discriminate.
  subst r. cbn in Hrhs. inversion Hrhs; subst rhs.
  inversion Hch as [|x c rhs' ch' Hx Hrest]; subst. inversion Hrest; subst. inversion Hx; subst. reflexivity.
Qed.

Theorem action_viable_refuted :
  validate g_la sts_la tbl_la = true /\ lookahead_generatedb g_la sts_la = true /\ states_nonempty_b sts_la = true /\
  productiveb g_la = true /\ tokens_ok g_la [0; 0] /\
  reach g_la tbl_la [0; 0] ([1; 0], [Leaf 0], [0]) /\
  (exists e, cell tbl_la 1 (nterm_count g_la + look g_la [0]) = inl e /\ e_kind e = KReduce) /\
  ~ sentence_prefix g_la (flat_map yield (rev [Leaf 0]) ++ [look g_la [0]]).
Proof.
  split; [vm_compute; reflexivity|]. split; [vm_compute; reflexivity|]. split; [vm_compute; reflexivity|].
  split; [vm_compute; reflexivity|]. split; [repeat constructor|]. split; [|split].
  - exists 1. cbn. eexists. split; reflexivity.
  - eexists. split; reflexivity.
  - intros (v & t & Hd). apply g_la_sentences in Hd. discriminate.
Qed.

Print Assumptions action_viable_refuted.

(* [action_viable] needs the lookahead part of [lookahead_generated].
   The same grammar and table; state 0 carries the extra item [S -> . a, a] (it comes after [## -> . S, <eof>], so
   [closure_generated] of Proofs/ReportViable.v holds, but a is not in FIRST(<eof>)) and state 1 its successor
   [S -> a ., a]: now the reduce under lookahead a IS justified by an item with that lookahead. *)
Definition sts_la2 : list items :=
  [[mkItem 1 0 1; mkItem 0 0 1; mkItem 0 0 0]; [mkItem 0 1 1; mkItem 0 1 0]; [mkItem 1 1 1]].

Theorem action_viable_refuted_closure_generated :
  validate g_la sts_la2 tbl_la = true /\ closure_generatedb g_la sts_la2 = true /\ states_nonempty_b sts_la2 = true /\
  reduce_lookaheadb g_la sts_la2 tbl_la = true /\ productiveb g_la = true /\
  lookahead_generatedb g_la sts_la2 = false /\ tokens_ok g_la [0; 0] /\
  reach g_la tbl_la [0; 0] ([1; 0], [Leaf 0], [0]) /\
  (exists e, cell tbl_la 1 (nterm_count g_la + look g_la [0]) = inl e /\ e_kind e = KReduce) /\
  ~ sentence_prefix g_la (flat_map yield (rev [Leaf 0]) ++ [look g_la [0]]).
Proof.
  do 6 (split; [vm_compute; reflexivity|]). split; [repeat constructor|]. split; [|split].
  - exists 1. cbn. eexists. split; reflexivity.
  - eexists. split; reflexivity.
  - intros (v & t & Hd). apply g_la_sentences in Hd. discriminate.
Qed.

Print Assumptions action_viable_refuted_closure_generated.
