(* The driver model against the byte-level mirrors of namespace utils and namespace buffers: is_ws is find_char on the
   whitespace table the options select, and Driver.slice_of is get_view of every buffer kind. *)
From Ctpg Require Import Base.Prelude Proofs.ListFacts Model.Containers Model.Utils Model.Driver Model.Buffers
                         Proofs.UtilsCorrect Proofs.BuffersCorrect.
From Coq Require Import List Bool Lia.

Definition ws_table (o : options) : list nat := if o_skip_nl o then ws_newline else ws_no_newline.

Lemma ws_table_nul_free o : nul_free (ws_table o).
Proof. unfold ws_table, ws_newline, ws_no_newline. destruct (o_skip_nl o); repeat constructor; discriminate. Qed.

(* skip_whitespace tests `utils::find_char(byte, space_chars) != uninitialized` on the NUL-terminated table the options select;
   the driver model tests membership in the list: the same predicate on every byte, the NUL byte included (never whitespace) *)
Theorem is_ws_is_find_char : forall o b rest,
  is_ws o b = true <-> exists k, find_char b (ws_table o ++ 0 :: rest) 0 = Ok (Some k).
Proof.
  intros o b rest. unfold is_ws. fold (ws_table o). rewrite mem_nat_In.
  destruct (Nat.eq_dec b 0) as [->|E].
  - rewrite (find_char_nul (ws_table o) rest (ws_table_nul_free o)). split.
    + intros H. elim (nul_free_not_in _ (ws_table_nul_free o) H).
    + intros [k Hk]. discriminate.
  - symmetry. apply find_char_member; [apply ws_table_nul_free | exact E].
Qed.

Theorem nul_is_not_whitespace : forall o, is_ws o 0 = false.
Proof. intros o. unfold is_ws, ws_newline, ws_no_newline. destruct (o_skip_nl o); reflexivity. Qed.

(* the lexeme the driver model hands to term functors (Driver.slice_of) is what get_view of every real buffer kind returns *)
Theorem lexeme_of_every_buffer_kind_is_the_drivers_slice : forall pre text post s e, s <= e -> e <= length text ->
  cs_get_view (cs_of_literal text) s e = Ok (slice_of text s e)
  /\ sb_get_view {| sb_str := text |} s e = Ok (slice_of text s e)
  /\ svb_get_view {| sv_mem := pre ++ text ++ post; sv_off := length pre; sv_len := length text |} (length pre + s) (length pre + e) = Ok (slice_of text s e).
Proof.
  intros pre text post s e Hse He. change (slice_of text s e) with (slice text s e).
  split; [apply cs_view_spec | split; [apply sb_view_spec | apply svb_view_mid]]; assumption.
Qed.

Print Assumptions is_ws_is_find_char.
Print Assumptions lexeme_of_every_buffer_kind_is_the_drivers_slice.
