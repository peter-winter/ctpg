(* The automaton the builder appends for a character term or a string term is a chain
   N -c1-> N+1 -c2-> N+3 -c3-> N+5 ... (the even states N+2, N+4, ... are unreachable leftovers of b_cat);
   the chain stops at the first byte that is not < 256. *)
Require Import Ctpg.Base.Prelude Ctpg.Proofs.ListFacts Ctpg.Model.Dfa Ctpg.Proofs.BuilderSize Ctpg.Proofs.TrieLexerBase.

Definition is_plain (t : term_data) : Prop := match t with TRegex _ => False | _ => True end.

(* the byte string a plain term stands for; string_term("") is the one-byte string "\0" (as in regex_of_term) *)
Definition word_of (t : term_data) : list nat :=
  match t with
  | TChar c => [c]
  | TString [] => [0]
  | TString s => s
  | TRegex _ => []
  end.

Lemma regex_of_plain : forall t, is_plain t ->
  exists c w, word_of t = c :: w /\ regex_of_term t = regex_of_string (c :: w).
Proof.
  intros [c|[|c s]|r] H; cbn in H; try contradiction.
  - exists c, []. split; reflexivity.
  - exists 0, []. split; reflexivity.
  - exists c, s. split; reflexivity.
Qed.

Lemma regex_of_string_snoc : forall c w x,
  regex_of_string (c :: w ++ [x]) = RCat (regex_of_string (c :: w)) (RSet (cs_single x)).
Proof. intros. cbn [regex_of_string]. apply fold_left_app. Qed.

Lemma cs_single_length : forall c, length (cs_single c) = 256.
Proof. intros. unfold cs_single, cs_empty. rewrite update_length, repeat_length. reflexivity. Qed.

Lemma cs_single_nth : forall c x, nth c (cs_single x) false = Nat.eqb c x && Nat.ltb c 256.
Proof.
  intros. unfold cs_single, cs_empty. rewrite nth_update, repeat_length, nth_repeat.
  destruct (Nat.eqb c x) eqn:E; cbn [andb].
  - apply Nat.eqb_eq in E. subst. destruct (Nat.ltb x 256); reflexivity.
  - reflexivity.
Qed.

Lemma sets_ok_word : forall w c, sets_ok p256 (regex_of_string (c :: w)).
Proof.
  induction w as [|x w IH] using rev_ind; intros c.
  - apply cs_single_length.
  - rewrite regex_of_string_snoc. cbn [sets_ok]. split; [apply IH | apply cs_single_length].
Qed.

Lemma sets_ok_plain : forall t, is_plain t -> sets_ok p256 (regex_of_term t).
Proof. intros t H. destruct (regex_of_plain t H) as (c & w & _ & E). rewrite E. apply sets_ok_word. Qed.

Lemma get_snoc2 : forall (sm : dfa) a b q,
  get (sm ++ [a; b]) q = if Nat.eqb q (length sm) then a else if Nat.eqb q (S (length sm)) then b else get sm q.
Proof.
  intros sm a b q. unfold get.
  destruct (Nat.eqb_spec q (length sm)) as [->|H1]; [rewrite app_nth2, Nat.sub_diag by lia; reflexivity|].
  destruct (Nat.eqb_spec q (S (length sm))) as [->|H2].
  - rewrite app_nth2 by lia. replace (S (length sm) - length sm) with 1 by lia. reflexivity.
  - destruct (Nat.lt_ge_cases q (length sm)) as [L|G]; [apply app_nth1; assumption|].
    rewrite !nth_overflow; [reflexivity | lia | rewrite app_length; cbn [length]; lia].
Qed.

(* the two states of primary_subset *)
Definition ps0 (old : nat) (x : nat) : dstate :=
  set_trans (set_start dstate0 true) (map (fun b : bool => if b then Some (S old) else None) (cs_single x)).
Definition ps1 : dstate := set_end dstate0 true.

(* the transitions of a state whose only one is on c, to nx; none at all if c is no byte (as [cs_single]) *)
Definition tr_single (c nx i : nat) : option nat := if Nat.eqb i c && Nat.ltb i 256 then Some nx else None.

Lemma tr_single_at : forall c nx, c < 256 -> tr_single c nx c = Some nx.
Proof. intros c nx H. unfold tr_single. apply Nat.ltb_lt in H. rewrite Nat.eqb_refl, H. reflexivity. Qed.

Lemma tr_single_other : forall c nx i, i <> c -> tr_single c nx i = None.
Proof. intros c nx i H. unfold tr_single. apply Nat.eqb_neq in H. rewrite H. reflexivity. Qed.

Lemma tr_single_nobyte : forall c nx i, 256 <= c -> tr_single c nx i = None.
Proof.
  intros c nx i H. unfold tr_single. destruct (Nat.eqb_spec i c) as [->|_]; [|reflexivity].
  destruct (Nat.ltb_spec c 256); [lia | reflexivity].
Qed.

Lemma ps0_tr : forall old x c, nth c (d_trans (ps0 old x)) None = tr_single x (S old) c.
Proof.
  intros. unfold ps0. cbn [set_trans d_trans].
  pose proof (map_nth (fun b : bool => if b then Some (S old) else None) (cs_single x) false c) as E.
  cbn beta iota in E. rewrite E, cs_single_nth. reflexivity.
Qed.

Lemma mark_end_states_get : forall sm s t q,
  get (mark_end_states sm s t) q =
  if Nat.leb (sl_start s) q && Nat.ltb q (sl_start s + sl_n s) && Nat.ltb q (length sm)
  then mark_end_state (get sm q) t else get sm q.
Proof.
  intros sm s t q. unfold mark_end_states, slice_idxs.
  destruct (Nat.leb_spec (sl_start s) q) as [E1|E1]; [destruct (Nat.ltb_spec q (sl_start s + sl_n s)) as [E2|E2]|];
    cbn [andb].
  - destruct (Nat.ltb_spec q (length sm)) as [E3|E3].
    + apply (fold_upd_in (fun d => mark_end_state d t)); auto; [apply seq_NoDup | apply in_seq; lia].
    + pose proof (mark_end_states_length sm s t) as L. unfold mark_end_states, slice_idxs in L.
      rewrite !get_overflow by lia. reflexivity.
  - apply (fold_upd_notin (fun d => mark_end_state d t)). rewrite in_seq. lia.
  - apply (fold_upd_notin (fun d => mark_end_state d t)). rewrite in_seq. lia.
Qed.

Lemma mark_end_states_tr : forall sm s t q c, tr (mark_end_states sm s t) q c = tr sm q c.
Proof.
  intros. unfold tr, mark_end_states.
  apply (fold_upd_field _ _ (fun d => nth c (d_trans d) None) (fun i => i) (fun _ d => mark_end_state d t)).
  intros _ d. rewrite mark_end_state_trans. reflexivity.
Qed.
Lemma mark_end_states_end : forall sm s t q, d_end (get (mark_end_states sm s t) q) = d_end (get sm q).
Proof.
  intros. apply (fold_upd_field _ _ d_end (fun i => i) (fun _ d => mark_end_state d t)). intros _. apply mark_end_state_end.
Qed.
Lemma mark_end_states_merged : forall sm s t q, d_merged (get (mark_end_states sm s t) q) = d_merged (get sm q).
Proof.
  intros. apply (fold_upd_field _ _ d_merged (fun i => i) (fun _ d => mark_end_state d t)). intros _. apply mark_end_state_merged.
Qed.

(* from [from] the automaton spells u and nothing else, through increasing states, and arrives at e *)
Fixpoint path (sm : dfa) (from : nat) (u : list nat) (e : nat) : Prop :=
  match u with
  | [] => from = e /\ forall i, tr sm from i = None
  | c :: u' => exists nx, from < nx /\
                          (forall i, tr sm from i = tr_single c nx i) /\
                          path sm nx u' e
  end.

Lemma path_end : forall u sm from e, path sm from u e -> from <= e /\ forall i, tr sm e i = None.
Proof.
  induction u as [|c u IH]; intros sm from e H; cbn [path] in H.
  - destruct H as [-> H]. auto.
  - destruct H as (nx & L & _ & H). apply IH in H. destruct H. split; [lia | assumption].
Qed.

(* the last state gets a transition to a new last state *)
Lemma path_snoc : forall u a b from E x e',
  path a from u E -> (forall q i, q < E -> tr b q i = tr a q i) ->
  (forall i, tr b E i = tr_single x e' i) ->
  E < e' -> (forall i, tr b e' i = None) ->
  path b from (u ++ [x]) e'.
Proof.
  induction u as [|c u IH]; intros a b from E x e' H Hlow HE Hlt He'; cbn [path app] in *.
  - destruct H as [-> _]. exists e'. auto.
  - destruct H as (nx & L & T & H). destruct (path_end _ _ _ _ H) as [Hle _].
    exists nx. split; [assumption|]. split; [intros i; rewrite Hlow by lia; apply T | eauto].
Qed.

(* [sm'] is [sm] followed by the chain for the word W: its 2 * |W| states have no slots yet, only the last one is
   an end state, and from the first of them the chain spells W, as far as it is bytes, and ends in the last; their
   merged marks stay below the length, so that the state b_cat appends next is marked nowhere (chain_built_snoc needs
   it for the early return of cat_merge) *)
Definition chain_built (sm sm' : dfa) (W : list nat) : Prop :=
  let N := length sm in
  let L := N + 2 * length W in
  length sm' = L /\
  (forall q, q < N -> get sm' q = get sm q) /\
  (forall q, N <= q -> d_rec (get sm' q) = [] /\ d_end (get sm' q) = Nat.eqb q (L - 1) /\
                        forall m, In m (d_merged (get sm' q)) -> m < L) /\
  path sm' N W (L - 1).

Lemma chain_built_one : forall sm x, chain_built sm (sm ++ [ps0 (length sm) x; ps1]) [x].
Proof.
  intros sm x. unfold chain_built. cbn [length]. set (N := length sm).
  split; [rewrite app_length; cbn [length]; lia|].
  split; [intros q Hq; apply get_app1, Hq|].
  split.
  - intros q Hq. rewrite get_snoc2. fold N.
    destruct (Nat.eqb_spec q N) as [->|H1]; [|destruct (Nat.eqb_spec q (S N)) as [->|H2]].
    + split; [reflexivity|]. split; [symmetry; apply Nat.eqb_neq; lia | intros m []].
    + split; [reflexivity|]. split; [symmetry; apply Nat.eqb_eq; lia | intros m []].
    + rewrite get_overflow by (fold N; lia). split; [reflexivity|].
      split; [symmetry; apply Nat.eqb_neq; lia | intros m []].
  - cbn [path]. exists (S N). split; [lia|]. split; [|split; [lia|]]; intros i; unfold tr; rewrite get_snoc2; fold N.
    + rewrite Nat.eqb_refl. apply ps0_tr.
    + destruct (Nat.eqb_spec (S N) N); [lia|]. rewrite Nat.eqb_refl. apply tr_dstate0.
Qed.

Lemma merge_ends_skip : forall l sm rest b k m,
  (forall i, In i l -> d_end (get sm i) = false) ->
  merge_ends sm (l ++ rest) b k m = merge_ends sm rest b k m.
Proof.
  induction l as [|i l IH]; intros sm rest b k m H; cbn [app merge_ends]; auto.
  rewrite (H i) by (left; reflexivity). apply IH. intros j Hj. apply H. right. assumption.
Qed.

(* the merge of b_cat: the last state E of the chain, which has no transition yet, takes over the one transition
   of the fresh state F and stops being an end state; if x is no byte (Nat.ltb x 256 in the last conclusion) F has no
   transition and E gets none: there the chain stops *)
Lemma cat_merge : forall sm2 E F x nx f sm',
  wf p256 sm2 -> E <> F -> E < length sm2 -> F < length sm2 ->
  ~ In F (d_merged (get sm2 E)) ->
  (forall i, tr sm2 E i = None) ->
  (forall i, tr sm2 F i = tr_single x nx i) ->
  d_rec (get sm2 F) = [] -> d_end (get sm2 F) = false ->
  merge (S f) sm2 E F false true = Some sm' ->
  length sm' = length sm2 /\
  (forall q, q <> E -> q <> F -> q <> nx -> get sm' q = get sm2 q) /\
  (forall q, d_rec (get sm' q) = d_rec (get sm2 q)) /\
  (forall q, d_end (get sm' q) = if Nat.eqb q E then false else d_end (get sm2 q)) /\
  (forall q, d_merged (get sm' q) = if Nat.eqb q E then F :: d_merged (get sm2 E) else d_merged (get sm2 q)) /\
  (forall q i, tr sm' q i = if Nat.ltb x 256 && Nat.eqb q E && Nat.eqb i x then Some nx else tr sm2 q i).
Proof.
  intros sm2 E F x nx f sm' W2 Hne LE LF Hmem TE TF RF EF EM.
  set (s0 := pre_merge sm2 E F false true).
  assert (O0 : forall q, q <> E -> q <> F -> get s0 q = get sm2 q).
  { intros q H1 H2. unfold s0. rewrite get_pre_merge by assumption.
    apply Nat.eqb_neq in H1. apply Nat.eqb_neq in H2. rewrite H1, H2. reflexivity. }
  assert (E0 : forall q, d_end (get s0 q) = if Nat.eqb q E then false else d_end (get sm2 q))
    by (intros; unfold s0; rewrite pre_merge_end, EF by assumption; reflexivity).
  pose proof (pre_merge_merged sm2 E F false true) as M0.
  destruct (Nat.ltb_spec x 256) as [Ex|Ex]; cbn [andb].
  - rewrite (merge_attach _ _ _ _ _ _ x) with (nx := nx) in EM; auto.
    2:{ intros i Hi. rewrite TF. apply tr_single_other, Hi. }
    2:{ rewrite TF. apply tr_single_at, Ex. }
    rewrite post_merge_nil in EM by (rewrite attach_rec, pre_merge_rec; exact RF).
    inversion EM; subst sm'. fold s0.
    split; [rewrite attach_length; apply pre_merge_length|].
    split; [intros q H1 H2 H3; rewrite attach_get_other by assumption; apply O0; assumption|].
    split; [intros q; rewrite attach_rec; apply pre_merge_rec|].
    split; [intros q; rewrite attach_end; apply E0|].
    split; [intros q; rewrite attach_merged; apply M0; assumption|].
    intros q i. rewrite attach_tr; [unfold s0; rewrite pre_merge_tr; reflexivity | |].
    + unfold s0. rewrite pre_merge_length. assumption.
    + unfold s0. rewrite pre_merge_trans, trans_len; assumption.
  - assert (TF0 : forall i, tr sm2 F i = None) by (intros i; rewrite TF; apply tr_single_nobyte, Ex).
    rewrite (merge_leaf _ _ _ _ _ _ 0) in EM; auto; try lia.
    rewrite post_merge_nil in EM by (rewrite pre_merge_rec; exact RF).
    inversion EM; subst sm'. fold s0.
    split; [apply pre_merge_length|].
    split; [intros q H1 H2 H3; apply O0; assumption|].
    split; [intros q; apply pre_merge_rec|]. split; [exact E0|]. split; [intros q; apply M0; assumption|].
    intros q i. apply pre_merge_tr.
Qed.

(* one more character: b_cat of the chain with a fresh two-state automaton *)
Lemma chain_built_snoc : forall sm sm1 W x sm',
  W <> [] -> wf p256 sm1 -> chain_built sm sm1 W ->
  merge_ends (sm1 ++ [ps0 (length sm1) x; ps1]) (seq (length sm) (2 * length W)) (length sm1) false true = Some sm' ->
  chain_built sm sm' (W ++ [x]).
Proof.
  intros sm sm1 W x sm' HW W1 (B1 & B2 & B3 & B4) HM. cbv zeta in *.
  set (N := length sm) in *. set (n := length W) in *.
  assert (Hn : 1 <= n) by (unfold n; destruct W; [congruence | cbn [length]; lia]).
  set (F := length sm1) in *. set (sm2 := sm1 ++ [ps0 F x; ps1]) in *.
  assert (G2 : forall q, get sm2 q = if Nat.eqb q F then ps0 F x else if Nat.eqb q (S F) then ps1 else get sm1 q)
    by (intros; apply get_snoc2).
  assert (G1 : forall q, q < F -> get sm2 q = get sm1 q) by (intros; apply get_app1; assumption).
  rewrite <- B1 in B4. set (E := F - 1) in *.
  destruct (B3 E ltac:(lia)) as (_ & BEe & BEm). rewrite <- B1 in BEe, BEm. fold E in BEe. rewrite Nat.eqb_refl in BEe.
  (* the loop of b_cat merges only at the last state of the chain *)
  replace (2 * n) with ((2 * n - 1) + 1) in HM by lia.
  rewrite seq_app, merge_ends_skip in HM.
  2:{ intros i Hi. apply in_seq in Hi. rewrite G1 by lia. destruct (B3 i ltac:(lia)) as (_ & -> & _). apply Nat.eqb_neq. lia. }
  replace (N + (2 * n - 1)) with E in HM by lia.
  cbn [seq merge_ends] in HM. rewrite G1, BEe in HM by lia.
  destruct (merge (merge_fuel sm2) sm2 E F false true) as [sm''|] eqn:EM; [|discriminate].
  inversion HM; subst sm''. clear HM.
  assert (L2 : length sm2 = F + 2) by (unfold sm2; rewrite app_length; cbn [length]; lia).
  assert (TE : forall i, tr sm2 E i = None).
  { intros i. unfold tr. rewrite G1 by lia. exact (proj2 (path_end _ _ _ _ B4) i). }
  destruct (cat_merge sm2 E F x (S F) (length sm2 * length sm2) sm') as (S1 & S2 & S3 & S4 & S5 & S6);
    try exact EM; try lia.
  { apply (primary_subset_wf p256 eq_refl sm1 (cs_single x)); [apply cs_single_length | assumption]. }
  { rewrite G1 by lia. intros C. apply BEm in C. lia. }
  { exact TE. }
  { intros i. unfold tr. rewrite G2, Nat.eqb_refl. apply ps0_tr. }
  { rewrite G2, Nat.eqb_refl. reflexivity. }
  { rewrite G2, Nat.eqb_refl. reflexivity. }
  rewrite L2 in S1.
  unfold chain_built. cbv zeta. fold N. rewrite app_length. cbn [length]. fold n.
  replace (N + 2 * (n + 1)) with (F + 2) by lia.
  split; [exact S1|].
  split. { intros q Hq. rewrite S2, G1 by lia. apply B2. assumption. }
  split.
  - intros q Hq. rewrite S3, S4, S5, !G2.
    destruct (Nat.eqb_spec q F) as [->|H1]; [|destruct (Nat.eqb_spec q (S F)) as [->|H2]].
    + destruct (Nat.eqb_spec F E); [lia|]. split; [reflexivity|].
      split; [symmetry; apply Nat.eqb_neq; lia | intros m []].
    + destruct (Nat.eqb_spec (S F) E); [lia|]. split; [reflexivity|].
      split; [symmetry; apply Nat.eqb_eq; lia | intros m []].
    + destruct (B3 q Hq) as (b1 & b2 & b3). split; [exact b1|].
      replace (Nat.eqb q (F + 2 - 1)) with false by (symmetry; apply Nat.eqb_neq; lia).
      rewrite b2, <- B1. fold E. destruct (Nat.eqb_spec E F); [lia|]. destruct (Nat.eqb_spec E (S F)); [lia|].
      destruct (Nat.eqb q E); split; auto.
      * intros m [<-|Hm]; [lia|]. apply BEm in Hm. lia.
      * intros m Hm. apply b3 in Hm. lia.
  - replace (F + 2 - 1) with (S F) by lia. apply (path_snoc W sm1 sm' N E x (S F) B4); [| |lia|].
    + intros q i Hq. rewrite S6. destruct (Nat.eqb_spec q E); [lia|]. rewrite andb_false_r. cbn [andb].
      unfold tr. rewrite G1 by lia. reflexivity.
    + intros i. rewrite S6, Nat.eqb_refl, TE. unfold tr_single. destruct (Nat.eqb_spec i x) as [->|_]; destruct (Nat.ltb x 256); reflexivity.
    + intros i. rewrite S6. destruct (Nat.eqb_spec (S F) E); [lia|]. rewrite andb_false_r. cbn [andb].
      unfold tr. rewrite G2. destruct (Nat.eqb_spec (S F) F); [lia|]. rewrite Nat.eqb_refl. apply tr_dstate0.
Qed.

Lemma build_word : forall w c0 sm sm' s,
  wf p256 sm -> build (regex_of_string (c0 :: w)) sm = Some (sm', s) ->
  s = mkSl (length sm) (2 * S (length w)) /\ chain_built sm sm' (c0 :: w).
Proof.
  induction w as [|x w IH] using rev_ind; intros c0 sm sm' s Wsm H.
  - cbn [regex_of_string fold_left build] in H. unfold primary_subset in H. inversion H; subst.
    split; [reflexivity|]. apply chain_built_one.
  - rewrite regex_of_string_snoc in H. cbn [build] in H.
    destruct (build (regex_of_string (c0 :: w)) sm) as [[sm1 s1]|] eqn:E1; [|discriminate].
    pose proof (build_wf p256 eq_refl _ _ _ _ (sets_ok_word w c0) Wsm E1) as W1.
    apply IH in E1; [|assumption]. destruct E1 as [-> CB].
    unfold primary_subset, b_cat in H. cbn [sl_start sl_n slice_idxs] in H.
    destruct (merge_ends _ _ _ _ _) as [sm2|] eqn:E2; [|discriminate].
    cbn [option_map] in H. inversion H; subst. clear H.
    split.
    + rewrite app_length. cbn [length]. f_equal. lia.
    + change (c0 :: w ++ [x]) with ((c0 :: w) ++ [x]).
      eapply chain_built_snoc; [discriminate | exact W1 | exact CB | exact E2].
Qed.

(* [chain sm N from u r]: the states met from [from] along u, one per prefix, all of them >= N and increasing,
   have no transitions but those along u, and none on a letter of u that is not a byte; the last state carries
   the slots r. [path] above says as much of the automaton while b_cat builds it (end state named, no bound, no
   slots); chain_of_built passes from it to [chain] once the slots are marked. *)
Fixpoint chain (sm : dfa) (N from : nat) (u r : list nat) : Prop :=
  N <= from /\ from < length sm /\
  match u with
  | [] => (forall i, tr sm from i = None) /\ d_rec (get sm from) = r /\ (d_end (get sm from) = true \/ r = [])
  | c :: u' => d_rec (get sm from) = [] /\
               exists nx, from < nx /\
                          (forall i, tr sm from i = tr_single c nx i) /\
                          chain sm N nx u' r
  end.

(* the automaton handed to the final merge of add_term *)
Definition marked_chain (sm sm1 : dfa) (W : list nat) (idx : nat) : dfa :=
  mark_end_states sm1 (mkSl (length sm) (2 * length W)) idx.

Lemma chain_of_built : forall sm sm1 W idx,
  W <> [] -> chain_built sm sm1 W ->
  let sm2 := marked_chain sm sm1 W idx in
  length sm2 = length sm + 2 * length W /\
  (forall q, q < length sm -> get sm2 q = get sm q) /\
  (forall q m, length sm <= q -> In m (d_merged (get sm2 q)) -> m < length sm2) /\
  chain sm2 (length sm) (length sm) W [idx].
Proof.
  intros sm sm1 W idx HW (B1 & B2 & B3 & B4) sm2. cbv zeta in *.
  set (N := length sm) in *. set (n := length W) in *.
  assert (Hn : 1 <= n) by (unfold n; destruct W; [congruence | cbn [length]; lia]).
  assert (L2 : length sm2 = N + 2 * n) by (unfold sm2, marked_chain; rewrite mark_end_states_length; exact B1).
  assert (T2 : forall q c, tr sm2 q c = tr sm1 q c) by (intros; apply mark_end_states_tr).
  assert (E2 : forall q, d_end (get sm2 q) = d_end (get sm1 q)) by (intros; apply mark_end_states_end).
  assert (G2 : forall q, get sm2 q = if Nat.leb N q && Nat.ltb q (N + 2 * n) && Nat.ltb q (length sm1)
                                     then mark_end_state (get sm1 q) idx else get sm1 q)
    by (intros; apply mark_end_states_get).
  (* only the last state of the chain is an end state, so only it is marked *)
  assert (R2 : forall q, N <= q -> d_rec (get sm2 q) = if Nat.eqb q (N + 2 * n - 1) then [idx] else []).
  { intros q Hq. rewrite G2. destruct (B3 q Hq) as (b1 & b2 & _). unfold mark_end_state. rewrite b2, B1.
    destruct (Nat.eqb_spec q (N + 2 * n - 1)) as [->|_].
    - destruct (Nat.leb_spec N (N + 2 * n - 1)); [|lia]. destruct (Nat.ltb_spec (N + 2 * n - 1) (N + 2 * n)); [|lia].
      cbn [andb set_rec d_rec]. rewrite b1. reflexivity.
    - destruct (_ && _ && _); exact b1. }
  split; [exact L2|].
  split. { intros q Hq. rewrite G2. destruct (Nat.leb_spec N q); [lia|]. apply B2. assumption. }
  split. { intros q m Hq Hm. unfold sm2, marked_chain in Hm. rewrite mark_end_states_merged in Hm.
           rewrite L2. apply (B3 q Hq). assumption. }
  assert (Gen : forall suf from, N <= from -> path sm1 from suf (N + 2 * n - 1) -> chain sm2 N from suf [idx]).
  { induction suf as [|c t IH]; intros from Hf Hp; cbn [path chain] in *.
    - destruct Hp as [-> Hp]. split; [lia|]. split; [lia|]. split; [|split].
      + intros i. rewrite T2. apply Hp.
      + rewrite R2, Nat.eqb_refl by lia. reflexivity.
      + left. rewrite E2. destruct (B3 (N + 2 * n - 1) ltac:(lia)) as (_ & -> & _). apply Nat.eqb_refl.
    - destruct Hp as (nx & Hlt & Ht & Hp). destruct (path_end _ _ _ _ Hp) as [Hle _].
      split; [assumption|]. split; [lia|]. split.
      + rewrite R2 by assumption. destruct (Nat.eqb_spec from (N + 2 * n - 1)); [lia | reflexivity].
      + exists nx. split; [assumption|]. split; [intros i; rewrite T2; apply Ht | apply IH; [lia | assumption]]. }
  apply Gen; [lia | exact B4].
Qed.

(* [frame N a b]: b shows the matcher the same states >= N as a *)
Definition frame (N : nat) (a b : dfa) : Prop :=
  forall q, N <= q -> (forall i, tr b q i = tr a q i) /\ d_rec (get b q) = d_rec (get a q) /\
                      d_end (get b q) = d_end (get a q).

Lemma frame_trans : forall N a b c, frame N a b -> frame N b c -> frame N a c.
Proof.
  intros N a b c H1 H2 q Hq. destruct (H1 q Hq) as (A1 & A2 & A3). destruct (H2 q Hq) as (B1 & B2 & B3).
  split; [intros i; rewrite B1; apply A1|]. split; congruence.
Qed.

Lemma chain_ext : forall u a b N from r, length b = length a -> frame N a b -> chain a N from u r -> chain b N from u r.
Proof.
  induction u as [|c u IH]; intros a b N from r HL H Hc; cbn [chain] in *.
  - destruct Hc as (H1 & H2 & H3 & H4 & H5). destruct (H from H1) as (T & R & E).
    split; [assumption|]. split; [lia|]. split; [|split].
    + intros i. rewrite T. apply H3.
    + congruence.
    + rewrite E. assumption.
  - destruct Hc as (H1 & H2 & H4 & nx & H6 & H7 & H9). destruct (H from H1) as (T & R & E).
    split; [assumption|]. split; [lia|]. split; [congruence|].
    exists nx. split; [assumption|]. split; [intros i; rewrite T; apply H7|]. eapply IH; eauto.
Qed.

Lemma chain_lo : forall u sm N from r, chain sm N from u r -> N <= from /\ from < length sm.
Proof. intros [|c u] sm N from r H; cbn [chain] in H; destruct H as (H1 & H2 & _); auto. Qed.

(* a walk along a chain reads a prefix of its word and arrives, further up, at the chain of the rest *)
Lemma chain_walk : forall y u sm N from r q,
  chain sm N from u r -> walk sm from y = Some q ->
  exists z, u = y ++ z /\ chain sm N q z r /\ from + length y <= q.
Proof.
  induction y as [|c' y IH]; intros u sm N from r q Hc Hw; cbn [walk] in Hw.
  - inversion Hw; subst q. exists u. cbn [app length]. split; [reflexivity|]. split; [assumption | lia].
  - destruct u as [|c u]; cbn [chain] in Hc.
    + destruct Hc as (_ & _ & H3 & _). rewrite H3 in Hw. discriminate.
    + destruct Hc as (_ & _ & _ & nx & H6 & H7 & H9). rewrite H7 in Hw. unfold tr_single in Hw.
      destruct (Nat.eqb_spec c' c) as [->|Hne]; [|discriminate]. destruct (Nat.ltb c 256); [|discriminate].
      cbn [andb] in Hw. destruct (IH _ _ _ _ _ _ H9 Hw) as (z & -> & Hz & Hl).
      exists z. cbn [app length]. split; [reflexivity|]. split; [assumption | lia].
Qed.

Lemma chain_walk_lo : forall u sm N from r y q,
  chain sm N from u r -> walk sm from y = Some q -> N <= q.
Proof.
  intros u sm N from r y q Hc Hw. destruct (chain_walk _ _ _ _ _ _ _ Hc Hw) as (z & _ & Hz & _).
  apply (chain_lo _ _ _ _ _ Hz).
Qed.

(* the states of a chain increase along it: a walk that comes back to its state is empty *)
Lemma chain_walk_inj : forall u sm N from r y1 y2 q,
  chain sm N from u r -> walk sm from y1 = Some q -> walk sm from y2 = Some q -> y1 = y2.
Proof.
  intros u sm N from r y1 y2 q Hc H1 H2.
  assert (Loop : forall y l, walk sm from y = Some q -> walk sm from (y ++ l) = Some q -> y ++ l = y).
  { intros y l Hy Hl. rewrite walk_app, Hy in Hl.
    destruct (chain_walk _ _ _ _ _ _ _ Hc Hy) as (z & _ & Hz & _).
    destruct (chain_walk _ _ _ _ _ _ _ Hz Hl) as (_ & _ & _ & Hlen).
    destruct l; [apply app_nil_r | cbn [length] in Hlen; lia]. }
  destruct (chain_walk _ _ _ _ _ _ _ Hc H1) as (z1 & E1 & _). destruct (chain_walk _ _ _ _ _ _ _ Hc H2) as (z2 & E2 & _).
  rewrite E1 in E2. apply app_eq_app in E2 as (l & [[-> _] | [-> _]]); [|symmetry]; apply Loop; assumption.
Qed.

Lemma chain_walk_full : forall u sm N from r,
  Forall (fun c => c < 256) u -> chain sm N from u r -> exists q, walk sm from u = Some q.
Proof.
  induction u as [|c u IH]; intros sm N from r Hu Hc; cbn [chain] in Hc; cbn [walk].
  - eauto.
  - destruct Hc as (_ & _ & _ & nx & H6 & H7 & H9). inversion Hu as [|c0 u0 Hc256 Hu']; subst.
    rewrite H7, tr_single_at by assumption. eapply IH; eauto.
Qed.
