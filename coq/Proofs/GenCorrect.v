(* What the generator's output passes, read off the cells of Proofs/GenResolvedInv.v ([cell_rec]).
   Without a mark R/R, and if no state hides the accept/reduce conflict D12, a cell is a function of the reduce items
   and the shift items of the bucket of its column ([cell_form], which keeps the S/R flag; [cell_rec_form] gets it
   from the outcome of the scan, bucket_scan_outcome of Proofs/GenTrans.v). One walk over states and
   columns turns that into the verdict of the validator for resolved tables ([gen_resolved_ok]); the flag being false
   everywhere says that no state has a shift item and a reduce item on one term, and the full LR(1) validator is the
   resolved one on such item sets (GroupingFacts.resolved_unconflicted_table_ok): [gen_validates]. *)
Require Import Ctpg.Base.Prelude Ctpg.Proofs.ListFacts Ctpg.Model.Grammar Ctpg.Model.LRGen Ctpg.Valid.LRValid
               Ctpg.Valid.LRResolved Ctpg.Proofs.LRReflect Ctpg.Proofs.GenLists Ctpg.Proofs.GenWf
               Ctpg.Proofs.GenFirst Ctpg.Proofs.GenClosure Ctpg.Proofs.GenScan Ctpg.Proofs.GenTrans
               Ctpg.Proofs.GenResolvedInv.
Require Import Ctpg.Spec.Conflict Ctpg.Proofs.CellBasics Ctpg.Proofs.CellResolve Ctpg.Proofs.GroupingFacts.

(* no cell of a finished state carries a conflict mark *)
Definition conflict_free (g : grammar) (nstates : nat) (tbl : table) : bool :=
  forallb (fun s => forallb (fun c => let e := nth c (nth s tbl []) entry_default in
                                      negb (e_sr e) && negb (kind_eqb (e_kind e) KRR)) (seq 0 (symbol_count g))) (seq 0 nstates).
(* the accept/reduce conflict that the scan hides (known deviation D12): excluded by hypothesis. The test under
   forallb is GenTrans.st_clean g (st_all st) written out (accept_clean_st). *)
Definition accept_clean (g : grammar) (sts : list lrstate) : bool :=
  forallb (fun st => negb (existsb (fun i => Nat.eqb (it_r i) (root_rule_idx g) && is_complete g i) (st_all st)
                           && existsb (fun i => negb (Nat.eqb (it_r i) (root_rule_idx g)) && is_complete g i && Nat.eqb (it_t i) (eof_idx g)) (st_all st))) sts.

Lemma accept_clean_st g sts : accept_clean g sts = true -> forall s, s < length sts -> st_clean g (st_all (stn sts s)) = true.
Proof. unfold accept_clean. rewrite forallb_forall. intros H s Hs. apply (H (stn sts s)). apply nth_In. assumption. Qed.

Lemma gen_dims_ok g lim sts tbl : gen_facts g lim sts tbl -> dims_ok g (map st_all sts) tbl = true.
Proof.
  intros GF. unfold dims_ok. rewrite map_length.
  pose proof (gf_pos _ _ _ _ GF). pose proof (gf_cap _ _ _ _ GF). pose proof (gf_tbl _ _ _ _ GF).
  apply andb_true_iff. split; [apply andb_true_iff; split|].
  - apply Nat.leb_le. lia.
  - apply Nat.ltb_lt. assumption.
  - apply forallb_seq0. intros s Hs. apply Nat.eqb_eq. apply (gf_rows _ _ _ _ GF). lia.
Qed.

(* the entry [e] of column [c] is a transition into state [idx], whose kernel is the advanced shift items of [B] *)
Definition shift_to (g : grammar) (sts : list lrstate) (c : nat) (B : list item) (e : entry) (idx : nat) : Prop :=
  e_kind e = kd g c /\ e_arg e = Some idx /\ idx < length sts /\ idx <> 0 /\
  forall j, In j (st_kernel (stn sts idx)) <-> exists i, In i B /\ is_complete g i = false /\ j = adv i.

(* the cell (s, c) read off the bucket B of its column; the flag of the entry tells whether both kinds of item
   are there, and then the documented rule has chosen. For a nonterminal column c - nterm_count g is 0 and is never
   consulted: such a bucket has no completed item, so CF_reduce does not occur and CF_shift holds by
   reduce_items g B = []. *)
Inductive cell_form (g : grammar) (sts : list lrstate) (c : nat) (B : list item) (e : entry) : Prop :=
| CF_empty : B = [] -> e = entry_default -> cell_form g sts c B e
| CF_accept : B <> [] -> (forall i, In i B -> is_complete g i = true /\ it_r i = root_rule_idx g) ->
              e_kind e = KSuccess -> cell_form g sts c B e
| CF_reduce : (forall i, In i B -> is_complete g i = true -> it_r i <> root_rule_idx g) ->
              forall i, reduce_items g B = [i] ->
              (shift_items g B = [] \/ sr_choice g (it_r i) (c - nterm_count g) = KReduce) ->
              e = mkE KReduce (Some (it_r i)) (match shift_items g B with [] => false | _ => true end) ->
              cell_form g sts c B e
| CF_shift : (forall i, In i B -> is_complete g i = true -> it_r i <> root_rule_idx g) ->
             shift_items g B <> [] ->
             (reduce_items g B = [] \/
              exists i, reduce_items g B = [i] /\ sr_choice g (it_r i) (c - nterm_count g) = KShift) ->
             forall idx, shift_to g sts c B e idx ->
             e_sr e = (match reduce_items g B with [] => false | _ => true end) ->
             cell_form g sts c B e.

Section Cell.
  Variable g : grammar.
  Hypothesis WF : wf_facts g.
  Variable sts : list lrstate.
  Variable tbl : table.
  Variables s c : nat.
  Hypothesis D : st_disc g s (stn sts s).
  Hypothesis Hrec : cell_rec g sts tbl s c.
  Hypothesis Hclean : st_clean g (st_all (stn sts s)) = true.
  Hypothesis Hnorr : e_kind (cell_at tbl s c) <> KRR.
  Let B := bucket g (st_all (stn sts s)) c.

  (* where the scan stops, the cell has the kind it stopped with *)
  Lemma stopped_kind pre i post : B = pre ++ i :: post -> sc_kind (scan_cell g B scan0) <> KShift ->
    e_kind (cell_at tbl s c) = sc_kind (scan_cell g B scan0).
  Proof.
    intros E Hk. destruct Hrec as [(EB & _)|[(_ & _ & Ee)|(_ & Ek & _)]].
    - fold B in EB. rewrite EB in E. destruct pre; discriminate.
    - rewrite Ee. apply nonshift_entry_kind.
    - contradiction.
  Qed.

  (* By the outcome of the scan. If it stops at a completed root item, the bucket holds nothing else (the state is
     accept-clean); it does not stop at a second reduction, since the cell is not marked R/R; if it runs to the end
     it leaves the summary of the bucket, with at most one reduce item, and the entry is read off the two lists. *)
  Lemma cell_rec_form : cell_form g sts c B (cell_at tbl s c).
  Proof.
    pose proof (B_in g s (stn sts s) D c) as HBin. fold B in HBin.
    pose proof stopped_kind as HK. pose proof Hrec as H. unfold cell_rec in H. cbn zeta in H. fold B in H. revert H.
    pose proof (bucket_scan_outcome g WF s (stn sts s) D c) as HO. fold B in HO.
    destruct HO as [[Hnrc HL]|pre i post (E & Hroot & _)|pre i post (E & _)]; intros H.
    2:{ assert (In i B) as Hi by (rewrite E; apply in_elt). apply andb_prop in Hroot as [Ci Ri].
        apply (is_root_item_iff g WF i (proj1 (proj2 (HBin i Hi)))) in Ri.
        apply CF_accept; [rewrite E; destruct pre; discriminate|apply (root_bucket g WF s (stn sts s) D c i Hclean Hi Ci Ri)|].
        apply (HK pre i post E). discriminate. }
    2:{ destruct Hnorr. apply (HK pre i post E). discriminate. }
    assert (forall i, In i B -> is_complete g i = true -> it_r i <> root_rule_idx g) as Hnr.
    { intros i Hi Ci Ri. apply (is_root_item_iff g WF i (proj1 (proj2 (HBin i Hi)))) in Ri.
      specialize (Hnrc i Hi). unfold root_complete in Hnrc. rewrite Ci, Ri in Hnrc. discriminate. }
    rewrite cell_summary_eq in H.
    destruct H as [(EB & Ee)|H]; [apply CF_empty; assumption|]. revert H.
    destruct (reduce_items g B) as [|i0 [|]] eqn:ER; [| |simpl in HL; lia];
      destruct (shift_items g B) as [|j0 Sh] eqn:ESh; simpl.
    - intros [(Hne & _)|(Hne & _)]; destruct Hne; apply (items_nil g); assumption.
    - intros [(_ & Ek & _)|(_ & _ & idx & Ee & Hidx & Hidx0 & Hker)]; [congruence|].
      apply (CF_shift g sts c B _ Hnr) with (idx := idx); rewrite ?ER, ?ESh, ?Ee; auto; [discriminate|].
      refine (conj eq_refl (conj eq_refl (conj Hidx (conj Hidx0 _)))). intros j. rewrite Hker.
      (* the goal speaks of GenScan.adv, target_kernel_In of Conflict.advance: one function, by conversion *)
      apply target_kernel_In.
    - intros [(_ & _ & Ee)|(_ & Ek & _)]; [|discriminate].
      apply (CF_reduce g sts c B _ Hnr i0 ER); rewrite ?ESh; auto.
    - unfold cell_state, cell_kind.
      destruct (sr_choice_cases g (it_r i0) (c - nterm_count g)) as [Ech|Ech]; rewrite Ech; simpl.
      + intros [(_ & _ & Ee)|(_ & Ek & _)]; [|discriminate].
        apply (CF_reduce g sts c B _ Hnr i0 ER); rewrite ?ESh; auto.
      + intros [(_ & Ek & _)|(_ & _ & idx & Ee & Hidx & Hidx0 & Hker)]; [congruence|].
        apply (CF_shift g sts c B _ Hnr) with (idx := idx); rewrite ?ER, ?ESh, ?Ee; auto; [discriminate|right; exists i0; auto|].
        refine (conj eq_refl (conj eq_refl (conj Hidx (conj Hidx0 _)))). intros j. rewrite Hker. apply target_kernel_In.
  Qed.
End Cell.

Lemma state_items_map sts s : state_items (map st_all sts) s = st_all (stn sts s).
Proof. unfold state_items, stn. change (@nil item) with (st_all (mkSt [] [])). apply map_nth. Qed.

Lemma nonempty_In {A} (l : list A) : l <> [] -> exists x, In x l.
Proof. destruct l as [|x l]; [congruence|]. intros _. exists x. cbn; auto. Qed.

Lemma reduce_items_head g B i l : reduce_items g B = i :: l -> In i B /\ is_complete g i = true.
Proof. intros E. apply in_reduce_items. rewrite E. left. reflexivity. Qed.

Section Final.
  Variable g : grammar.
  Hypothesis WF : wf_facts g.
  Variable sts : list lrstate.
  Variable tbl : table.
  Hypothesis Hdisc : all_disc g sts.
  Hypothesis Hform : forall s c, s < length sts -> c < symbol_count g ->
                                 cell_form g sts c (bucket g (st_all (stn sts s)) c) (cell_at tbl s c).
  Let sl := map st_all sts.

  Lemma complete_bucket s i : s < length sts -> In i (st_all (stn sts s)) -> is_complete g i = true ->
    In i (bucket g (st_all (stn sts s)) (nterm_count g + it_t i)) /\ nterm_count g + it_t i < symbol_count g.
  Proof.
    intros Hs Hi Ci. pose proof (sd_ok _ _ _ (Hdisc s Hs) i Hi) as Oi.
    split; [apply bucket_In; split; [assumption|apply bucket_complete; assumption]|].
    destruct Oi as (_ & _ & Ht). unfold symbol_count. lia.
  Qed.

  Lemma shift_bucket s i x : s < length sts -> In i (st_all (stn sts s)) ->
    is_complete g i = false -> next_sym g i = Some x ->
    In i (bucket g (st_all (stn sts s)) (sym_col g x)) /\ sym_col g x < symbol_count g /\ sym_ok g x = true.
  Proof.
    intros Hs Hi Ci Hx. pose proof (sd_ok _ _ _ (Hdisc s Hs) i Hi) as Oi.
    destruct (bucket_incomplete g WF i Oi Ci) as (x' & Hx' & Ex). assert (x' = x) by congruence. subst x'.
    destruct (next_sym_ok g WF i x Oi Hx) as (Hsx & _).
    split; [apply bucket_In; auto|]. split; [|assumption].
    unfold symbol_count. destruct x as [t|n]; cbn in *; apply Nat.ltb_lt in Hsx; lia.
  Qed.

  (* the three non-default cells that cell_justified accepts, each from one item of the bucket *)
  Lemma justified_shift s c idx : s < length sts ->
    shift_to g sts c (bucket g (st_all (stn sts s)) c) (cell_at tbl s c) idx -> cell_justified g sl tbl s c = true.
  Proof.
    intros Hs (Hk & Ea & Hidx & Hidx0 & Hker).
    unfold cell_justified, sl. rewrite Ea, Hk, !state_items_map, map_length.
    apply Nat.ltb_lt in Hidx as Hlt. apply Nat.eqb_neq in Hidx0. rewrite Hlt, Hidx0.
    match goal with |- context [forallb ?f ?l] => assert (forallb f l = true) as -> end.
    { apply forallb_forall. intros j Hj. destruct (it_d j) as [|d] eqn:Ed; [reflexivity|].
      destruct (proj1 (Hker j)) as (i & Hi & Ci & ->).
      { apply (sd_dot_ker _ _ _ (Hdisc idx Hidx)); [assumption|lia]. }
      injection Ed as <-.
      destruct (B_in g s _ (Hdisc s Hs) c i Hi) as (Ii & Oi & Bi).
      destruct (bucket_incomplete g WF i Oi Ci) as (x & Hx & Ex).
      change (rhs_of g (adv i)) with (rhs_of g i). unfold next_sym in Hx. rewrite Hx.
      destruct i as [r d t]. apply andb_true_iff. split; [apply mem_item_In; assumption|].
      apply Nat.eqb_eq. congruence. }
    unfold kd, col_of_term. destruct (Nat.eqb c _); reflexivity.
  Qed.

  Lemma justified_reduce s c i : s < length sts -> In i (bucket g (st_all (stn sts s)) c) ->
    is_complete g i = true -> it_r i <> root_rule_idx g ->
    e_kind (cell_at tbl s c) = KReduce -> e_arg (cell_at tbl s c) = Some (it_r i) ->
    cell_justified g sl tbl s c = true.
  Proof.
    intros Hs Hi Ci Ri Hk Ea. destruct (B_in g s _ (Hdisc s Hs) c i Hi) as (Ii & Oi & Bi).
    rewrite (bucket_complete g i Ci) in Bi. destruct Oi as (Hr & _).
    unfold cell_justified, sl. rewrite Hk, Ea, state_items_map.
    apply Nat.ltb_lt in Hr. apply Nat.eqb_neq in Ri. rewrite Hr, Ri.
    replace (Nat.leb (nterm_count g) c) with true by (symmetry; apply Nat.leb_le; lia).
    apply existsb_exists. exists i. rewrite Nat.eqb_refl, Ci. auto.
  Qed.

  Lemma justified_success s c i : s < length sts -> In i (bucket g (st_all (stn sts s)) c) ->
    is_complete g i = true -> it_r i = root_rule_idx g ->
    e_kind (cell_at tbl s c) = KSuccess -> cell_justified g sl tbl s c = true.
  Proof.
    intros Hs Hi Ci Ri Hk. destruct (B_in g s _ (Hdisc s Hs) c i Hi) as (Ii & Oi & Bi).
    rewrite (bucket_complete g i Ci), (sd_rootla _ _ _ (Hdisc s Hs) i Ii Ri) in Bi.
    unfold cell_justified, sl. rewrite Hk, state_items_map. apply andb_true_iff. split.
    - apply Nat.eqb_eq. symmetry. exact Bi.
    - apply existsb_exists. exists i. rewrite Ri, Nat.eqb_refl, Ci. auto.
  Qed.

  Lemma final_justified s c : s < length sts -> c < symbol_count g -> cell_justified g sl tbl s c = true.
  Proof.
    intros Hs Hc.
    destruct (Hform s c Hs Hc) as [EB Ee|Hne Hall Hk|Hnr i0 ER HS Ee|Hnr HS HR idx Hsh Esr].
    - unfold cell_justified. rewrite Ee. apply orb_true_r.
    - destruct (nonempty_In _ Hne) as (i & Hi). destruct (Hall i Hi) as (Ci & Ri).
      apply (justified_success s c i); assumption.
    - destruct (reduce_items_head g _ i0 _ ER) as [Hi Ci].
      apply (justified_reduce s c i0); auto; rewrite Ee; reflexivity.
    - apply (justified_shift s c idx); assumption.
  Qed.

  (* the target of a shift cell holds the advanced item of every shift item of the bucket *)
  Lemma shift_target s x idx l : sym_ok g x = true ->
    shift_to g sts (sym_col g x) (bucket g (st_all (stn sts s)) (sym_col g x)) (cell_at tbl s (sym_col g x)) idx ->
    (forall i, In i l -> In i (bucket g (st_all (stn sts s)) (sym_col g x)) /\ is_complete g i = false) ->
    has_target g sl tbl s x l.
  Proof.
    intros Hsx (Hk & Ea & Hidx & _ & Hker) Hl.
    exists idx. split; [apply kd_goto_target; assumption|]. split; [unfold sl; rewrite map_length; assumption|].
    intros i Hi. unfold sl. rewrite state_items_map. apply (sd_ker_all _ _ _ (Hdisc idx Hidx)). apply Hker.
    exists i. destruct (Hl i Hi). auto.
  Qed.

  Lemma final_nt_goto s i b : s < length sts -> In i (st_all (stn sts s)) -> is_complete g i = false ->
    next_sym g i = Some (NT b) -> has_target g sl tbl s (NT b) [i].
  Proof.
    intros Hs Hi Ci Hn. destruct (shift_bucket s i (NT b) Hs Hi Ci Hn) as (Hb & Hc & Hsx). cbn [sym_col] in Hb, Hc.
    destruct (Hform s b Hs Hc) as [EB Ee|Hne Hall Hk|Hnr i0 ER HS Ee|Hnr HS HR idx Hsh Esr].
    - rewrite EB in Hb. destruct Hb.
    - destruct (Hall i Hb). congruence.
    - (* a nonterminal column holds no completed item *)
      exfalso. destruct (reduce_items_head g _ i0 _ ER) as [H0 C0].
      rewrite (nt_bucket g s (stn sts s) (Hdisc s Hs) b i0) in C0; [discriminate|apply Nat.ltb_lt, Hsx|exact H0].
    - apply (shift_target s (NT b) idx); try assumption. intros j [<-|[]]. auto.
  Qed.

  Lemma final_accept s i : s < length sts -> In i (st_all (stn sts s)) -> is_complete g i = true ->
    it_r i = root_rule_idx g ->
    e_kind (cell_at tbl s (col_of_term g (it_t i))) = KSuccess /\ it_t i = eof_idx g.
  Proof.
    intros Hs Hi Ci Ri. split; [|apply (sd_rootla _ _ _ (Hdisc s Hs) i Hi Ri)].
    destruct (complete_bucket s i Hs Hi Ci) as (Hb & Hc). unfold col_of_term.
    destruct (Hform s _ Hs Hc) as [EB Ee|Hne Hall Hk|Hnr i0 ER HS Ee|Hnr HS HR idx Hsh Esr].
    - rewrite EB in Hb. destruct Hb.
    - assumption.
    - exfalso. apply (Hnr i Hb Ci Ri).
    - exfalso. apply (Hnr i Hb Ci Ri).
  Qed.

  Section Lists.
    Variables s t : nat.
    Hypothesis Hs : s < length sts.
    Let B := bucket g (st_all (stn sts s)) (nterm_count g + t).

    (* the validator's two lists for the cell (s, t) are, as lists, those of the bucket of column t *)
    Lemma sh_items_eq : sh_items g sl s t = shift_items g B.
    Proof using WF Hdisc Hs.
      unfold sh_items, shift_items, B, bucket, sl. rewrite state_items_map, filter_filter.
      apply filter_ext_in. intros i Hi. unfold is_sh_item.
      pose proof (sd_ok _ _ _ (Hdisc s Hs) i Hi) as Oi.
      destruct (is_complete g i) eqn:Ci; cbn [negb andb]; [rewrite andb_false_r; reflexivity|]. rewrite andb_true_r.
      destruct (bucket_incomplete g WF i Oi Ci) as (x & Hx & ->). rewrite Hx.
      destruct (next_sym_ok g WF i x Oi Hx) as (Hsx & _).
      destruct x as [t'|b]; cbn [sym_col sym_ok] in *.
      - destruct (Nat.eqb_spec t' t) as [->|Hne]; symmetry; [apply Nat.eqb_refl|apply Nat.eqb_neq; lia].
      - apply Nat.ltb_lt in Hsx. symmetry. apply Nat.eqb_neq. lia.
    Qed.

    Lemma red_items_eq :
      red_items g sl s t = filter (fun i => negb (Nat.eqb (it_r i) (root_rule_idx g))) (reduce_items g B).
    Proof using Hs.
      unfold red_items, reduce_items, B, bucket, sl. rewrite state_items_map, !filter_filter.
      apply filter_ext_in. intros i Hi. unfold is_red_item.
      destruct (is_complete g i) eqn:Ci; cbn [andb]; [|rewrite andb_false_r; reflexivity].
      rewrite (bucket_complete g i Ci), andb_comm. f_equal.
      destruct (Nat.eqb_spec (it_t i) t) as [->|Hne]; symmetry; [apply Nat.eqb_refl|apply Nat.eqb_neq; lia].
    Qed.

    Lemma red_items_noroot : (forall i, In i B -> is_complete g i = true -> it_r i <> root_rule_idx g) ->
      red_items g sl s t = reduce_items g B.
    Proof using Hs.
      intros Hnr. rewrite red_items_eq. apply filter_true_id. intros i Hi. apply in_reduce_items in Hi.
      apply negb_true_iff, Nat.eqb_neq, Hnr; apply Hi.
    Qed.

    (* both lists of an accepting cell are empty *)
    Lemma accept_lists : (forall i, In i B -> is_complete g i = true /\ it_r i = root_rule_idx g) ->
      red_items g sl s t = [] /\ shift_items g B = [].
    Proof using Hs.
      intros Hall. rewrite red_items_eq. split; apply filter_none; intros i Hi.
      - apply in_reduce_items in Hi. destruct (Hall i (proj1 Hi)) as (_ & ->). rewrite Nat.eqb_refl. reflexivity.
      - destruct (Hall i Hi) as (-> & _). reflexivity.
    Qed.
  End Lists.

  (* cell_spec (Proofs/GroupingFacts.v) is what cell_resolved decides; cell_resolved computes on the two lists of the
     bucket, which each form of the cell fixes *)
  Lemma final_cell_spec s t : s < length sts -> t < term_count g -> cell_spec g sl tbl s t.
  Proof.
    intros Hs Ht. set (c := nterm_count g + t). assert (c < symbol_count g) as Hc by (unfold c, symbol_count; lia).
    assert (c - nterm_count g = t) as Ect by (unfold c; lia).
    apply cell_resolved_iff. unfold cell_resolved. rewrite (sh_items_eq s t Hs). fold c.
    pose proof (red_items_noroot s t Hs) as ER1. pose proof (accept_lists s t Hs) as EA. fold c in ER1, EA.
    destruct (Hform s c Hs Hc) as [EB Ee|Hne Hall Hk|Hnr i0 ER HS Ee|Hnr HS HR idx Hsh Esr].
    - rewrite (red_items_eq s t Hs). fold c. rewrite EB. reflexivity.
    - destruct (EA Hall) as (-> & ->). reflexivity.
    - rewrite (ER1 Hnr), ER. rewrite Ect in HS. cbn [forallb andb].
      assert (reduce_is g tbl s t (it_r i0) = true) as Hred by (apply reduce_is_iff; unfold is_reduce, col_of_term; fold c; rewrite Ee; split; reflexivity).
      destruct (shift_items g _) as [|j0 Sh]; [exact Hred|]. destruct HS as [E| ->]; [discriminate|exact Hred].
    - rewrite (ER1 Hnr). rewrite Ect in HR.
      assert (target_has g sl tbl s (T t) (shift_items g (bucket g (st_all (stn sts s)) c)) = true) as Htarget.
      { apply target_has_iff. apply (shift_target s (T t) idx); try assumption; [apply Nat.ltb_lt; assumption|].
        intros i Hi. apply in_shift_items. exact Hi. }
      destruct (shift_items g _) as [|j0 Sh]; [congruence|].
      destruct HR as [->|(i & -> & ->)]; exact Htarget.
  Qed.

  (* without a mark S/R no cell had both kinds of item to choose between *)
  Lemma final_unconflicted :
    (forall s c, s < length sts -> c < symbol_count g -> e_sr (cell_at tbl s c) = false) -> unconflicted g sl.
  Proof.
    intros Hsr s t Hs Ht. unfold sl in Hs. rewrite map_length in Hs.
    set (c := nterm_count g + t). assert (c < symbol_count g) as Hc by (unfold c, symbol_count; lia).
    rewrite (sh_items_eq s t Hs). fold c.
    pose proof (red_items_noroot s t Hs) as ER1. pose proof (accept_lists s t Hs) as EA. fold c in ER1, EA.
    specialize (Hsr s c Hs Hc).
    destruct (Hform s c Hs Hc) as [EB Ee|Hne Hall Hk|Hnr i0 ER HS Ee|Hnr HS HR idx Hsh Esr].
    - left. rewrite (red_items_eq s t Hs). fold c. rewrite EB. reflexivity.
    - left. apply EA, Hall.
    - right. rewrite Ee in Hsr. cbn [e_sr] in Hsr. destruct (shift_items g _); [reflexivity|discriminate].
    - left. rewrite (ER1 Hnr). rewrite Esr in Hsr. destruct (reduce_items g _); [reflexivity|discriminate].
  Qed.

  Lemma final_state0 : 0 < length sts -> state0_ok g sl = true.
  Proof.
    intros Hpos. unfold state0_ok, sl. rewrite state_items_map. pose proof (Hdisc 0 Hpos) as D0.
    destruct (sd_zero _ _ _ D0 eq_refl) as (Hk & Hz).
    apply andb_true_iff. split; [apply andb_true_iff; split|].
    - apply mem_item_In. apply (sd_ker_all _ _ _ D0). rewrite Hk. cbn; auto.
    - apply forallb_forall. intros i Hi. apply Nat.eqb_eq. apply Hz. assumption.
    - rewrite map_length. apply forallb_seq0. intros s Hs. destruct s as [|s]; [reflexivity|]. cbn [Nat.eqb orb].
      rewrite state_items_map. apply forallb_forall. intros i Hi. apply negb_true_iff.
      destruct (sd_nonzero _ _ _ (Hdisc (S s) Hs) ltac:(lia)) as (_ & Hn).
      destruct (Nat.eqb (it_d i) 0) eqn:Ed; [|apply andb_false_r]. apply Nat.eqb_eq in Ed.
      rewrite andb_true_r. apply Nat.eqb_neq. apply Hn; assumption.
  Qed.

  Lemma final_items s : s < length sts -> forallb (item_ok g) (state_items sl s) = true.
  Proof.
    intros Hs. unfold sl. rewrite state_items_map. apply forallb_forall. intros i Hi. apply item_ok_P.
    apply (sd_ok _ _ _ (Hdisc s Hs)). assumption.
  Qed.
End Final.

Lemma gen_cell_form g (WF : wf_facts g) lim sts tbl : gen_facts g lim sts tbl ->
  (forall s c, s < length sts -> c < symbol_count g -> e_kind (cell_at tbl s c) <> KRR) ->
  (forall s, s < length sts -> st_clean g (st_all (stn sts s)) = true) ->
  forall s c, s < length sts -> c < symbol_count g ->
              cell_form g sts c (bucket g (st_all (stn sts s)) c) (cell_at tbl s c).
Proof.
  intros GF Hnorr Hclean s c Hs Hc.
  apply cell_rec_form; auto; [apply (gf_disc _ _ _ _ GF)|apply (gf_cells _ _ _ _ GF)]; assumption.
Qed.

(* an output of the generator whose cells have these forms passes the check for resolved tables, whatever its S/R marks *)
Theorem gen_resolved_ok : forall g lim sts tbl,
  grammar_wf g = true -> gen_facts g lim sts tbl ->
  (forall s c, s < length sts -> c < symbol_count g ->
               cell_form g sts c (bucket g (st_all (stn sts s)) c) (cell_at tbl s c)) ->
  resolved_ok g (map st_all sts) tbl (nterm_empty g) (nterm_first g (nterm_empty g)) = true.
Proof.
  intros g lim sts tbl Hwf GF Hform.
  pose proof (wf_facts_of _ Hwf) as WF. pose proof (gf_disc _ _ _ _ GF) as Hdisc.
  apply resolved_ok_iff. split; [|split].
  - unfold table_sound_ok. rewrite Hwf, (gen_dims_ok g lim sts tbl GF), (final_state0 g sts Hdisc (gf_pos _ _ _ _ GF)). cbn [andb].
    rewrite map_length. apply forallb_seq0. intros s Hs. apply andb_true_iff. split.
    + apply final_items; assumption.
    + apply forallb_seq0. intros c Hc. apply final_justified; assumption.
  - apply gen_tables_closed. assumption.
  - rewrite map_length. intros s Hs. split; [|split; [|split]].
    + rewrite (closure_ok_is_list g (nterm_empty g) (nterm_first g (nterm_empty g))), state_items_map.
      apply (gf_closure _ _ _ _ GF s Hs).
    + intros i b Hi Ci Hn. rewrite state_items_map in Hi. eapply final_nt_goto; eassumption.
    + intros i Hi Ci Ri. rewrite state_items_map in Hi. eapply final_accept; eassumption.
    + intros t Ht. apply final_cell_spec; assumption.
Qed.

Theorem gen_validates : forall g lim sts tbl,
  grammar_wf g = true ->
  grammar_wf_extra g = true ->
  gen_with g lim = inl (sts, tbl) ->
  conflict_free g (length sts) tbl = true ->
  accept_clean g sts = true ->
  validate g (map st_all sts) tbl = true.
Proof.
  intros g lim sts tbl Hwf Hwfx Hgen Hcf Hac.
  pose proof (wf_facts_of _ Hwf) as WF.
  pose proof (gen_with_facts g lim sts tbl Hwf Hwfx Hgen) as GF.
  assert (forall s c, s < length sts -> c < symbol_count g ->
            e_sr (cell_at tbl s c) = false /\ e_kind (cell_at tbl s c) <> KRR) as Hmarks.
  { intros s c Hs Hc. unfold conflict_free in Hcf. rewrite forallb_seq0 in Hcf. specialize (Hcf s Hs).
    rewrite forallb_seq0 in Hcf. specialize (Hcf c Hc). cbn zeta in Hcf. fold (cell_at tbl s c) in Hcf.
    apply andb_true_iff in Hcf. destruct Hcf as [H1%negb_true_iff H2%negb_true_iff].
    split; [exact H1|]. intros E. rewrite E in H2. discriminate. }
  assert (forall s c, s < length sts -> c < symbol_count g ->
            cell_form g sts c (bucket g (st_all (stn sts s)) c) (cell_at tbl s c)) as Hform.
  { apply (gen_cell_form g WF lim sts tbl GF).
    - intros s c Hs Hc. apply (Hmarks s c Hs Hc).
    - apply accept_clean_st. assumption. }
  apply (resolved_unconflicted_table_ok g (map st_all sts) tbl (nterm_empty g) (nterm_first g (nterm_empty g))).
  - apply (gen_resolved_ok g lim); assumption.
  - apply (final_unconflicted g WF sts tbl (gf_disc _ _ _ _ GF) Hform).
    intros s c Hs Hc. apply (Hmarks s c Hs Hc).
Qed.

Print Assumptions gen_validates.

Corollary gen_validates_default : forall g sts tbl,
  grammar_wf g = true -> grammar_wf_extra g = true ->
  gen g = inl (sts, tbl) ->
  conflict_free g (length sts) tbl = true -> accept_clean g sts = true ->
  validate g (map st_all sts) tbl = true.
Proof. intros g sts tbl. apply gen_validates. Qed.
