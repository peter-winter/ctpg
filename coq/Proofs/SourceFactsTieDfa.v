(* Part of the tie between the hand-written model and the facts tools/source_facts.py read out of ctpg.hpp on this run. *)
(* recognition slots and the size of a character primary (C03 C04 C12) *)
Require Import Ctpg.Base.Prelude Ctpg.Model.Dfa Ctpg.Model.SourceFacts.

Lemma tie_rec_slots : forall r t, length r = sf_rec_slots -> add_conflicted r t = r.
Proof. intros r t H. unfold add_conflicted. rewrite H. reflexivity. Qed.

Lemma tie_char_dfa_size : forall sm c, length (fst (primary_subset sm (cs_single c))) = length sm + sf_char_dfa_size.
Proof. intros sm c. unfold primary_subset. cbn [fst]. apply app_length. Qed.

