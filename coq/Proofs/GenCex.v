(* Why gen_validates carries the extra hypothesis grammar_wf_extra: grammar_wf alone does not bound the rule
   slices. gbad (S -> A, A without rules, slice of A = (2,1) pointing past rule_infos) is grammar_wf, the
   generator succeeds on it without conflict marks, and the result does not validate (closure produces the
   item with rule_info index 2 = rule_count, which item_ok rejects). Grammar records produced by
   Grammar.analyze satisfy grammar_wf_extra (Proofs/GenAnalyze.v, analyze_wf_extra). *)
Require Import Ctpg.Base.Prelude Ctpg.Model.Grammar Ctpg.Model.LRGen Ctpg.Model.RegexFront Ctpg.Valid.LRValid
               Ctpg.Proofs.GenWf Ctpg.Proofs.GenCorrect.

Definition gbad : grammar :=
  mkG 3 3 2 1 [[NT 1]; [NT 0]] [mkRI 0 0 1; mkRI 2 1 1] [(0,1);(2,1);(1,1)]
      [0%Z;0%Z;0%Z] [NoAssoc;NoAssoc;NoAssoc] [0%Z;0%Z] [NoAssoc;NoAssoc] [None;None].

Definition gen_report (g : grammar) :=
  match gen g with
  | inl (sts, tbl) => Some (grammar_wf g, grammar_wf_extra g, conflict_free g (length sts) tbl,
                            accept_clean g sts, validate g (map st_all sts) tbl)
  | inr _ => None
  end.

Example gbad_report : gen_report gbad = Some (true, false, true, true, false).
Proof. vm_compute. reflexivity. Qed.

Example regex_grammar_extra :
  match analyze regex_raw_grammar with
  | Some g => grammar_wf g && grammar_wf_extra g
  | None => false
  end = true.
Proof. vm_compute. reflexivity. Qed.
