(* The driver on a buffer against the LR machine of Proofs/LRMachine.v on the terms of the buffer's token stream
   (Proofs/DriverStream.v), for any instance whose values read as trees, any options and any lexer, without a capacity.
   [step_sim]: one iteration in normal mode from a state that stands before [toks] is the machine's move on
   [terms toks] ([act_sim] behind [gct_stands], at the values read as trees); only where the lexer fails at the end of the stream does the
   driver stop while the machine would see <eof>.  [sim_sound]: what the driver accepts, the machine accepts. *)
Require Import Ctpg.Base.Prelude Ctpg.Proofs.ListFacts Ctpg.Model.Grammar Ctpg.Model.LRGen Ctpg.Model.Driver
               Ctpg.Spec.Cfg Ctpg.Spec.LRSpec Ctpg.Proofs.LRMachine Ctpg.Proofs.DriverBasics Ctpg.Proofs.DriverIter Ctpg.Proofs.DriverStream.

Section StreamSim.
  Variables V C : Type.
  Variable g : grammar.
  Variable tbl : table.
  Variable opts : options.
  Variable buf : list nat.
  Variable lexer : bool -> spoint -> list nat -> list lex_event * option (nat * nat).
  Variable term_f : nat -> nat -> nat -> spoint -> V.
  Variable err_f : spoint -> V.
  Variable rule_f : nat -> C -> list V -> C * V.
  Variable strip : V -> tree.
  Hypothesis strip_term : forall t i n p, strip (term_f t i n p) = Leaf t.
  Hypothesis strip_rule : forall r c args, strip (snd (rule_f r c args)) = Node r (map strip args).

  Notation pst := (pstate V C).
  Notation gstep := (step V C g tbl opts buf None lexer term_f err_f rule_f).
  Notation grun := (run_from V C g tbl opts buf None lexer term_f err_f rule_f).
  Notation stnd := (stands V C g opts buf lexer).

  Definition mcfg (s : pst) (toks : list tok) : cfg := (ps_cursors s, map strip (ps_values s), terms toks).
  Definition nmode (s : pst) : Prop := ps_rec s = false /\ ps_cons s = false.

  (* Left disjunct: the lexer fails at the end of the stream, where the machine would see <eof>.  Under [Next] the
     value stack of s' is spelled out for PatternCompleteSim, which reads the parse tree off it; [hd 0]: where the
     machine moves the stack is not empty. *)
  Lemma step_sim s toks fl : nmode s -> stnd s toks fl ->
    (toks = [] /\ fl = false /\ exists r s1 ev, gstep s = (inr (r, s1), ev) /\ forall v, r <> Accept v) \/
    (toks = [] -> fl = true) /\
    match mstep g tbl (mcfg s toks) with
    | Next c' =>
        exists s' ev toks', gstep s = (inl s', ev) /\ nmode s' /\ stnd s' toks' fl /\ c' = mcfg s' toks' /\
          ((toks' = tl toks /\ reads g tbl (hd 0 (ps_cursors s)) (terms toks) KShift /\
            forall t a l rest, toks = (t, a, l) :: rest -> exists p, ps_values s' = term_f t a l p :: ps_values s) \/
           (toks' = toks /\ exists ri c1 v,
              rule_f (ri_r ri) (ps_ctx s) (rev (firstn (ri_n ri) (ps_values s))) = (c1, v) /\
              ps_values s' = v :: skipn (ri_n ri) (ps_values s)))
    | Acc t => exists v rest s' ev, gstep s = (inr (Accept v, s'), ev) /\ strip v = t /\ rev (ps_values s) = v :: rest
    | Fail => (exists r s' ev, gstep s = (inr (r, s'), ev) /\ forall v, r <> Accept v) \/
              (exists s' ev, gstep s = (inl s', ev) /\ ps_rec s' = true /\ ps_cons s' = false /\ ps_cursors s' = ps_cursors s)
    | Bad => exists cur, reads g tbl cur (terms toks) KShiftErr \/ reads g tbl cur (terms toks) KRR
    end.
  Proof.
    intros [Hr Hc] Hs. unfold mcfg. destruct (ps_cursors s) as [|cur cs] eqn:Ecs.
    { assert (E : exists r s1 ev, gstep s = (inr (r, s1), ev) /\ forall v, r <> Accept v).
      { rewrite (step_empty Ecs). do 3 eexists. split; [reflexivity|discriminate]. }
      destruct toks, fl; auto; right; (split; [auto; discriminate|left; exact E]). }
    pose proof (gct_spec_holds V C g opts buf lexer s) as Hg.
    destruct (get_current_term V C g opts buf lexer s) as [[s1 ot] ev1] eqn:Eg.
    pose proof (gct_stands Hr Hs Hg) as Hf. destruct (gct_stacks Hg) as (Hcs & Hvs & Hcx & Hr1 & Hc1).
    destruct ot as [t|].
    2:{ left. destruct Hf as [-> ->]. rewrite (step_lexfail Ecs Eg). do 2 (split; [reflexivity|]). do 3 eexists. split; [reflexivity|discriminate]. }
    right. destruct Hf as (-> & Hf). split; [intros ->; apply Hf|]. rewrite (step_gct Ecs Eg). rewrite Hr in Hr1. rewrite Hc in Hc1. rewrite Ecs in Hcs.
    destruct (clr_id V C s1 Hc1) as [Hclr _].
    pose proof (act_sim V C g tbl buf term_f err_f rule_f s1 cur cs (map strip (ps_values s1)) (terms toks)
                  Hr1 Hc1 Hcs (stands_end_le (SFetched Hf)) (map_length _ _)) as Ha.
    rewrite <- Hvs. fold (look g (terms toks)).
    destruct (mstep g tbl (cur :: cs, map strip (ps_values s1), terms toks)) as [c'|v| |].
    - destruct Ha as [(Hrd & nst & -> & ->)|(r & ri & nst & -> & ->)]; cbn [perform fst snd]; rewrite Hclr.
      + eexists; eexists; exists (tl toks). split; [reflexivity|]. split; [split; simp_mv; assumption|].
        split; [apply (fetched_consume Hf); repeat split|]. simp_mv. cbn [map]. rewrite strip_term, terms_tl, Hcs.
        split; [reflexivity|]. left. split; [reflexivity|]. split; [exact Hrd|]. intros t a l rest ->. cbn [terms map look hd fst].
        destruct Hf as (_ & _ & -> & _ & Hen). replace (ps_end s1 - ps_it s1) with l by lia. eauto.
      + eexists; eexists; exists toks. split; [reflexivity|]. split; [split; simp_mv; assumption|].
        split; [eapply stands_same; [|exact (SFetched Hf)]; repeat split|]. simp_mv. cbn [map].
        rewrite strip_rule, map_rev, firstn_map, skipn_map, Hcs. split; [reflexivity|].
        right. split; [reflexivity|]. rewrite <- Hcx. eauto using surjective_pairing.
    - destruct Ha as (_ & Hv & ->). cbn [perform fst snd]. rewrite <- map_rev in Hv.
      destruct (rev (ps_values s1)) as [|v' vs]; [discriminate|]. injection Hv as <-. eauto 8.
    - destruct Ha as [(c & ev & -> & _)|(_ & ->)]; cbn [perform fst snd].
      + left. do 3 eexists. split; [reflexivity|discriminate].
      + right. do 2 eexists. split; [reflexivity|]. simp_ps. auto.
    - eauto.
  Qed.

  (* whatever the driver accepts from a state in normal mode, the machine accepts on the terms still to come; the
     accepting move is made before a rest of the tokens that is not cut short by a failure of the lexer *)
  Section Sound.
    Variable fl : bool.
    Variable Inv : cfg -> Prop.
    Hypothesis Inv_not_bad : forall c, Inv c -> mstep g tbl c <> Bad.
    Hypothesis Inv_next : forall c c', Inv c -> mstep g tbl c = Next c' -> Inv c'.
    Hypothesis Herr : err_col_empty g tbl.

    Lemma sim_sound fuel : forall s out v toks, nmode s -> stnd s toks fl -> Inv (mcfg s toks) ->
      fst (fst (grun fuel s out)) = Accept v ->
      exists n cs trs toks',
        msteps g tbl n (mcfg s toks) (cs, trs, terms toks') /\ mstep g tbl (cs, trs, terms toks') = Acc (strip v) /\
        incl toks' toks /\ (toks' = [] -> fl = true).
    Proof.
      induction fuel as [|f IH]; intros s out v toks Hm Hs Hi Hrun; cbn [run_from] in Hrun; [discriminate|].
      destruct (step_sim s toks fl Hm Hs) as [(_ & _ & r & s1 & ev & E & Hna)|[Hfl H]].
      { rewrite E in Hrun. destruct (Hna _ Hrun). }
      destruct (mstep g tbl (mcfg s toks)) as [c'|t| |] eqn:Em.
      - destruct H as (s' & ev & toks1 & E & Hm' & Hs' & -> & Hk). rewrite E in Hrun.
        destruct (IH _ _ _ _ Hm' Hs' (Inv_next _ _ Hi Em) Hrun) as (n & cs & trs & toks' & H1 & H2 & H3 & H4).
        exists (S n), cs, trs, toks'. split; [exists (mcfg s' toks1); auto|]. split; [assumption|]. split; [|assumption].
        destruct Hk as [(-> & _)|(-> & _)]; [|assumption]. destruct toks; [assumption|now apply incl_tl].
      - destruct H as (v' & rest & s' & ev & E & <- & _). rewrite E in Hrun. injection Hrun as ->.
        exists 0, (ps_cursors s), (map strip (ps_values s)), toks. repeat split; auto using incl_refl.
      - destruct H as [(r & s' & ev & E & Hna)|(s' & ev & E & Hr' & Hc' & _)]; rewrite E in Hrun.
        + destruct (Hna _ Hrun).
        + destruct (rec_no_accept _ _ _ _ _ _ _ _ _ _ _ Herr _ _ _ _ Hr' Hc' Hrun).
      - destruct (Inv_not_bad _ Hi Em).
    Qed.
  End Sound.
End StreamSim.

Arguments mcfg {V C}.
Arguments nmode {V C}.
