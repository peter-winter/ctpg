(* Termination of the in-place merge: with depth fuel [merge_fuel sm] = S (length sm * length sm) the
   recursion never runs out of fuel, whatever the automaton and the two merged states.
   A nested call is made only from two states that both have a transition, so both are states of the automaton;
   a call that passes the two early returns marks its pair (to, from), which was not marked before, in the relation
   "from is in merged_from(to)", and marks are never removed: the calls under way at any moment are distinct pairs
   of states, so there are at most (length sm)^2 of them. *)
Require Import Ctpg.Base.Prelude Ctpg.Proofs.ListFacts Ctpg.Model.Dfa Ctpg.Proofs.BuilderSize.

(* merged_from marks only grow *)
Definition marks_le (a b : dfa) : Prop := forall q x, In x (d_merged (get a q)) -> In x (d_merged (get b q)).

Lemma mstep_marks_le : forall a b, mstep a b -> marks_le a b.
Proof.
  destruct 1 as [s i f Hk | s to from i trf Htrf]; intros q x Hx; rewrite get_upd.
  - destruct (Nat.eqb_spec q i) as [->|]; auto. destruct (Nat.ltb i (length s)); auto.
    destruct (Hk (get s i)) as (_ & _ & K). auto.
  - destruct (Nat.eqb_spec q to) as [->|]; auto. destruct (Nat.ltb to (length s)); auto.
Qed.

Lemma msteps_marks_le : forall a b, msteps a b -> marks_le a b.
Proof. induction 1; intros q x Hx; auto. apply IHmsteps. eapply mstep_marks_le; eauto. Qed.

Lemma pre_merge_marks : forall sm to from keep mark,
  to < length sm -> In from (d_merged (get (pre_merge sm to from keep mark) to)).
Proof.
  intros sm to from keep mark Hto. apply (msteps_marks_le _ _ (pre_merge_from_mark sm to from keep mark)).
  apply Nat.ltb_lt in Hto. rewrite get_upd, Nat.eqb_refl, Hto. left. reflexivity.
Qed.

Lemma has_trans_lt : forall sm q i x, nth i (d_trans (get sm q)) None = Some x -> q < length sm.
Proof.
  intros sm q i x H. destruct (Nat.lt_ge_cases q (length sm)) as [|G]; auto.
  rewrite get_overflow, tr_dstate0 in H by assumption. discriminate.
Qed.

(* [st] lists the calls that are under way: pairs of states of the automaton, each marked, no two the same *)
Definition active (sm : dfa) (st : list (nat * nat)) : Prop :=
  NoDup st /\ forall t f, In (t, f) st -> t < length sm /\ f < length sm /\ In f (d_merged (get sm t)).

Lemma active_bound : forall sm st, active sm st -> length st <= length sm * length sm.
Proof.
  intros sm st [Hn Hin]. rewrite <- (seq_length (length sm) 0) at 1 2. rewrite <- prod_length.
  apply NoDup_incl_length; [exact Hn|]. intros [t f] Hp. destruct (Hin t f Hp) as (A & B & _).
  apply in_prod; apply in_seq; lia.
Qed.

Lemma active_msteps : forall a b st, msteps a b -> active a st -> active b st.
Proof.
  intros a b st H [Hn Hin]. split; [exact Hn|]. intros t f Hp. destruct (Hin t f Hp) as (A & B & C).
  rewrite (msteps_length _ _ H). pose proof (msteps_marks_le _ _ H). auto.
Qed.

Lemma merge_total_aux : forall keep mark fuel sm to from st,
  active sm st -> length sm * length sm < length st + fuel ->
  exists sm', merge fuel sm to from keep mark = Some sm'.
Proof.
  intros keep mark. induction fuel as [|f IH]; intros sm to from st Hst Hfuel.
  { apply active_bound in Hst. lia. }
  rewrite merge_S.
  destruct (Nat.eqb to from); [eauto|].
  destruct (mem_nat from (d_merged (get sm to))) eqn:Emem; [eauto|].
  pose proof (pre_merge_msteps sm to from keep mark) as S4.
  set (sm4 := pre_merge sm to from keep mark) in *.
  destruct (fold_left_opt_total dfa nat (msteps sm4) (merge_byte f to from keep mark) (seq 0 256)) with (a := sm4)
    as (r & -> & _); [|constructor|eauto].
  (* one round of the loop succeeds: only the nested call could fail; it is made only when both states have a
     transition, so both are states of the automaton, and the pair, unmarked until now, joins the calls under way *)
  intros a i Ha.
  assert (E : exists a', merge_byte f to from keep mark (Some a) i = Some a').
  { cbn [merge_byte].
    destruct (nth i (d_trans (get a from)) None) as [trf|] eqn:Etrf; [|eauto].
    destruct (nth i (d_trans (get a to)) None) as [trt|] eqn:Etrt; [|eauto].
    pose proof (msteps_trans _ _ _ S4 Ha) as Sa. pose proof (msteps_length _ _ Sa) as La.
    apply has_trans_lt in Etrf, Etrt. rewrite La in Etrf, Etrt.
    apply (IH a trt trf ((to, from) :: st)); [|cbn [length]; rewrite La; lia].
    apply (active_msteps _ _ _ Ha).
    destruct (active_msteps _ _ _ S4 Hst) as [Hn Hin].
    split.
    - constructor; [|exact Hn]. intros C. apply (proj2 Hst) in C as (_ & _ & C).
      apply mem_nat_In in C. congruence.
    - intros t f0 [Ep|Hp]; [|auto]. inversion Ep; subst t f0. rewrite (msteps_length _ _ S4).
      split; [assumption|]. split; [assumption|]. apply pre_merge_marks; assumption. }
  destruct E as (a' & E). exists a'. split; [exact E|].
  eapply msteps_trans; [exact Ha|]. eapply mstep_fn_msteps; [|exact E]. intros; eapply merge_msteps; eauto.
Qed.

(* the fuel of the model is always sufficient, whatever the automaton and the two states *)
Lemma merge_total : forall sm to from keep mark, exists sm', merge (merge_fuel sm) sm to from keep mark = Some sm'.
Proof.
  intros. apply (merge_total_aux keep mark _ sm to from []); [|unfold merge_fuel; cbn [length]; lia].
  split; [constructor | intros t f []].
Qed.

(* the proof uses none of the three hypotheses (merge_total is the statement without them); Props C06 and C12 state
   the theorem in this form *)
Theorem merge_terminates : forall sm to from keep mark,
  closed sm -> to < length sm -> from < length sm ->
  merge (merge_fuel sm) sm to from keep mark <> None.
Proof. intros sm to from keep mark _ _ _. destruct (merge_total sm to from keep mark) as (sm' & ->). discriminate. Qed.

Corollary merge_terminates_ex : forall sm to from keep mark,
  closed sm -> to < length sm -> from < length sm ->
  exists fuel, merge fuel sm to from keep mark <> None.
Proof. intros. exists (merge_fuel sm). apply merge_terminates; assumption. Qed.

(* consequence: the builder is total, the [None] results of the model are never produced *)
Lemma merge_ends_total : forall idxs sm b keep mark, exists sm', merge_ends sm idxs b keep mark = Some sm'.
Proof.
  induction idxs as [|i t IH]; cbn [merge_ends]; intros sm b keep mark; eauto.
  destruct (d_end (get sm i)); auto. destruct (merge_total sm i b keep mark) as (sm1 & ->). auto.
Qed.

Lemma rep_cats_total : forall k sm whole n, exists r, rep_cats sm whole n k = Some r.
Proof.
  induction k as [|c IH]; cbn [rep_cats]; intros sm whole n; eauto.
  unfold b_cat. cbn [sl_start].
  destruct (merge_ends_total (slice_idxs whole) sm (sl_start whole + sl_n whole) false true) as (sm1 & ->).
  cbn [option_map]. auto.
Qed.

Theorem build_total : forall r sm, exists sm' s, build r sm = Some (sm', s).
Proof.
  induction r; intros sm; cbn [build];
    try (destruct (IHr sm) as (sm1 & s1 & ->));
    try (destruct (IHr1 sm) as (sm1 & s1 & ->); destruct (IHr2 sm1) as (sm2 & s2 & ->)).
  - unfold primary_subset. eauto.
  - unfold b_star. destruct (merge_ends_total (slice_idxs s1) (upd sm1 (sl_start s1) (fun d => set_end d true))
                               (sl_start s1) false false) as (x & ->). cbn. eauto.
  - unfold b_plus. destruct (merge_ends_total (slice_idxs s1) sm1 (sl_start s1) true false) as (x & ->). cbn. eauto.
  - unfold b_opt. eauto.
  - destruct n as [|m]; cbn [b_rep]; eauto.
    destruct (rep_cats_total m (rep_copies sm1 s1 0 m) s1 (sl_n s1)) as ([x s] & ->). eauto.
  - unfold b_cat. destruct (merge_ends_total (slice_idxs s1) sm2 (sl_start s2) false true) as (x & ->). cbn. eauto.
  - unfold b_alt. destruct (merge_total sm2 (sl_start s1) (sl_start s2) true true) as (x & ->). cbn. eauto.
Qed.

Theorem build_expr_total : forall r, build_expr r <> None.
Proof. intros r. unfold build_expr. destruct (build_total r []) as (sm & s & ->). discriminate. Qed.

Lemma add_term_total : forall sm t idx, exists sm', add_term sm t idx = Some sm'.
Proof.
  intros sm t idx. unfold add_term. destruct (build_total (regex_of_term t) sm) as (sm1 & s & ->).
  unfold b_alt. cbn [sl_start].
  destruct (merge_total (mark_end_states sm1 s idx) 0 (sl_start s) true true) as (x & ->). cbn. eauto.
Qed.

Theorem create_lexer_total : forall ts, create_lexer ts <> None.
Proof.
  intros ts. unfold create_lexer. generalize 0, (@nil dstate).
  induction ts as [|t ts IH]; cbn [create_lexer_aux]; intros idx sm; [discriminate|].
  destruct (add_term_total sm t idx) as (sm1 & ->). apply IH.
Qed.

Print Assumptions merge_terminates.
Print Assumptions build_total.
Print Assumptions build_expr_total.
Print Assumptions create_lexer_total.
