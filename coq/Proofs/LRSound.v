(* Soundness of the LR(1) table validator: whatever the driver accepts with a validated table is a
   derivation tree of the input. *)
Require Import Ctpg.Base.Prelude Ctpg.Proofs.ListFacts Ctpg.Model.Grammar Ctpg.Model.LRGen Ctpg.Model.Driver
               Ctpg.Spec.Cfg Ctpg.Spec.LRSpec Ctpg.Valid.LRValid
               Ctpg.Proofs.LRReflect Ctpg.Proofs.LRMachine Ctpg.Proofs.LRValidFacts.

(* input tokens are real terms: strictly below the <eof> index *)
Definition tokens_ok (g : grammar) (w : list nat) : Prop := Forall (fun a => a < eof_idx g) w.

Lemma mrun_inv g tbl (Inv : cfg -> Prop) (P : tree -> Prop) :
  (forall c c', Inv c -> mstep g tbl c = Next c' -> Inv c') -> (forall c t, Inv c -> mstep g tbl c = Acc t -> P t) ->
  forall n c t, Inv c -> mrun g tbl n c = Some t -> P t.
Proof.
  intros Hnext Hacc. induction n as [|n IH]; intros c t Hi Hm; cbn [mrun] in Hm; [discriminate|].
  destruct (mstep g tbl c) as [c'|v| |] eqn:Em; try discriminate.
  - exact (IH c' t (Hnext _ _ Hi Em) Hm).
  - injection Hm as <-. exact (Hacc _ _ Hi Em).
Qed.

Lemma mstep_acc g tbl ss trs rest t : mstep g tbl (ss, trs, rest) = Acc t ->
  exists cur ss0 e, ss = cur :: ss0 /\ cell tbl cur (nterm_count g + look g rest) = inl e /\ e_kind e = KSuccess /\
                    hd_error (rev trs) = Some t.
Proof.
  unfold mstep. destruct ss as [|cur ss0]; [discriminate|].
  destruct (cell tbl cur (nterm_count g + look g rest)) as [e|] eqn:Ec; [|discriminate].
  destruct (e_kind e) eqn:Ek; try discriminate.
  - destruct (rev trs) as [|v vs]; [discriminate|]. intros [= <-]. exists cur, ss0, e. auto.
  - destruct (e_arg e); discriminate.
  - destruct (e_arg e) as [r|]; [|discriminate]. pose proof (mreduce_outcome g tbl (cur :: ss0) trs rest r) as Ho.
    destruct (mreduce g tbl (cur :: ss0) trs rest r); (discriminate || contradiction).
Qed.

Section Sound.
  Variable g : grammar.
  Variable sts : list items.
  Variable tbl : table.
  Variable w : list nat.
  Hypothesis SF : sound_facts g sts tbl.
  Hypothesis Hw : tokens_ok g w.

  Notation items_of := (state_items sts).

  (* the state stack (top first) spells the symbols (top first): every item with the dot > 0 of a state has its
     predecessor in the state below, with the symbol before the dot. Items only: that consecutive states are also
     linked by the table's goto_target is not said here (Grouping.gstk adds it). *)
  Inductive stk_ok : list nat -> list symbol -> Prop :=
  | stk_bot : stk_ok [0] []
  | stk_push s ss syms s' X :
      stk_ok (s :: ss) syms -> s' < length sts -> s' <> 0 ->
      (forall j d, In j (items_of s') -> it_d j = S d ->
                   In (mkItem (it_r j) d (it_t j)) (items_of s) /\ nth_error (rhs_of g j) d = Some X) ->
      stk_ok (s' :: s :: ss) (X :: syms).

  Lemma stk_all_lt ss syms : stk_ok ss syms -> Forall (fun s => s < length sts) ss.
  Proof.
    induction 1 as [|s ss syms s' X H IH Hlt Hnz Hj].
    - constructor; [apply (sf_dims2 _ _ _ SF)|constructor].
    - constructor; assumption.
  Qed.

  Lemma stk_len ss syms : stk_ok ss syms -> length ss = S (length syms).
  Proof. induction 1; cbn in *; congruence. Qed.

  Lemma stk_skip ss syms k : stk_ok ss syms -> k <= length syms -> stk_ok (skipn k ss) (skipn k syms).
  Proof.
    intros H; revert k. induction H as [|s ss syms s' X H IH Hlt Hnz Hj]; intros k Hk; cbn in *.
    - assert (k = 0) by lia. subst. cbn. constructor.
    - destruct k as [|k]; cbn.
      + econstructor; eassumption.
      + apply IH. lia.
  Qed.

  Lemma stk_item d : forall s ss syms i,
    stk_ok (s :: ss) syms -> In i (items_of s) -> it_d i = d ->
    d <= length syms /\ rev (firstn d syms) = firstn d (rhs_of g i) /\
    exists s0, nth_error (s :: ss) d = Some s0 /\ In (mkItem (it_r i) 0 (it_t i)) (items_of s0).
  Proof.
    induction d as [|d IH]; intros s ss syms i Hst Hi Hd.
    - split; [lia|]. split; [reflexivity|]. exists s. split; [reflexivity|].
      destruct i as [r d' t]; cbn in *. subst d'. assumption.
    - inversion Hst as [|s1 ss1 syms1 s' X H1 Hlt Hnz Hj]; subst.
      + rewrite (sf_st0_dot _ _ _ SF i Hi) in Hd. discriminate.
      + destruct (Hj i d Hi Hd) as [Hin Hx].
        destruct (IH s1 ss1 syms1 _ H1 Hin eq_refl) as (Hle & Hrev & s0 & Hn & Hin0).
        cbn [it_r it_t] in Hin0. unfold rhs_of in Hrev; cbn [it_r] in Hrev. fold (rhs_of g i) in Hrev.
        split; [cbn; lia|]. split.
        * cbn [firstn rev]. rewrite Hrev. symmetry. apply firstn_S_nth_error. assumption.
        * exists s0. split; assumption.
  Qed.

  (* The yield is compared with w followed by k copies of <eof>: on an empty rest the lookahead is <eof>, and
     cell_justified does not keep a table from shifting it (SInv_next then raises k).  Only acceptance forces k = 0,
     because no derivation tree has <eof> among its leaves (no_eof_yield). *)
  Definition SInv (c : cfg) : Prop :=
    let '(ss, trs, rest) := c in
    exists syms, stk_ok ss syms /\ Forall2 (valid_tree g) syms trs /\
                 (exists k, flat_map yield (rev trs) ++ rest = w ++ repeat (eof_idx g) k) /\
                 Forall (fun a => a < eof_idx g) rest.

  Lemma SInv_init : SInv ([0], [], w).
  Proof.
    exists []. split; [constructor|]. split; [constructor|]. split; [|exact Hw].
    exists 0. cbn. symmetry. apply app_nil_r.
  Qed.

  Lemma look_le_eof rest : Forall (fun a => a < eof_idx g) rest -> look g rest <= eof_idx g.
  Proof. intros H'. destruct rest as [|a r]; cbn; [lia|]. inversion H'; subst. lia. Qed.

  Lemma look_lt rest : Forall (fun a => a < eof_idx g) rest -> look g rest < term_count g.
  Proof. intros H'. pose proof (look_le_eof _ H'). pose proof (eof_lt_tc _ _ _ SF). lia. Qed.

  Lemma look_ne_err rest : Forall (fun a => a < eof_idx g) rest -> look g rest <> err_idx g.
  Proof. intros H'. pose proof (look_le_eof _ H'). pose proof (err_eq _ _ _ SF). lia. Qed.

  Lemma look_eof rest : Forall (fun a => a < eof_idx g) rest -> look g rest = eof_idx g -> rest = [].
  Proof.
    intros H' E. destruct rest as [|a r]; [reflexivity|]. cbn in E. inversion H'; subst. lia.
  Qed.

  Lemma col_lt la : la < term_count g -> nterm_count g + la < symbol_count g.
  Proof. unfold symbol_count. lia. Qed.

  Lemma stk_top_lt s ss syms : stk_ok (s :: ss) syms -> s < length sts.
  Proof. intros H. apply stk_all_lt in H. inversion H; assumption. Qed.

  Lemma push_ok s ss syms X s' :
    stk_ok (s :: ss) syms -> sym_ok g X = true -> shift_just g sts s (sym_col g X) s' ->
    stk_ok (s' :: s :: ss) (X :: syms).
  Proof.
    intros Hst HX Hsj. pose proof Hsj as (Hlt & Hnz & _). constructor; try assumption.
    intros j d. exact (shift_just_sym _ _ _ SF _ _ _ j d HX Hsj).
  Qed.

  Lemma goto_push s ss syms X s' :
    stk_ok (s :: ss) syms -> sym_ok g X = true -> goto_target g tbl s X = Some s' -> stk_ok (s' :: s :: ss) (X :: syms).
  Proof.
    intros Hst HX Hg. apply push_ok; try assumption.
    exact (goto_target_just _ _ _ SF _ _ _ (stk_top_lt _ _ _ Hst) HX Hg).
  Qed.

  Lemma top_cell cur ss syms rest : stk_ok (cur :: ss) syms -> Forall (fun a => a < eof_idx g) rest ->
    cur < length sts /\
    cell tbl cur (nterm_count g + look g rest) = inl (cell_at tbl cur (nterm_count g + look g rest)) /\
    cell_justified g sts tbl cur (nterm_count g + look g rest) = true.
  Proof.
    intros Hst Hr. pose proof (stk_top_lt _ _ _ Hst) as Hcur. pose proof (col_lt _ (look_lt _ Hr)) as Hc.
    split; [assumption|]. split; [apply (cell_in_range _ _ _ SF)|apply (sf_cell _ _ _ SF)]; assumption.
  Qed.

  (* What the validator says of the cell that a justified stack reads under a lookahead, by the kind of the cell. *)

  (* A shift cell, of either kind: the target extends the path by the lookahead. *)
  Lemma shift_cell cur ss syms la nst : stk_ok (cur :: ss) syms -> la < term_count g ->
    e_kind (cell_at tbl cur (nterm_count g + la)) = KShift \/ e_kind (cell_at tbl cur (nterm_count g + la)) = KShiftErr ->
    e_arg (cell_at tbl cur (nterm_count g + la)) = Some nst ->
    stk_ok (nst :: cur :: ss) (T la :: syms).
  Proof.
    intros Hst Hla Hk Ha. pose proof (stk_top_lt _ _ _ Hst) as Hcur.
    destruct (cj_shift _ _ _ _ _ (sf_cell _ _ _ SF cur _ Hcur (col_lt _ Hla)) Hk) as (s' & Ha' & Hsj & _).
    assert (s' = nst) by congruence. subst s'.
    apply push_ok; [assumption|cbn; apply Nat.ltb_lt; assumption|exact Hsj].
  Qed.

  (* A reduce cell: a completed item i of its rule is in the top state, so the right side lies on top of the stack, the
     state below it holds the rule's dot-0 item, and a target in that state's column of the left side is its goto. *)
  Lemma reduce_cell cur ss syms la : stk_ok (cur :: ss) syms -> la < term_count g ->
    e_kind (cell_at tbl cur (nterm_count g + la)) = KReduce ->
    exists r, e_arg (cell_at tbl cur (nterm_count g + la)) = Some r /\ r < rule_count g /\ r <> root_rule_idx g /\
      ri_n (get_ri g r) <= length syms /\
      exists i top below, In i (items_of cur) /\ it_r i = r /\ it_d i = ri_n (get_ri g r) /\
        rev (firstn (ri_n (get_ri g r)) syms) = get_rhs g (ri_r (get_ri g r)) /\
        skipn (ri_n (get_ri g r)) (cur :: ss) = top :: below /\ top < length sts /\
        In (mkItem r 0 (it_t i)) (items_of top) /\
        forall nst, e_arg (cell_at tbl top (ri_l (get_ri g r))) = Some nst ->
          goto_target g tbl top (NT (ri_l (get_ri g r))) = Some nst /\
          stk_ok (nst :: top :: below) (NT (ri_l (get_ri g r)) :: skipn (ri_n (get_ri g r)) syms).
  Proof.
    intros Hst Hla Ek. pose proof (stk_top_lt _ _ _ Hst) as Hcur.
    destruct (cj_reduce _ _ _ _ _ (sf_cell _ _ _ SF cur _ Hcur (col_lt _ Hla)) Ek)
      as (r & Ha & Hrlt & Hnr & _ & i & Hi & Hir & Hic).
    exists r. do 3 (split; [assumption|]).
    destruct (sf_ri _ _ _ SF r Hrlt) as (_ & Hrl & Hrn).
    pose proof (complete_dot _ _ _ SF cur i Hcur Hi Hic) as Hd. rewrite Hir in Hd.
    destruct (stk_item _ _ _ _ i Hst Hi Hd) as (Hnle & Hrev & top & Htop & Hin0).
    unfold rhs_of in Hrev. rewrite Hir, (firstn_all2 (get_rhs g (ri_r (get_ri g r)))) in Hrev by lia.
    split; [exact Hnle|].
    pose proof (stk_skip _ _ _ Hst Hnle) as Hst'.
    pose proof (nth_error_skipn (cur :: ss) (ri_n (get_ri g r)) 0) as Esk. rewrite Nat.add_0_r, Htop in Esk.
    destruct (skipn (ri_n (get_ri g r)) (cur :: ss)) as [|top' below]; [discriminate|]. injection Esk as ->.
    pose proof (stk_top_lt _ _ _ Hst') as Hlt. rewrite Hir in Hin0.
    exists i, top, below. do 6 (split; [auto|]). split; [exact Hin0|].
    intros nst Ea'. pose proof (nt_cell_goto _ _ _ SF _ _ _ Hlt Hrl Ea') as Hg. split; [exact Hg|].
    apply goto_push; [exact Hst'|cbn; apply Nat.ltb_lt; exact Hrl|exact Hg].
  Qed.

  (* An accept cell: the lookahead is <eof> and the stack spells the root symbol, over state 0. *)
  Lemma success_cell cur ss syms la : stk_ok (cur :: ss) syms -> la < term_count g ->
    e_kind (cell_at tbl cur (nterm_count g + la)) = KSuccess ->
    la = eof_idx g /\ ss = [0] /\ exists x, syms = [NT x] /\ root_symbol g = Some (NT x).
  Proof.
    intros Hst Hla Ek. pose proof (stk_top_lt _ _ _ Hst) as Hcur.
    destruct (cj_success _ _ _ _ _ (sf_cell _ _ _ SF cur _ Hcur (col_lt _ Hla)) Ek) as (Hcol & i & Hi & Hir & Hic).
    split; [unfold col_of_term in Hcol; lia|].
    destruct (sf_root_rhs _ _ _ SF) as (x & Hroot).
    destruct (sf_ri _ _ _ SF _ (root_lt _ _ _ SF)) as (_ & _ & Hn). rewrite (sf_root_r _ _ _ SF), Hroot in Hn. cbn in Hn.
    pose proof (complete_dot _ _ _ SF cur i Hcur Hi Hic) as Hd. rewrite Hir, Hn in Hd.
    assert (rhs_of g i = [NT x]) as Erhs by (unfold rhs_of; rewrite Hir, (sf_root_r _ _ _ SF); assumption).
    (* the root item with the dot at 0 is in the state below: that is state 0, the bottom *)
    inversion Hst as [|s ss0 syms0 ? X Hst0 _ _ Hj]; subst; [rewrite (sf_st0_dot _ _ _ SF i Hi) in Hd; discriminate|].
    destruct (Hj i 0 Hi Hd) as [Hin0 HX]. rewrite Erhs in HX. injection HX as <-.
    assert (s = 0) by (apply (sf_root_st0 _ _ _ SF s _ (stk_top_lt _ _ _ Hst0) Hin0); [exact Hir|reflexivity]). subst s.
    inversion Hst0 as [|? ? ? ? ? _ _ Hnz _]; subst; [|contradiction].
    split; [reflexivity|]. exists x. split; [reflexivity|exact (root_symbol_eq _ _ _ SF x Hroot)].
  Qed.

  Lemma SInv_not_bad c : SInv c -> mstep g tbl c <> Bad.
  Proof.
    destruct c as [[ss trs] rest]. intros (syms & Hst & _ & _ & Hr).
    destruct ss as [|cur ss]; [discriminate|].
    destruct (top_cell _ _ _ _ Hst Hr) as (_ & Hc & Hcj). unfold mstep. rewrite Hc.
    set (e := cell_at tbl cur (nterm_count g + look g rest)) in *.
    destruct (e_kind e) eqn:Ek; try discriminate.
    - destruct (rev trs); discriminate.
    - destruct (e_arg e); discriminate.
    - (* KShiftErr: would have to be the error column *)
      exfalso. destruct (cj_shift _ _ _ _ _ Hcj (or_intror Ek)) as (s' & _ & _ & Hcol).
      apply (look_ne_err _ Hr). specialize (Hcol Ek). unfold col_of_term in Hcol. lia.
    - destruct (e_arg e) as [r|]; [|discriminate]. pose proof (mreduce_outcome g tbl (cur :: ss) trs rest r) as Ho.
      destruct (mreduce g tbl (cur :: ss) trs rest r); (discriminate || contradiction).
    - exfalso. exact (cj_rr _ _ _ _ _ Hcj Ek).
  Qed.

  (* One step of the machine as shift_cell / reduce_cell describe it, as a relation between configurations; the index
     after the old stack is what the new stack spells. *)
  Inductive step_to (syms : list symbol) (trs : list tree) (rest : list nat) :
    list nat -> list symbol -> list nat -> list tree -> list nat -> Prop :=
  | ST_shift cur ss nst :
      goto_target g tbl cur (T (look g rest)) = Some nst ->
      step_to syms trs rest (cur :: ss) (T (look g rest) :: syms) (nst :: cur :: ss) (Leaf (look g rest) :: trs) (tl rest)
  | ST_reduce cur ss r i top below nst :
      r < rule_count g ->
      e_kind (cell_at tbl cur (nterm_count g + look g rest)) = KReduce ->
      e_arg (cell_at tbl cur (nterm_count g + look g rest)) = Some r ->
      In i (items_of cur) -> it_r i = r -> it_d i = ri_n (get_ri g r) ->
      ri_n (get_ri g r) <= length syms ->
      rev (firstn (ri_n (get_ri g r)) syms) = get_rhs g (ri_r (get_ri g r)) ->
      skipn (ri_n (get_ri g r)) (cur :: ss) = top :: below ->
      goto_target g tbl top (NT (ri_l (get_ri g r))) = Some nst ->
      step_to syms trs rest (cur :: ss) (NT (ri_l (get_ri g r)) :: skipn (ri_n (get_ri g r)) syms) (nst :: top :: below)
              (Node (ri_r (get_ri g r)) (rev (firstn (ri_n (get_ri g r)) trs)) :: skipn (ri_n (get_ri g r)) trs) rest.

  Lemma step_cases ss syms trs rest ss' trs' rest' :
    stk_ok ss syms -> Forall (fun a => a < eof_idx g) rest -> mstep g tbl (ss, trs, rest) = Next (ss', trs', rest') ->
    exists syms', step_to syms trs rest ss syms' ss' trs' rest' /\ stk_ok ss' syms' /\
                  Forall (fun a => a < eof_idx g) rest'.
  Proof.
    intros Hst Hr. destruct ss as [|cur ss]; [discriminate|].
    destruct (top_cell _ _ _ _ Hst Hr) as (Hcur & Hc & _). pose proof (look_lt _ Hr) as Hla.
    unfold mstep. rewrite Hc. set (e := cell_at tbl cur (nterm_count g + look g rest)) in *.
    destruct (e_kind e) eqn:Ek; try discriminate.
    - destruct (rev trs); discriminate.
    - (* shift *)
      destruct (e_arg e) as [nst|] eqn:Ea; [|discriminate]. intros [= <- <- <-].
      exists (T (look g rest) :: syms). split; [|split].
      + constructor. apply shift_goto; try assumption. exact (look_ne_err _ Hr).
      + exact (shift_cell _ _ _ _ _ Hst Hla (or_introl Ek) Ea).
      + destruct rest as [|a r]; [constructor|]. inversion Hr; assumption.
    - (* reduce, by a completed item i of the top state *)
      destruct (reduce_cell _ _ _ _ Hst Hla Ek)
        as (r & Ea & Hrlt & _ & Hnle & i & top & below & Hi & Hir & Hd & Hrev & Esk & Htop & _ & Hgo).
      fold e in Ea. rewrite Ea. destruct (sf_ri _ _ _ SF r Hrlt) as (_ & Hrl & _).
      unfold mreduce. rewrite (nth_error_get_ri _ _ _ SF r Hrlt). cbv zeta. rewrite Esk.
      destruct (Nat.ltb (length (cur :: ss)) (ri_n (get_ri g r))); [discriminate|].
      rewrite (cell_in_range _ _ _ SF top (ri_l (get_ri g r)) Htop) by (unfold symbol_count; lia).
      destruct (e_arg (cell_at tbl top (ri_l (get_ri g r)))) as [nst|] eqn:Ea'; [|discriminate].
      destruct (Nat.ltb (length trs) (ri_n (get_ri g r))); [discriminate|]. intros [= <- <- <-].
      destruct (Hgo nst eq_refl) as [Hg Hst'].
      exists (NT (ri_l (get_ri g r)) :: skipn (ri_n (get_ri g r)) syms).
      split; [econstructor; eassumption|]. split; assumption.
  Qed.

  Lemma step_to_trees syms trs rest ss syms' ss' trs' rest' :
    step_to syms trs rest ss syms' ss' trs' rest' -> Forall2 (valid_tree g) syms trs -> Forall2 (valid_tree g) syms' trs'.
  Proof.
    intros [cur ss0 nst _|cur ss0 r i top below nst Hrlt _ _ _ _ _ _ Hrev _ _] Hv.
    - constructor; [constructor|assumption].
    - constructor; [|apply Forall2_skipn; assumption].
      econstructor; [apply (is_rule_ri _ _ _ SF r Hrlt)|]. rewrite <- Hrev.
      apply Forall2_rev. apply Forall2_firstn. assumption.
  Qed.

  Lemma SInv_next c c' : SInv c -> mstep g tbl c = Next c' -> SInv c'.
  Proof.
    destruct c as [[ss trs] rest], c' as [[ss' trs'] rest']. intros (syms & Hst & Hv & (k & Hy) & Hr) Hstep.
    destruct (step_cases _ _ _ _ _ _ _ Hst Hr Hstep) as (syms' & Hto & Hst' & Hr').
    exists syms'. split; [exact Hst'|]. split; [exact (step_to_trees _ _ _ _ _ _ _ _ Hto Hv)|]. split; [|exact Hr'].
    destruct Hto; cbn [rev]; rewrite flat_map_app; cbn [flat_map yield]; rewrite app_nil_r.
    - destruct rest as [|a r]; cbn [look hd tl].
      + exists (S k). rewrite app_nil_r in Hy |- *. cbn [repeat]. rewrite Hy, repeat_cons, app_assoc. reflexivity.
      + exists k. rewrite <- app_assoc. exact Hy.
    - exists k. rewrite <- flat_map_app, <- rev_app_distr, firstn_skipn. exact Hy.
  Qed.

  Lemma valid_yield_Forall (Q : nat -> Prop) :
    (forall rhs b, In rhs (right_sides g) -> In (T b) rhs -> Q b) ->
    forall t X, valid_tree g X t -> (forall b, X = T b -> Q b) -> Forall Q (yield t).
  Proof.
    intros HQ. induction t as [a|r ch IH] using tree_ind'; intros X Hv HX.
    - inversion Hv; subst. cbn. constructor; [apply HX; reflexivity|constructor].
    - inversion Hv as [|r' l rhs ch' (i & ri & _ & _ & _ & Hrhs%nth_error_In) Hch]; subst. cbn [yield].
      assert (HT : forall b, In (T b) rhs -> Q b) by (intros b; apply HQ, Hrhs).
      clear Hv HX Hrhs. induction Hch as [|x c rhs ch Hx _ IHch]; cbn [flat_map]; [constructor|].
      inversion IH as [|? ? Hc IHt]; subst. apply Forall_app. split.
      + apply (Hc x Hx). intros b ->. apply HT. left. reflexivity.
      + apply IHch; [exact IHt|]. intros b Hb. apply HT. right. exact Hb.
  Qed.

  Lemma no_eof_yield t : forall X, valid_tree g X t -> X <> T (eof_idx g) -> ~ In (eof_idx g) (yield t).
  Proof.
    intros X Hv HX Hin.
    assert (H : Forall (fun a => a <> eof_idx g) (yield t)).
    { apply (valid_yield_Forall _) with (X := X); [|exact Hv|intros b -> ->; exact (HX eq_refl)].
      intros rhs b Hr Hb ->. exact (proj2 (proj2 (sf_sym _ _ _ SF rhs _ Hr Hb)) eq_refl). }
    rewrite Forall_forall in H. exact (H _ Hin eq_refl).
  Qed.

  (* the configuration in which the machine accepts: the root's tree alone, over state 0, all input read *)
  Lemma SInv_accepting ss trs rest t : SInv (ss, trs, rest) -> mstep g tbl (ss, trs, rest) = Acc t ->
    (exists cur, ss = [cur; 0]) /\ trs = [t] /\ rest = [] /\ derives_tree g t w.
  Proof.
    intros (syms & Hst & Hv & (k & Hy) & Hr) Hm.
    destruct (mstep_acc _ _ _ _ _ _ Hm) as (cur & ss0 & e & -> & Ec & Ek & Ht).
    rewrite (cell_cell_at _ _ _ _ Ec) in Ek.
    destruct (success_cell _ _ _ _ Hst (look_lt _ Hr) Ek) as (Hl & -> & x & -> & Hroot).
    pose proof (look_eof _ Hr Hl) as ->.
    inversion Hv as [|? v ? trs' Hvx Hnil]; subst. inversion Hnil; subst. cbn in Ht. injection Ht as <-.
    split; [eauto|]. do 2 (split; [reflexivity|]). exists (NT x). split; [exact Hroot|]. split; [assumption|].
    cbn in Hy. rewrite !app_nil_r in Hy.
    destruct k as [|k]; [cbn in Hy; rewrite app_nil_r in Hy; assumption|]. exfalso.
    apply (no_eof_yield v (NT x) Hvx); [discriminate|]. rewrite Hy. apply in_or_app. right. left. reflexivity.
  Qed.

  Lemma SInv_acc c t : SInv c -> mstep g tbl c = Acc t -> derives_tree g t w.
  Proof. destruct c as [[ss trs] rest]. intros Hi Hm. apply (SInv_accepting _ _ _ _ Hi Hm). Qed.
End Sound.

(* what the driver accepts, the machine runs: the invariant keeps it off [Bad] moves *)
Lemma accepts_machine g sts tbl w t : sound_facts g sts tbl -> no_error_symbol g tbl = true -> tokens_ok g w ->
  accepts g tbl w t -> exists n, mrun g tbl n ([0], [], w) = Some t.
Proof.
  intros SF Hne Hw. apply (accepts_mrun g tbl w (SInv g sts w)).
  - intros c. apply SInv_not_bad; assumption.
  - intros c c'. apply SInv_next; assumption.
  - exact (no_error_symbol_cell g tbl Hne).
  - apply SInv_init. assumption.
Qed.

Theorem lr_sound : forall g sts tbl w t,
  validate_sound g sts tbl = true ->
  no_error_symbol g tbl = true ->
  tokens_ok g w ->
  accepts g tbl w t ->
  derives_tree g t w.
Proof.
  intros g sts tbl w t Hv Hne Hw Hacc.
  pose proof (sound_facts_of g sts tbl Hv) as SF.
  destruct (accepts_machine g sts tbl w t SF Hne Hw Hacc) as (n & Hn).
  exact (mrun_inv g tbl _ _ (SInv_next g sts tbl w SF) (SInv_acc g sts tbl w SF) n _ t (SInv_init g sts w Hw) Hn).
Qed.

Print Assumptions lr_sound.
