(* C10: the source point the driver tracks is the true (line, column) of its cursor, for every option
   combination; every position it reports or hands to a functor is the true position of the offset it refers to. *)
Require Import Ctpg.Base.Prelude Ctpg.Proofs.ListFacts Ctpg.Model.Grammar Ctpg.Model.LRGen Ctpg.Model.Driver
               Ctpg.Spec.Eval.
Require Import Ctpg.Proofs.DriverBasics Ctpg.Proofs.DriverIter.

(* source_point::update ([sp_update]) against [true_pos] *)
Lemma since_newline_snoc l b : since_newline (l ++ [b]) = if Nat.eqb b 10 then 0 else S (since_newline l).
Proof.
  induction l as [|a l IH]; cbn [app since_newline].
  - cbn. destruct (Nat.eqb b 10); reflexivity.
  - rewrite existsb_app. cbn [existsb]. rewrite orb_false_r, IH, app_length. cbn [length].
    rewrite (Nat.eqb_sym 10 b).
    destruct (Nat.eqb b 10); [now rewrite orb_true_r|]. rewrite orb_false_r.
    destruct (existsb (Nat.eqb 10) l); [reflexivity|]. destruct (Nat.eqb a 10); lia.
Qed.

Lemma sp_update_spec m : forall l,
  sp_update (mkSp (S (length (filter (Nat.eqb 10) l))) (S (since_newline l))) m =
  mkSp (S (length (filter (Nat.eqb 10) (l ++ m)))) (S (since_newline (l ++ m))).
Proof.
  induction m as [|b m IH]; intros l; cbn [sp_update]; [now rewrite app_nil_r|].
  replace (l ++ b :: m) with ((l ++ [b]) ++ m) by (now rewrite <- app_assoc).
  rewrite <- IH. f_equal. cbn [sp_line sp_col].
  rewrite since_newline_snoc, filter_app, app_length. cbn [filter]. rewrite (Nat.eqb_sym 10 b).
  destruct (Nat.eqb b 10); cbn [length]; f_equal; lia.
Qed.

Lemma true_pos_slice buf i j : i <= j -> sp_update (true_pos buf i) (slice_of buf i j) = true_pos buf j.
Proof.
  intros H. unfold true_pos, line_of, col_of, slice_of. rewrite sp_update_spec, <- firstn_add.
  now replace (i + (j - i)) with j by lia.
Qed.

(* as C10 states it; the bound [j <= length buf] is not used *)
Theorem sp_update_true_pos : forall buf i j, i <= j <= length buf ->
  sp_update (true_pos buf i) (slice_of buf i j) = true_pos buf j.
Proof. intros buf i j [H _]. now apply true_pos_slice. Qed.

Theorem true_pos_0 : forall buf, true_pos buf 0 = sp0.
Proof. reflexivity. Qed.

Definition ev_pos (e : event) : option spoint :=
  match e with
  | EvLex _ => None
  | EvRecognized p _ | EvShift p _ _ _ | EvShiftErr p _ | EvReduce p _ _ | EvGoto p _ | EvRR p
  | EvSyntaxError p _ | EvUnexpectedChar p _ | EvEnterRecovery p | EvLeaveRecovery p
  | EvEnterConsume p | EvLeaveConsume p | EvRecoveringTo p _ | EvCouldNotRecover p
  | EvConsuming p _ | EvSuccess p => Some p
  end.

(* line e was written while the cursor (after whitespace) was at offset k of buf *)
Definition event_at (buf : list nat) (k : nat) (e : event) : Prop :=
  k <= length buf /\
  (forall p, ev_pos e = Some p -> p = true_pos buf k) /\
  match e with
  | EvShift _ _ a l => a = k /\ a + l <= length buf      (* the lexeme starts at the cursor and lies in the buffer *)
  | EvUnexpectedChar _ c => nth_error buf k = Some c      (* the reported character is the one at the cursor *)
  | _ => True
  end.

Definition event_pos_ok (buf : list nat) (e : event) : Prop := exists k, event_at buf k e.

(* what event_pos_ok says of a shift line and of the unexpected-character message *)
Lemma event_pos_ok_shift buf p st a l : event_pos_ok buf (EvShift p st a l) -> p = true_pos buf a /\ a + l <= length buf.
Proof. intros (k & _ & Hp & -> & Hl). split; [apply Hp; reflexivity|assumption]. Qed.
Lemma event_pos_ok_unexpected buf p c : event_pos_ok buf (EvUnexpectedChar p c) ->
  exists k, k < length buf /\ p = true_pos buf k /\ nth_error buf k = Some c.
Proof.
  intros (k & _ & Hp & Hc). exists k. repeat split; [|apply Hp; reflexivity|assumption].
  apply nth_error_Some. congruence.
Qed.
Lemma event_pos_ok_syntax buf p t : event_pos_ok buf (EvSyntaxError p t) -> exists k, k <= length buf /\ p = true_pos buf k.
Proof. intros (k & Hk & Hp & _). exists k. split; [assumption|apply Hp; reflexivity]. Qed.

Inductive tree_ok (buf : list nat) : ptree -> Prop :=
| ok_leaf t a l : a + l <= length buf -> tree_ok buf (PLeaf t a l (true_pos buf a))
| ok_err k : k <= length buf -> tree_ok buf (PErr (true_pos buf k))
| ok_node r ch : Forall (tree_ok buf) ch -> tree_ok buf (PNode r ch).

Inductive occurs (x : ptree) : ptree -> Prop :=
| occ_here : occurs x x
| occ_child r ch c : In c ch -> occurs x c -> occurs x (PNode r ch).

Lemma tree_ok_occurs buf tr x : tree_ok buf tr -> occurs x tr -> tree_ok buf x.
Proof.
  intros Hok Hocc. induction Hocc as [|r ch c Hin Hocc IH]; [assumption|].
  apply IH. inversion Hok as [| |r' ch' Hall]; subst. rewrite Forall_forall in Hall. auto.
Qed.

Lemma tree_ok_leaf buf tr t a l p : tree_ok buf tr -> occurs (PLeaf t a l p) tr -> p = true_pos buf a /\ a + l <= length buf.
Proof. intros Hok Hocc. pose proof (tree_ok_occurs _ _ _ Hok Hocc) as H. inversion H; auto. Qed.

Lemma tree_ok_err buf tr p : tree_ok buf tr -> occurs (PErr p) tr -> exists k, k <= length buf /\ p = true_pos buf k.
Proof. intros Hok Hocc. pose proof (tree_ok_occurs _ _ _ Hok Hocc) as H. inversion H; eauto. Qed.

(* [lexer_in_range] gives Section Pos its [lexer_len]; DriverLinear and DriverTokens enter that way *)
Lemma in_range_len lexer : lexer_in_range lexer ->
  forall v p rest t len, snd (lexer v p rest) = Some (t, len) -> len <= length rest.
Proof. intros H v p rest t len Hl. apply H in Hl. tauto. Qed.

(* [tokenize] counts the white space it skips as [get_current_term] does, [wsk] *)
Lemma tokenize_S F opts lexer buf pos :
  tokenize (S F) opts lexer buf pos =
  match skipn (pos + wsk opts buf pos) buf with
  | [] => ([], TokEof (pos + wsk opts buf pos))
  | c :: rest =>
      match snd (lexer (o_verbose opts) (true_pos buf (pos + wsk opts buf pos)) (c :: rest)) with
      | None => ([], TokFail (pos + wsk opts buf pos))
      | Some (t, len) =>
          let '(ts, e) := tokenize F opts lexer buf (pos + wsk opts buf pos + len) in ((t, pos + wsk opts buf pos, len) :: ts, e)
      end
  end.
Proof. cbn [tokenize]. fold (wsk opts buf pos). rewrite skipn_add. reflexivity. Qed.

Section Pos.
  Variables V C : Type.
  Variable g : grammar.
  Variable tbl : table.
  Variable opts : options.
  Variable buf : list nat.
  Variable cap : option nat.
  Variable lexer : bool -> spoint -> list nat -> list lex_event * option (nat * nat).
  Variable term_f : nat -> nat -> nat -> spoint -> V.
  Variable err_f : spoint -> V.
  Variable rule_f : nat -> C -> list V -> C * V.

  (* lexeme ends stay inside the buffer *)
  Hypothesis lexer_len : forall v p rest t len, snd (lexer v p rest) = Some (t, len) -> len <= length rest.
  (* At end of input get_current_term advances current_it over trailing whitespace but leaves current_end_it behind
     it. A table that shifts in that configuration (on <eof>, or on <error_recovery_token> with <eof> pending) makes
     consume_term move the cursor BACK without touching the source point. No table built from a grammar does that. *)
  Hypothesis no_eof_shift : eof_err_not_shifted g tbl \/ o_skip_ws opts = false.

  Notation pst := (pstate V C).
  Notation stepx := (step V C g tbl opts buf cap lexer term_f err_f rule_f).
  Notation run_ghx := (run_gh V C g tbl opts buf cap lexer term_f err_f rule_f).
  Notation runx := (run V C g tbl opts buf cap lexer term_f err_f rule_f).
  Notation gspec := (gct_spec V C g opts buf lexer).
  Notation performx := (perform buf term_f err_f rule_f).
  Notation decidedx := (decided V C g tbl buf cap).

  (* offset of the cursor once the current term is known *)
  Definition cur_off (s : pst) : nat := ps_it (fst (fst (get_current_term V C g opts buf lexer s))).

  (* the half of the invariant that the final state of a run has as well *)
  Definition pos_fin (s : pst) : Prop :=
    ps_sp s = true_pos buf (ps_it s) /\ ps_it s <= length buf /\ ps_end s <= length buf.
  (* the pending lexeme is [ps_it, ps_end) -- except for <eof> found after trailing whitespace.  [no_eof_shift] is a
     disjunction, and [move_pos] needs its left side exactly in that exception: so the table fact is carried here. *)
  Definition gap_ok (s : pst) : Prop :=
    ps_it s <= ps_end s \/ (ps_term s = Some (eof_idx g) /\ eof_err_not_shifted g tbl).
  Definition pos_inv (s : pst) : Prop := pos_fin s /\ gap_ok s.

  Lemma pos_inv_init c : pos_inv (init c).
  Proof. unfold pos_inv, pos_fin, gap_ok; cbn. repeat split; try reflexivity; lia. Qed.

  (* the cursor fields are all these invariants look at *)
  Lemma pos_cur (s s' : pst) : same_cur s s' -> (pos_fin s -> pos_fin s') /\ (gap_ok s -> gap_ok s').
  Proof. intros (H1 & H2 & H3 & H4). unfold pos_fin, gap_ok. rewrite H1, H2, H3, H4. auto. Qed.

  (* the cursor moves forward with sp_update over what it passes *)
  Lemma pos_advance (s : pst) it1 en tm : pos_fin s -> ps_it s <= it1 -> it1 <= length buf -> en <= length buf ->
    pos_fin (set_pos s (sp_update (ps_sp s) (slice_of buf (ps_it s) it1)) it1 en tm).
  Proof. intros (Hsp & _) Hle H1 H2. unfold pos_fin; simp_ps. rewrite Hsp, true_pos_slice by assumption. auto. Qed.

  Lemma pos_consume (s : pst) : pos_fin s -> ps_it s <= ps_end s -> pos_inv (consume_term V C buf s).
  Proof. intros Hfin Hle. pose proof Hfin as (_ & _ & Hen). split; [now apply pos_advance|]. left. simp_ps. lia. Qed.

  Lemma lex_events_at k lx : k <= length buf -> Forall (event_at buf k) (map EvLex lx).
  Proof. intros Hk. induction lx; cbn; constructor; auto. repeat split; [assumption|discriminate]. Qed.

  (* a line written with the source point of [s1]; a shift line names the pending lexeme *)
  Definition carries (s1 : pst) (e : event) : Prop :=
    ev_pos e = Some (ps_sp s1) /\
    match e with
    | EvShift _ _ a l => a = ps_it s1 /\ l = ps_end s1 - ps_it s1
    | EvUnexpectedChar _ _ => False
    | _ => True
    end.

  Lemma carries_at s1 e : pos_fin s1 -> carries s1 e -> event_at buf (ps_it s1) e.
  Proof.
    intros (Hsp & Hit & Hen) [Hp He]. split; [assumption|]. split.
    - intros p Hp'. congruence.
    - destruct e; try exact I; [|contradiction]. destruct He as [-> ->]. lia.
  Qed.

  Lemma move_carries (s1 : pst) cursor t m : decidedx s1 cursor t m -> Forall (carries s1) (snd (performx m s1)).
  Proof.
    intros H; destruct H; cbn [perform snd]; unfold lc, rr_line, shift_line; try destruct rr; destruct (ps_cons s1);
      repeat constructor.
  Qed.

  Lemma gct_pos s s1 ot ev :
    pos_inv s -> gspec s (s1, ot, ev) ->
    pos_fin s1 /\ Forall (event_at buf (ps_it s1)) ev /\ (ot <> None -> gap_ok s1).
  Proof.
    intros [Hfin Hgap] H. pose proof Hfin as (Hsp & Hit & Hen).
    inversion H as [Hr|Hr Hne|sp1 it1 Hr He Hit1 Hsp1 Hsk|sp1 it1 c rest lx Hr He Hit1 Hsp1 Hsk Hlx|sp1 it1 c rest lx t len Hr He Hit1 Hsp1 Hsk Hlx];
      subst s1 ot ev; [repeat split; auto..|subst sp1|subst sp1|subst sp1].
    - assert (Hfin1 := pos_advance s it1 (ps_end s) (Some (eof_idx g)) Hfin ltac:(lia) ltac:(pose proof (wsk_le opts buf (ps_it s)); lia) Hen).
      split; [exact Hfin1|]. split.
      + constructor; [|constructor]. apply (carries_at _ _ Hfin1). repeat constructor.
      + intros _. unfold gap_ok; simp_ps. destruct no_eof_shift as [Hn|Hn]; [auto|].
        left. unfold wsk in Hit1. rewrite Hn in Hit1. lia.
    - apply skipn_cons_lt in Hsk as [Hl1 Hnth].
      assert (Hfin1 := pos_advance s it1 (ps_end s) None Hfin ltac:(lia) ltac:(lia) Hen).
      split; [exact Hfin1|]. split; [|congruence]. simp_ps.
      apply Forall_app; split; [apply lex_events_at; lia|]. constructor; [|constructor].
      split; [lia|]. split; [|assumption]. intros p Hp. inversion Hp. apply Hfin1.
    - pose proof (lexer_len _ _ _ _ _ (f_equal snd Hlx)) as Hlen. rewrite <- Hsk, skipn_length in Hlen.
      apply skipn_cons_lt in Hsk as [Hl1 _].
      assert (Hfin1 := pos_advance s it1 (it1 + len) (Some t) Hfin ltac:(lia) ltac:(lia) ltac:(lia)).
      split; [exact Hfin1|]. split.
      + apply Forall_app; split; [apply lex_events_at; simp_ps; lia|]. constructor; [|constructor].
        apply (carries_at _ _ Hfin1). repeat constructor.
      + intros _. left. simp_ps. lia.
  Qed.

  Lemma move_pos (s1 : pst) cursor t m :
    pos_fin s1 -> gap_ok s1 ->
    (ps_rec s1 = true /\ t = err_idx g) \/ (ps_rec s1 = false /\ ps_term s1 = Some t) ->
    decidedx s1 cursor t m ->
    Forall (event_at buf (ps_it s1)) (snd (performx m s1)) /\
    match fst (performx m s1) with inl s' => pos_inv s' | inr (_, s') => pos_fin s' end.
  Proof.
    intros Hfin Hgap Hterm H. split.
    { eapply Forall_impl; [|exact (move_carries _ _ _ _ H)]. intros e. now apply carries_at. }
    pose proof (move_cur term_f err_f rule_f H) as Hc.
    destruct (fst (performx m s1)) as [s'|[r s']]; [|now apply (pos_cur _ _ Hc)].
    destruct Hc as [Hc|[Hc Hwhy]]; [split; now apply (pos_cur _ _ Hc)|].
    (* the cursor moves to the end of the pending lexeme; <eof> after whitespace is neither discarded nor shifted *)
    assert (Hle : ps_it s1 <= ps_end s1).
    { destruct Hgap as [|[Ht [Hn1 Hn2]]]; [assumption|exfalso].
      destruct Hwhy as [[_ Hne]|(e & Hcell & Hk)]; [contradiction|].
      destruct Hterm as [[_ ->]|[_ Ht']]; [eapply Hn2; eauto|].
      rewrite Ht in Ht'. inversion Ht'; subst. eapply Hn1; eauto. }
    destruct (pos_consume s1 Hfin Hle). split; now apply (pos_cur _ _ Hc).
  Qed.

  (* one iteration: all its lines are at the cursor offset; the invariant is kept *)
  Lemma step_pos s : pos_inv s ->
    Forall (event_at buf (cur_off s)) (snd (stepx s)) /\
    match fst (stepx s) with inl s' => pos_inv s' | inr (_, s') => pos_fin s' end.
  Proof.
    intros Hinv. unfold cur_off. apply step_moves.
    - intros _. split; [constructor|]. apply Hinv.
    - intros s1 ev1 _ -> Hg. apply (gct_pos _ _ _ _ Hinv) in Hg as (Hfin & Hev & _). split; assumption.
    - intros cursor cs s1 t ev1 m _ -> Hg Hd.
      pose proof (gct_term Hg) as Hterm.
      apply (gct_pos _ _ _ _ Hinv) in Hg as (Hfin & Hev & Hgap).
      destruct (move_pos _ _ _ _ Hfin (Hgap ltac:(discriminate)) Hterm Hd) as [Hev2 Hr].
      cbn [fst snd]. split; [apply Forall_app; auto|assumption].
  Qed.

  Theorem run_gh_pos fuel c :
    let '(r, s, out, vis) := run_ghx fuel (init c) [] [] in
    pos_fin s /\ (r = OutOfFuel -> pos_inv s) /\
    Forall pos_inv vis /\
    Forall (fun s0 => Forall (event_at buf (cur_off s0)) (snd (stepx s0))) vis /\
    Forall (event_pos_ok buf) out.
  Proof.
    unshelve epose proof (run_gh_sinv V C g tbl opts buf cap lexer term_f err_f rule_f pos_inv
                            (fun r s => pos_fin s /\ (r = OutOfFuel -> pos_inv s)) _ _
                            fuel (init c) [] [] (pos_inv_init c) (Forall_nil _)) as H.
    { intros s Hs. split; [apply Hs|auto]. }
    { intros s Hs. pose proof (step_pos s Hs) as [_ H2].
      destruct (fst (stepx s)) as [s'|[r s']] eqn:E; [assumption|]. split; [assumption|].
      intros ->. destruct (step_final E). }
    pose proof (run_gh_out V C g tbl opts buf cap lexer term_f err_f rule_f fuel (init c) [] [] [] eq_refl) as Ho.
    destruct (run_ghx fuel (init c) [] []) as [[[r s] out] vis]. destruct H as [[H1 H2] H3].
    assert (H4 : Forall (fun s0 => Forall (event_at buf (cur_off s0)) (snd (stepx s0))) vis).
    { eapply Forall_impl; [|exact H3]. intros s0 Hs0. apply step_pos, Hs0. }
    do 4 (split; [assumption|]).
    cbn [app] in Ho. subst out. eapply incl_Forall; [apply incl_filter|]. apply Forall_flat_map.
    eapply Forall_impl; [|exact H4]. intros s0 Hs0. eapply Forall_impl; [|exact Hs0]. intros e He. eexists; eassumption.
  Qed.

  Theorem run_pos fuel c :
    let '(r, s, out) := runx fuel c in
    ps_sp s = true_pos buf (ps_it s) /\ ps_it s <= length buf /\ ps_end s <= length buf /\
    (r = OutOfFuel -> ps_it s <= ps_end s \/ ps_term s = Some (eof_idx g)) /\
    Forall (event_pos_ok buf) out.
  Proof.
    rewrite run_of_gh.
    pose proof (run_gh_pos fuel c) as H. destruct (run_ghx fuel (init c) [] []) as [[[r s] out] vis].
    destruct H as ((H1 & H2 & H3) & H4 & _ & _ & H5). repeat split; auto.
    intros Hr. destruct (H4 Hr) as [_ [Hg|[Hg _]]]; auto.
  Qed.
End Pos.

(* With the tree algebra of Spec/Eval.v for the functors, every position handed to the term functor shows as a leaf. *)
Section PosTree.
  Variable g : grammar.
  Variable tbl : table.
  Variable opts : options.
  Variable buf : list nat.
  Variable cap : option nat.
  Variable lexer : bool -> spoint -> list nat -> list lex_event * option (nat * nat).
  Hypothesis lexer_len : forall v p rest t len, snd (lexer v p rest) = Some (t, len) -> len <= length rest.
  Hypothesis no_eof_shift : eof_err_not_shifted g tbl \/ o_skip_ws opts = false.

  Notation TC := (list (nat * list ptree)).
  Notation pst := (pstate ptree TC).
  Notation stepx := (step ptree TC g tbl opts buf cap lexer tree_term_f tree_err_f tree_rule_f).
  Notation run_ghx := (run_gh ptree TC g tbl opts buf cap lexer tree_term_f tree_err_f tree_rule_f).
  Notation runx := (run ptree TC g tbl opts buf cap lexer tree_term_f tree_err_f tree_rule_f).
  Notation pinv := (pos_inv ptree TC g tbl buf).

  Definition stack_ok (s : pst) : Prop :=
    Forall (tree_ok buf) (ps_values s) /\ Forall (fun c => Forall (tree_ok buf) (snd c)) (ps_ctx s).

  Lemma step_stack s : pinv s -> stack_ok s ->
    match fst (stepx s) with
    | inl s' => stack_ok s'
    | inr (r, s') => stack_ok s' /\ match r with Accept t => tree_ok buf t | _ => True end
    end.
  Proof.
    intros Hinv [Hv Hc]. apply step_moves.
    - intros _. repeat split; auto.
    - intros s1 ev1 _ _ Hg. cbn [fst]. apply gct_stacks in Hg as (_ & Hv1 & Hc1 & _). unfold stack_ok. rewrite Hv1, Hc1. auto.
    - intros cursor cs s1 t ev1 m _ _ Hg _.
      pose proof (gct_pos _ _ g tbl opts buf lexer lexer_len no_eof_shift _ _ _ _ Hinv Hg) as ((Hsp & Hit & Hen) & _).
      apply gct_stacks in Hg as (_ & Hv1 & Hc1 & _). rewrite <- Hv1 in Hv. rewrite <- Hc1 in Hc. clear Hv1 Hc1.
      assert (Htl := Forall_tl _ _ Hv).
      destruct m as [| |x ev| | | | | | | |rr r ri nst]; cbn [perform fst]; unfold stack_ok; simp_mv; auto; try (now destruct x).
      + (* accept: the bottom of the stack *)
        split; [auto|]. destruct (rev (ps_values s1)) as [|v rest] eqn:Hr; [exact I|].
        rewrite Forall_forall in Hv. apply Hv, in_rev. rewrite Hr. left; reflexivity.
      + split; [|assumption]. constructor; [|assumption]. unfold tree_term_f. rewrite Hsp. constructor. lia.
      + split; [|assumption]. constructor; [|assumption]. unfold tree_err_f. rewrite Hsp. now constructor.
      + unfold tree_rule_f. cbn [fst snd].
        assert (Forall (tree_ok buf) (rev (firstn (ri_n ri) (ps_values s1)))).
        { apply Forall_rev, Forall_firstn, Hv. }
        split.
        * constructor; [now constructor|]. apply Forall_skipn, Hv.
        * apply Forall_app; split; [assumption|]. constructor; [assumption|constructor].
  Qed.

  (* every leaf anywhere in the final value stack, the result or the logged functor calls carries the true
     position of its lexeme start, and its lexeme lies inside the buffer *)
  Theorem run_leaf_pos fuel :
    let '(r, s, _) := runx fuel [] in
    Forall (tree_ok buf) (ps_values s) /\
    Forall (fun c => Forall (tree_ok buf) (snd c)) (ps_ctx s) /\
    match r with Accept t => tree_ok buf t | _ => True end.
  Proof.
    rewrite run_of_gh.
    unshelve epose proof (run_gh_sinv ptree TC g tbl opts buf cap lexer tree_term_f tree_err_f tree_rule_f
                            (fun s => pinv s /\ stack_ok s)
                            (fun r s => stack_ok s /\ match r with Accept t => tree_ok buf t | _ => True end) _ _
                            fuel (init []) [] [] _ (Forall_nil _)) as H.
    { intros s [_ Hs]. split; [exact Hs|exact I]. }
    { intros s [H1 H2]. pose proof (step_pos _ _ g tbl opts buf cap lexer tree_term_f tree_err_f tree_rule_f lexer_len no_eof_shift s H1) as [_ H3].
      pose proof (step_stack s H1 H2) as H4. destruct (fst (stepx s)) as [s'|[r s']]; auto. }
    { split; [apply pos_inv_init|split; constructor]. }
    destruct (run_ghx fuel (init []) [] []) as [[[r s] out] vis].
    destruct H as [[[H1 H2] H3] _]. auto.
  Qed.

  Corollary run_leaf_pos_occ fuel :
    let '(r, s, _) := runx fuel [] in
    forall t a l p,
      (exists tr, (In tr (ps_values s) \/ r = Accept tr \/ exists c, In c (ps_ctx s) /\ In tr (snd c)) /\ occurs (PLeaf t a l p) tr) ->
      p = true_pos buf a /\ a + l <= length buf.
  Proof.
    pose proof (run_leaf_pos fuel) as H. destruct (runx fuel []) as [[r s] out]. destruct H as (H1 & H2 & H3).
    intros t a l p (tr & Hin & Hocc). eapply tree_ok_leaf; [|exact Hocc].
    rewrite Forall_forall in H1, H2. destruct Hin as [Hin|[->|(c & Hc & Hin)]]; auto.
    specialize (H2 c Hc). rewrite Forall_forall in H2. auto.
  Qed.
End PosTree.

(* The hypothesis [no_eof_shift] cannot be dropped.
   Terms: 0 = a, 1 = <eof>, 2 = <error_recovery_token>; one state whose <eof> column says "shift". On the buffer "\n"
   every iteration skips the newline again, shifts <eof>, and consume_term moves the cursor back to offset 0 while
   the source point keeps the advanced line: after 3 iterations the driver is at offset 0 believing it is on line 4. *)
Module EofShiftCounterexample.
  Definition g := mkG 3 0 0 1 [] [] [] [] [] [] [] [].
  Definition sh := mkE KShift (Some 0) false.
  Definition er := mkE KError None false.
  Definition tbl : table := [[er; sh; er]].
  Definition lexer (v : bool) (p : spoint) (rest : list nat) : list lex_event * option (nat * nat) := ([], Some (0, 1)).
  Definition o := mkOpt true true true.
  Example positions_wrong :
    let '(_, s, out) := run ptree _ g tbl o [10] None lexer tree_term_f tree_err_f tree_rule_f 3 [] in
    ps_it s = 0 /\ ps_sp s = mkSp 4 1 /\ true_pos [10] (ps_it s) = mkSp 1 1 /\
    In (EvShift (mkSp 3 1) 0 1 0) out /\ true_pos [10] 1 = mkSp 2 1.
  Proof. vm_compute. repeat split. right; right; right; left; reflexivity. Qed.
  Example lexer_fine : forall v p rest t len, snd (lexer v p rest) = Some (t, len) -> 0 < len.
  Proof. intros v p rest t len H. inversion H. lia. Qed.
End EofShiftCounterexample.
