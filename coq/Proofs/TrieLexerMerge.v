(* Merging a fresh chain into a trie node: what the in-place [merge] does to the walks from that node and to the
   recognition slots, provided the part reachable from the node is a tree (walks are injective) and the chain is
   fresh (its states are not reachable from the node). *)
Require Import Ctpg.Base.Prelude Ctpg.Model.Dfa Ctpg.Proofs.BuilderSize Ctpg.Proofs.TrieLexerBase
               Ctpg.Proofs.TrieLexerChain.

(* a merge into a state below N leaves the states >= N alone *)
Lemma pre_merge_frame : forall N sm to from keep mark,
  to <> from -> to < length sm -> from < length sm -> to < N -> frame N sm (pre_merge sm to from keep mark).
Proof.
  intros N sm to from keep mark H1 H2 H3 HN q Hq.
  split; [intros; apply pre_merge_tr|]. split; [apply pre_merge_rec|].
  rewrite pre_merge_end by assumption. destruct (Nat.eqb_spec q to); [lia | reflexivity].
Qed.

Lemma attach_frame : forall N s to c nx, to < N -> frame N s (attach s to c nx).
Proof.
  intros N s to c nx HN q Hq.
  split; [intros; apply attach_tr_other; left; lia|]. split; [apply attach_rec | apply attach_end].
Qed.

(* is q the state reached from q0 by x ? *)
Definition reaches (sm : dfa) (q0 : nat) (x : list nat) (q : nat) : bool :=
  match walk sm q0 x with Some q' => Nat.eqb q' q | None => false end.

(* the walks from [to] become the left-biased union of the walks from [to] and from [from]; transitions change
   only at states reachable from [to]; the slots r arrive at the state that u leads to from [to], if there is one;
   merged marks stay old or in range (carried for the next add_term, whose merge_chain asks it as its fourth premise) *)
Definition grafted (N : nat) (sm sm' : dfa) (to from : nat) (u r : list nat) : Prop :=
  (forall y, walk sm' to y = match walk sm to y with Some q => Some q | None => walk sm from y end) /\
  (forall q, q < N -> (forall z, walk sm to z <> Some q) -> forall i, tr sm' q i = tr sm q i) /\
  frame N sm sm' /\
  (forall q, q < N -> d_rec (get sm' q) =
                      if reaches sm to u q then fold_left add_conflicted r (d_rec (get sm q))
                      else d_rec (get sm q)) /\
  (forall q m, In m (d_merged (get sm' q)) -> In m (d_merged (get sm q)) \/ m < length sm).

(* fourth premise: no trie node carries a mark on a chain state, so every nested call (a trie node, a chain state)
   passes the early return on marked pairs *)
Lemma merge_chain : forall fuel u sm to from r N sm',
  wf p256 sm ->
  (forall x q, walk sm to x = Some q -> q < N) ->
  (forall x y q, walk sm to x = Some q -> walk sm to y = Some q -> x = y) ->
  (forall q m, q < N -> In m (d_merged (get sm q)) -> m < from) ->
  chain sm N from u r ->
  merge fuel sm to from true true = Some sm' ->
  grafted N sm sm' to from u r.
Proof.
  induction fuel as [|f IH]; intros u sm to from r N sm' W Hreach Hinj Hmb Hc HM; [discriminate|].
  pose proof (chain_lo _ _ _ _ _ Hc) as [HNf Hfl].
  pose proof (Hreach [] to eq_refl) as HtN.
  assert (Hne : to <> from) by lia. assert (Htl : to < length sm) by lia.
  assert (Hmem : ~ In from (d_merged (get sm to))) by (intros C; apply Hmb in C; lia).
  pose proof (pre_merge_frame N sm to from true true Hne Htl Hfl HtN) as F0.
  pose proof (pre_merge_merged sm to from true true) as M0.
  (* the merged-in state has no transitions: only the flags and slots of [to] change *)
  assert (Leaf : forall r', (forall i, tr sm from i = None) -> d_rec (get sm from) = r' ->
                            d_end (get sm from) = true \/ r' = [] -> grafted N sm sm' to from [] r').
  { intros r' H3 H4 H5.
    rewrite (merge_leaf _ _ _ _ _ _ 0) in HM by (auto; lia). inversion HM; subst sm'. clear HM.
    set (s0 := pre_merge sm to from true true) in *.
    assert (T1 : forall q i, tr (post_merge s0 to from) q i = tr sm q i).
    { intros. rewrite post_merge_tr. apply pre_merge_tr. }
    assert (R1 : forall q, d_rec (get (post_merge s0 to from) q) =
                           if Nat.eqb q to then fold_left add_conflicted r' (d_rec (get sm to)) else d_rec (get sm q)).
    { intros q. unfold s0. rewrite post_merge_rec, !pre_merge_rec, H4; [reflexivity | rewrite pre_merge_length; lia |].
      rewrite pre_merge_end, Nat.eqb_refl, pre_merge_rec, H4 by assumption.
      destruct H5 as [->|H5]; [left; apply orb_true_r | right; assumption]. }
    split. { intros y. rewrite (walk_same sm) by (intros; apply T1).
             destruct (walk sm to y) eqn:E; [reflexivity|]. destruct y as [|c y]; [discriminate E|].
             cbn [walk]. rewrite H3. reflexivity. }
    split; [intros; apply T1|].
    split. { apply (frame_trans N sm s0); [exact F0|]. intros q Hq.
             split; [intros; apply post_merge_tr|]. split; [|apply post_merge_end].
             rewrite R1. destruct (Nat.eqb_spec q to); [lia|]. symmetry. apply pre_merge_rec. }
    split. { intros q Hq. unfold reaches. cbn [walk]. rewrite R1, (Nat.eqb_sym to q).
             destruct (Nat.eqb_spec q to) as [->|_]; reflexivity. }
    intros q m Hm. rewrite post_merge_merged, M0 in Hm by assumption.
    destruct (Nat.eqb_spec q to) as [->|_]; auto. destruct Hm as [<-|Hm]; auto. }
  destruct u as [|c u]; cbn [chain] in Hc.
  { destruct Hc as (_ & _ & H3 & H4 & H5). apply Leaf; assumption. }
  destruct Hc as (_ & _ & H4 & nx & H6 & H7 & H9).
  destruct (Nat.ltb_spec c 256) as [Hc256|Hc256].
  2:{ (* not a byte: the chain is broken here, and no walk reads c *)
      destruct (Leaf []) as (P2 & P3 & P4 & P5 & P6); auto.
      { intros i. rewrite H7. apply tr_single_nobyte, Hc256. }
      split; [exact P2|]. split; [exact P3|]. split; [exact P4|]. split; [|exact P6].
      intros q Hq. rewrite P5 by assumption. unfold reaches. cbn [walk].
      destruct (tr sm to c) eqn:E; [apply tr_byte in E; [lia | assumption]|]. destruct (Nat.eqb to q); reflexivity. }
  assert (H7c : tr sm from c = Some nx) by (rewrite H7; apply tr_single_at, Hc256).
  assert (H8 : forall i, i <> c -> tr sm from i = None) by (intros i Hi; rewrite H7; apply tr_single_other, Hi).
  clear H7. rename H7c into H7.
  set (s0 := pre_merge sm to from true true) in *.
  assert (R0 : forall s, frame N s0 s -> d_rec (get s from) = []).
  { intros s Fs. destruct (Fs from HNf) as (_ & -> & _). unfold s0. rewrite pre_merge_rec. exact H4. }
  destruct (tr sm to c) as [trt|] eqn:Etc.
    + (* [to] already has a transition on c: recursion into the two targets *)
      pose proof (merge_descend f sm to from true true c Hne Hmem Hc256 H8 nx trt H7 Etc) as D. fold s0 in D.
      destruct (merge f s0 trt nx true true) as [s'|] eqn:EM.
      2:{ rewrite D in HM; [discriminate | intros s Hs; discriminate]. }
      assert (Wt : forall x, walk s0 trt x = walk sm to (c :: x)).
      { intros x. unfold s0. rewrite pre_merge_walk. cbn [walk]. rewrite Etc. reflexivity. }
      destruct (IH u s0 trt nx r N s') as (P2 & P3 & P4 & P5 & P6); auto.
      { apply pre_merge_wf. assumption. }
      { intros x q. rewrite Wt. apply Hreach. }
      { intros x y q Hx Hy. rewrite Wt in Hx, Hy. pose proof (Hinj _ _ _ Hx Hy) as E. inversion E. reflexivity. }
      { intros q m Hq Hm. unfold s0 in Hm. rewrite M0 in Hm by assumption.
        destruct (Nat.eqb_spec q to) as [->|_]; [destruct Hm as [<-|Hm]; [assumption|]|]; apply Hmb in Hm; lia. }
      { apply (chain_ext u sm); [apply pre_merge_length | exact F0 | exact H9]. }
      rewrite D in HM.
      2:{ intros s Hs i Hi. inversion Hs; subst s. destruct (P4 from HNf) as (-> & _).
          unfold s0. rewrite pre_merge_tr. auto. }
      cbn [option_map] in HM. rewrite post_merge_nil in HM by (apply R0; assumption).
      inversion HM; subst sm'. clear HM D.
      (* what is not below trt keeps its transitions *)
      assert (Tk : forall q, q < N -> (forall z, walk sm to (c :: z) <> Some q) -> forall i, tr s' q i = tr sm q i).
      { intros q Hq Hn i. rewrite P3; [apply pre_merge_tr | assumption |]. intros z. rewrite Wt. apply Hn. }
      split. { intros [|c' y]; [reflexivity|]. cbn [walk].
               rewrite (Tk to HtN) by (intros z Hz; discriminate (Hinj _ [] _ Hz eq_refl)).
               destruct (Nat.eq_dec c' c) as [->|Hcc].
               - rewrite Etc, H7. cbv beta iota. rewrite P2. unfold s0. rewrite !pre_merge_walk. reflexivity.
               - rewrite (H8 c' Hcc). destruct (tr sm to c') as [q1|] eqn:E1; [|reflexivity].
                 rewrite (walk_same sm s' q1); [destruct (walk sm q1 y); reflexivity|].
                 intros z q' Hz.
                 assert (Hz' : walk sm to (c' :: z) = Some q') by (cbn [walk]; rewrite E1; exact Hz).
                 apply Tk; [exact (Hreach _ _ Hz')|].
                 intros z2 Hz2. pose proof (Hinj _ _ _ Hz2 Hz') as E. inversion E. congruence. }
      split. { intros q Hq Hn. apply Tk; [assumption|]. intros z. apply Hn. }
      split; [apply (frame_trans N sm s0); assumption|].
      split. { intros q Hq. rewrite (P5 q Hq). unfold reaches, s0. rewrite pre_merge_walk, pre_merge_rec.
               cbn [walk]. rewrite Etc. reflexivity. }
      intros q m Hm. unfold s0 in P6. rewrite pre_merge_length in P6.
      destruct (P6 _ _ Hm) as [Hm'|Hm']; [|right; assumption].
      rewrite M0 in Hm' by assumption. destruct (Nat.eqb_spec q to) as [->|_]; auto.
      destruct Hm' as [<-|Hm']; auto.
    + (* [to] has no transition on c: the rest of the chain is attached *)
      rewrite (merge_attach _ _ _ _ _ _ c Hne Hmem Hc256 H8 nx H7 Etc) in HM. fold s0 in HM.
      rewrite post_merge_nil in HM by (apply R0, attach_frame; assumption).
      inversion HM; subst sm'. clear HM.
      set (sm' := attach s0 to c nx) in *.
      assert (Ta : forall q i, tr sm' q i = if Nat.eqb q to && Nat.eqb i c then Some nx else tr sm q i).
      { intros q i. unfold sm'. rewrite attach_tr; [unfold s0; rewrite pre_merge_tr; reflexivity | |].
        - unfold s0. rewrite pre_merge_length. assumption.
        - unfold s0. rewrite pre_merge_trans, trans_len; assumption. }
      assert (Tk : forall q, q <> to -> forall i, tr sm' q i = tr sm q i).
      { intros q Hq i. rewrite Ta. apply Nat.eqb_neq in Hq. rewrite Hq. reflexivity. }
      split. { intros [|c' y]; [reflexivity|]. cbn [walk]. rewrite Ta, Nat.eqb_refl. cbn [andb].
               destruct (Nat.eqb_spec c' c) as [->|Hcc].
               - rewrite Etc, H7. apply walk_same. intros z q' Hz. apply Tk.
                 pose proof (chain_walk_lo _ _ _ _ _ _ _ H9 Hz). lia.
               - rewrite (H8 c' Hcc). destruct (tr sm to c') as [q1|] eqn:E1; [|reflexivity].
                 rewrite (walk_same sm sm' q1); [destruct (walk sm q1 y); reflexivity|].
                 intros z q' Hz. apply Tk. intros ->.
                 assert (Hz' : walk sm to (c' :: z) = Some to) by (cbn [walk]; rewrite E1; exact Hz).
                 discriminate (Hinj _ [] _ Hz' eq_refl). }
      split. { intros q _ Hn. apply Tk. intros ->. exact (Hn [] eq_refl). }
      split; [apply (frame_trans N sm s0); [exact F0 | apply attach_frame; assumption]|].
      split. { intros q Hq. unfold reaches. cbn [walk]. rewrite Etc.
               unfold sm', s0. rewrite attach_rec. apply pre_merge_rec. }
      intros q m Hm. unfold sm', s0 in Hm. rewrite attach_merged, M0 in Hm by assumption.
      destruct (Nat.eqb_spec q to) as [->|_]; auto. destruct Hm as [<-|Hm]; auto.
Qed.
