(* The grouping property (C05, "consequently operator expressions group by precedence, then by associativity, for
   every expression"): [grouping] says that every tree the parser accepts is [well_grouped], for every grammar (any
   rules besides the binary operator rules), every validated table with resolved shift/reduce conflicts, every input
   of any length.

   Proof: an invariant of the abstract LR machine (Proofs/LRMachine.v), kept over the same case analysis of a step
   as the one of Proofs/LRSound.v (step_cases), that has its [stk_ok] and besides
   - every tree on the tree stack is [well_grouped],
   - [gstk], one predicate on the three stacks (states, symbols, trees) read together:
     consecutive states are linked by the table's transitions ([goto_target]);
     [on_ok] ([lpend a] of the tree under a leaf a): if [Leaf a] lies directly on an operator node (rule i0) and a is
              an operator of the same nonterminal then [sr_choice g i0 a = KReduce]   (the node was reduced on the
              lookahead a: in the state before that reduction the closure put a shift item on a next to the completed
              item); the lookahead counts as a leaf on top of the tree stack;
     [rpend]: the state above an operator node [b t2 c] shifts t2 (it is the state in which t2 was shifted after b).
   When [L t R] is reduced by rule i, [on_ok] gives the left condition; for the right condition the completed item
   [i, 3, y] of the top state leads back to [i, 0, y] under the three symbols, closure gives [i2, 0, t] and then
   [i, 0, t2] there, transitions carry it to the completed item [i, 3, t2] of the top state, whose cell on t2 is a shift
   by [rpend]: the resolved cell says [sr_choice g i t2 = KShift]. *)
Require Import Ctpg.Base.Prelude Ctpg.Proofs.ListFacts Ctpg.Model.Grammar Ctpg.Model.LRGen Ctpg.Spec.Cfg
               Ctpg.Spec.LRSpec Ctpg.Spec.Conflict Ctpg.Spec.Grouping Ctpg.Valid.LRValid Ctpg.Valid.LRResolved
               Ctpg.Proofs.LRReflect Ctpg.Proofs.LRMachine Ctpg.Proofs.LRValidFacts Ctpg.Proofs.LRSound
               Ctpg.Proofs.GroupingFacts Ctpg.Proofs.GroupingSpec.

Section Grouping.
  Variable g : grammar.
  Variable sts : list items.
  Variable tbl : table.
  Variable w : list nat.
  Variable ne : bset.
  Variable nf : list bset.
  Hypothesis RF : resolved_facts g sts tbl ne nf.
  Hypothesis Hw : tokens_ok g w.

  Let SF : sound_facts g sts tbl := rf_sound _ _ _ _ _ RF.
  Notation items_of := (state_items sts).
  Notation tc := (term_count g).

  Lemma binop_facts i r e t : binop_at g i r e t ->
    i < rule_count g /\ ri_r (get_ri g i) = r /\ ri_l (get_ri g i) = e /\
    get_rhs g r = [NT e; T t; NT e] /\ ri_n (get_ri g i) = 3 /\ t < tc /\ i <> root_rule_idx g.
  Proof.
    intros (ri & Hi & Hr & Hl & Hrhs).
    destruct (get_ri_nth_error _ _ _ SF i ri Hi) as [Eri Hlt].
    assert (get_rhs g r = [NT e; T t; NT e]) as Eg by (unfold get_rhs; apply nth_error_nth; assumption).
    destruct (sf_ri _ _ _ SF i Hlt) as (_ & _ & Hn). rewrite Eri, Hr, Eg in Hn.
    split; [assumption|]. rewrite Eri. split; [assumption|]. split; [assumption|]. split; [assumption|].
    split; [assumption|]. split.
    - apply nth_error_In in Hrhs.
      destruct (sf_sym _ _ _ SF _ (T t) Hrhs) as (Hs & _); [cbn; tauto|]. cbn in Hs. apply Nat.ltb_lt. assumption.
    - intros E. subst i. destruct (sf_root_rhs _ _ _ SF) as (x & Hx).
      pose proof (sf_root_r _ _ _ SF) as Hrr. rewrite Eri in Hrr. rewrite Hr in Hrr.
      rewrite Hrr, Hx in Eg. discriminate.
  Qed.

  Lemma binop_unique i i' r e e' t t' : binop_at g i r e t -> binop_at g i' r e' t' -> i = i'.
  Proof.
    intros H1 H2. destruct (binop_facts _ _ _ _ H1) as (L1 & R1 & _). destruct (binop_facts _ _ _ _ H2) as (L2 & R2 & _).
    apply (rf_distinct _ _ _ _ _ RF); try assumption. congruence.
  Qed.

  (* the machine's rule r (a rule_info index) is the operator rule under which the node is looked at *)
  Lemma binop_machine r i e t : r < rule_count g -> binop_at g i (ri_r (get_ri g r)) e t -> i = r.
  Proof.
    intros Hr H. destruct (binop_facts _ _ _ _ H) as (L1 & R1 & _).
    apply (rf_distinct _ _ _ _ _ RF); assumption.
  Qed.

  (* closure: every rule i of the nonterminal after the dot, with every lookahead of FIRST(beta la) *)
  Lemma closure_rule s j b i t' :
    In j (items_of s) -> next_sym g j = Some (NT b) ->
    i < rule_count g -> ri_l (get_ri g i) = b -> t' < tc ->
    bset_test (first_tail g ne nf (skipn (S (it_d j)) (rhs_of g j)) (it_t j)) t' = true ->
    In (mkItem i 0 t') (items_of s).
  Proof.
    intros Hj Hnx Hi Hl Ht' Hb. pose proof (items_of_lt _ _ _ Hj) as Hs.
    pose proof (next_sym_incomplete _ _ _ SF _ _ _ Hs Hj Hnx) as Hic.
    assert (b < nterm_count g) as Hbn by (rewrite <- Hl; apply (sf_ri _ _ _ SF i Hi)).
    destruct (proj1 (sf_slice _ _ _ SF b i Hbn Hi) Hl) as [Hlo Hhi].
    replace i with (fst (nth b (slices g) (0, 0)) + (i - fst (nth b (slices g) (0, 0)))) by lia.
    apply (rf_closure _ _ _ _ _ RF s j b); try assumption. lia.
  Qed.

  Lemma sh_item_cell s t j : In j (items_of s) -> next_sym g j = Some (T t) ->
    cell_spec g sts tbl s t /\ In j (sh_items g sts s t).
  Proof.
    intros Hj Hnx. pose proof (items_of_lt _ _ _ Hj) as Hs. split.
    - apply (rf_cell _ _ _ _ _ RF s t Hs), Nat.ltb_lt. exact (proj1 (item_next_sym_ok _ _ _ SF s j _ _ Hs Hj Hnx)).
    - apply in_sh_items. split; [assumption|]. split; [|assumption]. exact (next_sym_incomplete _ _ _ SF _ _ _ Hs Hj Hnx).
  Qed.

  Lemma red_item_cell s j : In j (items_of s) -> is_complete g j = true -> it_r j <> root_rule_idx g ->
    cell_spec g sts tbl s (it_t j) /\ In j (red_items g sts s (it_t j)).
  Proof.
    intros Hj Hc Hnr. pose proof (items_of_lt _ _ _ Hj) as Hs. split.
    - apply (rf_cell _ _ _ _ _ RF s _ Hs), (sf_item _ _ _ SF s j Hs Hj).
    - apply in_red_items. auto.
  Qed.

  Lemma goto_adv s j X s' :
    In j (items_of s) -> next_sym g j = Some X -> goto_target g tbl s X = Some s' ->
    In (advance j) (items_of s').
  Proof.
    intros Hj Hnx Hg. destruct X as [t|b].
    - destruct (sh_item_cell _ _ _ Hj Hnx) as [Hc Hsh]. exact (proj1 (cell_shifts _ _ _ _ _ _ Hc Hg) j Hsh).
    - pose proof (items_of_lt _ _ _ Hj) as Hs.
      apply (has_target_at _ _ _ _ _ _ _ (rf_goto_nt _ _ _ _ _ RF s j b Hs Hj Hnx (next_sym_incomplete _ _ _ SF _ _ _ Hs Hj Hnx)) Hg).
      left. reflexivity.
  Qed.

  (* a reduction in a cell that also has a shift item was chosen by the documented rule *)
  Lemma reduce_won s t r j :
    is_reduce g tbl s t r -> In j (items_of s) -> next_sym g j = Some (T t) -> sr_choice g r t = KReduce.
  Proof.
    intros Hr Hj Hnx. destruct (sh_item_cell _ _ _ Hj Hnx) as [Hc Hsh]. exact (cell_reduces _ _ _ _ _ _ j Hc Hr Hsh).
  Qed.

  (* a shift in a cell that also has a completed item was chosen by the documented rule *)
  Lemma shift_won s j s' :
    goto_target g tbl s (T (it_t j)) = Some s' ->
    In j (items_of s) -> is_complete g j = true -> it_r j <> root_rule_idx g ->
    sr_choice g (it_r j) (it_t j) = KShift.
  Proof.
    intros Hg Hj Hic Hnr. destruct (red_item_cell _ _ Hj Hic Hnr) as [Hc Hred].
    exact (proj2 (cell_shifts _ _ _ _ _ _ Hc Hg) j Hred).
  Qed.

  Lemma binop_rhs_of i r e t d y : binop_at g i r e t -> rhs_of g (mkItem i d y) = [NT e; T t; NT e].
  Proof.
    intros H. destruct (binop_facts _ _ _ _ H) as (_ & Hr & _ & Hrhs & _). unfold rhs_of. cbn [it_r].
    rewrite Hr. assumption.
  Qed.

  Lemma binop_next_sym i r e t d y : binop_at g i r e t -> next_sym g (mkItem i d y) = nth_error [NT e; T t; NT e] d.
  Proof. intros H. unfold next_sym. rewrite (binop_rhs_of _ _ _ _ d y H). reflexivity. Qed.

  (* an item of an operator rule follows the transition on the symbol after its dot *)
  Lemma binop_adv i r e t d y X s s' : binop_at g i r e t -> nth_error [NT e; T t; NT e] d = Some X ->
    In (mkItem i d y) (items_of s) -> goto_target g tbl s X = Some s' ->
    In (mkItem i (S d) y) (items_of s').
  Proof.
    intros Hb Hx Hi Hg. apply (goto_adv s (mkItem i d y) X s'); try assumption.
    rewrite (binop_next_sym _ _ _ _ d y Hb). exact Hx.
  Qed.

  (* [tr], if an operator node, was reduced by a rule that wins against the operator a *)
  Definition lpend (a : nat) (tr : tree) : Prop :=
    match tr with
    | Node r0 _ => forall i0 e t0 i r, binop_at g i0 r0 e t0 -> binop_at g i r e a -> sr_choice g i0 a = KReduce
    | Leaf _ => True
    end.

  (* the state s above an operator node [b t2 c] shifts t2 *)
  Definition rpend (s : nat) (tr : tree) : Prop :=
    match tr with
    | Node r2 [_; Leaf t2; _] =>
        forall i2 e, binop_at g i2 r2 e t2 -> exists s', goto_target g tbl s (T t2) = Some s'
    | _ => True
    end.

  (* a leaf lies on an operator node only if the rule of the node wins against it *)
  Definition on_ok (tr : tree) (trs : list tree) : Prop :=
    match tr, trs with Leaf a, lo :: _ => lpend a lo | _, _ => True end.

  (* the three stacks together: consecutive states are linked by the table's transitions, the state above an operator
     node shifts its operator, a leaf lies on what it may lie on *)
  Inductive gstk : list nat -> list symbol -> list tree -> Prop :=
  | gs_bot s : gstk [s] [] []
  | gs_push s ss syms trs s' X tr :
      gstk (s :: ss) syms trs -> goto_target g tbl s X = Some s' -> on_ok tr trs -> rpend s' tr ->
      gstk (s' :: s :: ss) (X :: syms) (tr :: trs).

  Lemma gstk_skip ss syms trs k :
    gstk ss syms trs -> k <= length syms -> gstk (skipn k ss) (skipn k syms) (skipn k trs).
  Proof.
    intros H; revert k. induction H as [s|s ss syms trs s' X tr H IH Hg Ho Hr]; intros k Hk; cbn in *.
    - assert (k = 0) by lia. subst. cbn. constructor.
    - destruct k as [|k]; cbn.
      + econstructor; eassumption.
      + apply IH. lia.
  Qed.

  (* one reduce step as LRSound.step_cases delivers it: the hypotheses are the premises of ST_reduce, and gstk *)
  Section Reduce.
    Variables (ss : list nat) (syms : list symbol) (trs : list tree) (rest : list nat).
    Variables (r top nst : nat) (below : list nat) (im : item).
    Notation n := (ri_n (get_ri g r)).
    Hypothesis Hst : stk_ok g sts ss syms.
    Hypothesis Hgs : gstk ss syms trs.
    Hypothesis Hrlt : r < rule_count g.
    Hypothesis Hred : is_reduce g tbl (hd 0 ss) (look g rest) r.
    Hypothesis Him : In im (items_of (hd 0 ss)).
    Hypothesis Himr : it_r im = r.
    Hypothesis Himd : it_d im = n.
    Hypothesis Hnle : n <= length syms.
    Hypothesis Hrev : rev (firstn n syms) = get_rhs g (ri_r (get_ri g r)).
    Hypothesis Hsk : skipn n ss = top :: below.
    Hypothesis Hgoto : goto_target g tbl top (NT (ri_l (get_ri g r))) = Some nst.

    (* the stack under an operator rule r: its four states, its three trees, and where the item of r began *)
    Lemma reduce_stack i e t : binop_at g i (ri_r (get_ri g r)) e t ->
      i = r /\ n = 3 /\
      exists cur s2 q ss' R Lt L trs',
        ss = cur :: s2 :: nst :: q :: ss' /\ trs = R :: Lt :: L :: trs' /\
        goto_target g tbl q (NT e) = Some nst /\ goto_target g tbl nst (T t) = Some s2 /\
        goto_target g tbl s2 (NT e) = Some cur /\
        rpend cur R /\ on_ok Lt (L :: trs') /\
        In (mkItem r 0 (it_t im)) (items_of q) /\ it_t im < tc.
    Proof.
      intros Hb. assert (i = r) by (eapply binop_machine; eassumption). subst i. split; [reflexivity|].
      destruct (binop_facts _ _ _ _ Hb) as (_ & _ & Hl & Hrhs & Hn3 & _).
      split; [assumption|]. rewrite Hn3 in *. rewrite Hrhs in Hrev. rewrite Hl in Hgoto. clear Hl Hrhs.
      destruct syms as [|X3 [|X2 [|X1 syms']]]; cbn in Hnle; try lia.
      cbn in Hrev. inversion Hrev; subst X1 X2 X3.
      inversion Hgs as [|s2 ss2 ? trs2 cur ? R Hgs2 G3 _ Rp]; subst.
      inversion Hgs2 as [|s1 ss1 ? trs1 ? ? Lt Hgs1 G2 Ho _]; subst.
      inversion Hgs1 as [|q ss' ? trs' ? ? L _ G1 _ _]; subst.
      cbn [hd skipn] in *. injection Hsk as <- _. assert (s1 = nst) by congruence. subst s1.
      destruct (stk_item _ _ _ SF 3 _ _ _ im Hst Him Himd) as (_ & _ & s0 & [= <-] & I0).
      destruct (sf_item _ _ _ SF cur _ (items_of_lt _ _ _ Him) Him) as (_ & _ & Hy).
      exists cur, s2, q, ss', R, Lt, L, trs'. repeat split; assumption.
    Qed.

    (* LEFT: the new node wins against the lookahead, if that is an operator of the same nonterminal *)
    Lemma reduce_lpend kids : lpend (look g rest) (Node (ri_r (get_ri g r)) kids).
    Proof.
      intros i0 e t0 i r' Hb0 Hb.
      destruct (reduce_stack _ _ _ Hb0) as (-> & _ & cur & s2 & q & ss' & R & Lt & L & trs' & Ess & _ & G1 & G2 & G3 & _ & _ & I0 & Hy).
      destruct (binop_facts _ _ _ _ Hb) as (Hilt & _ & Hil & _).
      set (y := it_t im) in *.
      pose proof (binop_adv _ _ _ _ 0 _ _ _ _ Hb0 eq_refl I0 G1) as I1.
      pose proof (binop_adv _ _ _ _ 1 _ _ _ _ Hb0 eq_refl I1 G2) as I2.
      (* closure in the state after [e t0]: the dot-0 item of rule i with lookahead y *)
      assert (In (mkItem i 0 y) (items_of s2)) as J0.
      { apply (closure_rule s2 (mkItem r 2 y) e); try assumption.
        - exact (binop_next_sym _ _ _ _ _ _ Hb0).
        - rewrite (binop_rhs_of _ _ _ _ _ _ Hb0). cbn [it_d it_t skipn]. apply first_tail_nil. assumption. }
      pose proof (binop_adv _ _ _ _ 0 _ _ _ _ Hb eq_refl J0 G3) as J1.
      subst ss. cbn [hd] in Hred.
      apply (reduce_won cur (look g rest) r (mkItem i 1 y)); try assumption.
      exact (binop_next_sym _ _ _ _ _ _ Hb).
    Qed.

    (* RIGHT, recorded: the state above the new operator node [b t2 c] shifts t2 *)
    Lemma reduce_rpend : rpend nst (Node (ri_r (get_ri g r)) (rev (firstn n trs))).
    Proof.
      unfold rpend. destruct (rev (firstn n trs)) as [|b [|[t2|? ?] [|c [|? ?]]]]; try exact I.
      intros i2 e Hb2.
      destruct (reduce_stack _ _ _ Hb2) as (_ & _ & cur & s2 & q & ss' & R & Lt & L & trs' & _ & _ & _ & G2 & _).
      exists s2. assumption.
    Qed.

    (* the new node is grouped as documented *)
    Lemma reduce_node_ok : node_ok g (Node (ri_r (get_ri g r)) (rev (firstn n trs))).
    Proof.
      unfold node_ok.
      destruct (rev (firstn n trs)) as [|L [|[t|? ?] [|R [|? ?]]]] eqn:Ekids; try exact I.
      intros i e Hb.
      destruct (reduce_stack _ _ _ Hb)
        as (-> & Hn3 & cur & s2 & q & ss' & R' & Lt & L' & trs' & Ess & Etrs & G1 & G2 & G3 & Hrp & Hl0 & I0 & Hy).
      destruct (binop_facts _ _ _ _ Hb) as (_ & _ & Hl & _ & _ & Ht & Hnr).
      rewrite Hn3, Etrs in Ekids. injection Ekids as -> -> ->.
      split.
      - (* left operand *)
        unfold left_operand_ok. destruct L as [a|r0 ch0]; [exact I|].
        intros i0 t0 Hb0. exact (Hl0 i0 e t0 r _ Hb0 Hb).
      - (* right operand *)
        unfold right_operand_ok. destruct R as [a|r2 [|b [|[t2|? ?] [|c [|? ?]]]]]; try exact I.
        intros i2 Hb2. destruct (Hrp i2 e Hb2) as (s' & Hsh).
        destruct (binop_facts _ _ _ _ Hb2) as (Hi2lt & _ & Hi2l & _ & _ & Ht2 & _).
        set (y := it_t im) in *.
        (* under the three symbols: [r, 0, y]; closure gives [i2, 0, t], then [r, 0, t2] *)
        assert (In (mkItem i2 0 t) (items_of q)) as J0.
        { apply (closure_rule q (mkItem r 0 y) e); try assumption.
          - exact (binop_next_sym _ _ _ _ _ _ Hb).
          - rewrite (binop_rhs_of _ _ _ _ _ _ Hb). cbn [it_d it_t skipn]. apply first_tail_term. assumption. }
        assert (In (mkItem r 0 t2) (items_of q)) as K0.
        { apply (closure_rule q (mkItem i2 0 t) e); try assumption.
          - exact (binop_next_sym _ _ _ _ _ _ Hb2).
          - rewrite (binop_rhs_of _ _ _ _ _ _ Hb2). cbn [it_d it_t skipn]. apply first_tail_term. assumption. }
        (* the transitions carry it to the top state *)
        pose proof (binop_adv _ _ _ _ 0 _ _ _ _ Hb eq_refl K0 G1) as K1.
        pose proof (binop_adv _ _ _ _ 1 _ _ _ _ Hb eq_refl K1 G2) as K2.
        pose proof (binop_adv _ _ _ _ 2 _ _ _ _ Hb eq_refl K2 G3) as K3.
        (* the top state shifts t2 although [r, 3, t2] is complete in it *)
        apply (shift_won cur (mkItem r 3 t2) s'); try assumption.
        unfold is_complete. cbn [it_r it_d]. rewrite Hn3. reflexivity.
    Qed.
  End Reduce.

  Definition GInv (c : cfg) : Prop :=
    let '(ss, trs, rest) := c in
    exists syms, stk_ok g sts ss syms /\ gstk ss syms trs /\ Forall (fun a => a < eof_idx g) rest /\
                 Forall (well_grouped g) trs /\ on_ok (Leaf (look g rest)) trs.

  Lemma GInv_init : GInv ([0], [], w).
  Proof. exists []. repeat split; try constructor. exact Hw. Qed.

  Lemma GInv_next c c' : GInv c -> mstep g tbl c = Next c' -> GInv c'.
  Proof.
    destruct c as [[ss trs] rest], c' as [[ss' trs'] rest'].
    intros (syms & Hst & Hgs & Hr & Hwg & Hon) Hstep.
    destruct (step_cases _ _ _ SF _ _ _ _ _ _ _ Hst Hr Hstep) as (syms' & Hto & Hst' & Hr').
    exists syms'. split; [exact Hst'|].
    destruct Hto as [cur ss0 nst Hg | cur ss0 r i top below nst Hrlt Ek Ea Hi Hir Hid Hnle Hrev Esk Hg].
    - (* shift *)
      split; [constructor; [assumption..|exact I]|]. split; [exact Hr'|]. split; [|exact I].
      constructor; [apply well_grouped_leaf|assumption].
    - (* reduce *)
      pose proof (gstk_skip _ _ _ _ Hgs Hnle) as Hgs'. rewrite Esk in Hgs'.
      assert (Hred : is_reduce g tbl (hd 0 (cur :: ss0)) (look g rest) r) by (split; assumption).
      split; [|split; [exact Hr'|split]].
      + constructor; [assumption..|exact I|].
        eapply reduce_rpend with (im := i) (syms := syms) (ss := cur :: ss0); eassumption.
      + constructor.
        * apply well_grouped_node. split.
          -- eapply reduce_node_ok with (im := i) (syms := syms) (rest := rest); eassumption.
          -- apply Forall_rev. apply Forall_firstn. assumption.
        * apply Forall_skipn. assumption.
      + eapply reduce_lpend with (im := i) (syms := syms) (ss := cur :: ss0); eassumption.
  Qed.

  Lemma GInv_acc c t : GInv c -> mstep g tbl c = Acc t -> well_grouped g t.
  Proof.
    destruct c as [[ss trs] rest]. intros (syms & _ & _ & _ & Hwg & _) H.
    destruct (mstep_acc _ _ _ _ _ _ H) as (_ & _ & _ & _ & _ & _ & Ht).
    rewrite Forall_forall in Hwg. apply Hwg, in_rev.
    destruct (rev trs) as [|v vs]; [discriminate|]. injection Ht as ->. left. reflexivity.
  Qed.
End Grouping.

Theorem grouping_facts : forall g sts tbl ne nf w tr,
  resolved_facts g sts tbl ne nf ->
  no_error_symbol g tbl = true ->
  tokens_ok g w ->
  accepts g tbl w tr ->
  well_grouped g tr.
Proof.
  intros g sts tbl ne nf w tr RF Hne Hw Hacc.
  pose proof (rf_sound _ _ _ _ _ RF) as SF.
  destruct (accepts_machine g sts tbl w tr SF Hne Hw Hacc) as (n & Hn).
  exact (mrun_inv g tbl _ _ (GInv_next g sts tbl ne nf RF) (GInv_acc g sts tbl) n _ tr (GInv_init g sts tbl w Hw) Hn).
Qed.

Theorem grouping : forall g sts tbl w tr,
  validate_resolved g sts tbl = true ->
  no_error_symbol g tbl = true ->
  tokens_ok g w ->
  accepts g tbl w tr ->
  well_grouped g tr.
Proof.
  intros g sts tbl w tr Hv. eapply grouping_facts. apply validate_resolved_facts. exact Hv.
Qed.

(* the accepted tree is moreover a derivation tree of the input (Proofs/LRSound.v), so the theorem speaks about the
   derivation tree that the parser picks among those of an ambiguous grammar *)
Corollary grouping_derivation : forall g sts tbl w tr,
  validate_resolved g sts tbl = true ->
  no_error_symbol g tbl = true ->
  tokens_ok g w ->
  accepts g tbl w tr ->
  derives_tree g tr w /\ well_grouped g tr.
Proof.
  intros g sts tbl w tr Hv Hne Hw Hacc. split.
  - apply (lr_sound g sts tbl w tr); try assumption. apply validate_resolved_sound. assumption.
  - eapply grouping; eassumption.
Qed.

Print Assumptions grouping.
Print Assumptions grouping_derivation.
