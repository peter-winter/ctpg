(* Memory safety of the DFA matcher (dfa_match): with an automaton whose transition targets are all in range
   (which the pattern builder guarantees for EVERY pattern, although it is semantically wrong on some) the matcher
   never indexes the automaton out of range, on any input; and for ANY automaton it reads the input left to right,
   each element at most once, and the reported lexeme length never exceeds the input. *)
Require Import Ctpg.Base.Prelude Ctpg.Model.Driver Ctpg.Model.Dfa
               Ctpg.Proofs.BuilderSize Ctpg.Proofs.BuilderTerm Ctpg.Proofs.DfaValidSound.

Lemma run_in_range sm :
  (forall q d c t, nth_error sm q = Some d -> nth c (d_trans d) None = Some t -> t < length sm) ->
  forall inp st len rt, st < length sm -> snd (run sm st len inp rt) = false.
Proof.
  intros Hc. induction inp as [|c rest IH]; intros st len rt Hst; rewrite run_eq;
    destruct (nth_error sm st) as [d|] eqn:Ed; try (apply nth_error_None in Ed; lia); auto.
  destruct (nth c (d_trans d) None) as [nx|] eqn:En; auto. apply IH. eapply Hc; eauto.
Qed.

Theorem dfa_match_no_oob_targets : forall sm,
  (forall q d c t, nth_error sm q = Some d -> nth c (d_trans d) None = Some t -> t < length sm) ->
  0 < length sm -> forall s, dfa_match_oob sm s = false.
Proof. intros sm Hc Hl s. rewrite dfa_match_oob_run. apply run_in_range; assumption. Qed.

Theorem dfa_match_no_oob_closed : forall sm,
  closed sm -> 0 < length sm -> forall s, dfa_match_oob sm s = false.
Proof. intros sm Hc. apply dfa_match_no_oob_targets, closed_targets, Hc. Qed.

(* the automaton built for ANY pattern is never indexed out of range, on ANY input (bytes or not) *)
Theorem built_dfa_no_oob : forall r sm s, build_expr r = Some sm -> dfa_match_oob sm s = false.
Proof.
  intros r sm s H. apply dfa_match_no_oob_targets.
  - exact (build_expr_targets r sm H).
  - rewrite (build_expr_size _ _ H), analyze_size_eq. apply nstates_pos.
Qed.

(* ... and the builder always returns one *)
Corollary built_dfa_no_oob_total : forall r,
  exists sm, build_expr r = Some sm /\ forall s, dfa_match_oob sm s = false.
Proof.
  intros r. destruct (build_expr r) as [sm|] eqn:E.
  - exists sm. split; [reflexivity|]. intros s. eapply built_dfa_no_oob; eassumption.
  - exfalso. exact (build_expr_total r E).
Qed.

(* same for the term-set lexer automaton, when it has at least one term *)
Theorem lexer_dfa_no_oob : forall ts sm s, create_lexer ts = Some sm -> 0 < length sm -> dfa_match_oob sm s = false.
Proof.
  intros ts sm s H Hl. apply dfa_match_no_oob_targets; [exact (create_lexer_targets ts sm H)|exact Hl].
Qed.

(* every term contributes a state, so one term is enough, of whatever kind *)
Theorem lexer_no_oob_nonempty : forall ts sm s, ts <> [] -> create_lexer ts = Some sm -> dfa_match_oob sm s = false.
Proof.
  intros ts sm s Hne H. eapply lexer_dfa_no_oob; [exact H|].
  rewrite (create_lexer_size ts sm H). destruct ts as [|t ts]; [congruence|].
  cbn [map list_sum fold_right]. pose proof (term_size_pos t). lia.
Qed.

Lemma run_len sm : forall inp st len rt t l,
  fst (run sm st len inp rt) = Some (t, l) -> rt = Some (t, l) \/ (len <= l <= len + length inp).
Proof.
  assert (R : forall d len rt t l n, rec_step d len rt = Some (t, l) -> rt = Some (t, l) \/ len <= l <= len + n).
  { unfold rec_step. intros d len rt t l n H. destruct (d_rec d); [auto | inversion H; lia]. }
  induction inp as [|c rest IH]; intros st len rt t l; rewrite run_eq;
    destruct (nth_error sm st) as [d|]; cbn [fst length]; auto.
  - apply R.
  - destruct (nth c (d_trans d) None) as [nx|]; cbn [fst]; [|apply R].
    intros H. apply IH in H as [H|H]; [revert H; apply R | right; lia].
Qed.

Theorem dfa_match_len_le : forall sm v p s t len,
  snd (dfa_match sm v p s) = Some (t, len) -> len <= length s.
Proof.
  intros sm v p s t len. rewrite dfa_match_run. intros E.
  destruct (run_len sm s 0 0 None t len E) as [H|H]; [discriminate | lia].
Qed.

(* [dfa_match_len_le] again, named for its use: [dfa_match] (of any automaton) is a lexer whose lengths are in range,
   as the driver theorems require *)
Corollary dfa_match_lexer_len : forall sm v p rest t len,
  snd (dfa_match sm v p rest) = Some (t, len) -> len <= length rest.
Proof. exact dfa_match_len_le. Qed.

(* The input is read left to right, each element at most once.
   Observable form: with the trace on, the characters of the "Current char" lines are a prefix of the input. *)
Definition char_of (e : lex_event) : list nat := match e with LxChar _ c => [c] | _ => [] end.
Definition chars_of (ev : list lex_event) : list nat := flat_map char_of ev.

Lemma chars_of_app a b : chars_of (a ++ b) = chars_of a ++ chars_of b.
Proof. apply flat_map_app. Qed.

Lemma dfa_match_aux_reads sm : forall inp st p len rt ev,
  exists k, k <= length inp /\
    chars_of (fst (fst (dfa_match_aux sm true st p len inp rt ev))) = chars_of (rev ev) ++ firstn k inp.
Proof.
  assert (Q : forall p d ev, chars_of (rev (rec_ev true p d ev)) = chars_of (rev ev)).
  { intros. unfold rec_ev. destruct (d_rec d); cbn [rev]; rewrite ?chars_of_app; cbn; auto using app_nil_r. }
  assert (Z : forall (inp : list nat) ev, exists k, k <= length inp /\ chars_of (rev ev) = chars_of (rev ev) ++ firstn k inp).
  { intros. exists 0. split; [lia | cbn; now rewrite app_nil_r]. }
  induction inp as [|c rest IH]; intros st p len rt ev; rewrite dfa_match_aux_eq;
    destruct (nth_error sm st) as [d|]; cbn [fst]; rewrite ?Q; auto.
  destruct (nth c (d_trans d) None) as [nx|]; cbn [fst]; rewrite ?Q; auto.
  destruct (IH nx (sp_update p [c]) (S len) (rec_step d len rt) (LxNewState p nx :: LxChar p c :: rec_ev true p d ev))
    as (k & Hk & E).
  exists (S k). split; [cbn; lia|]. rewrite E. cbn [rev]. rewrite !chars_of_app, Q. cbn. rewrite <- !app_assoc. reflexivity.
Qed.

Theorem dfa_match_reads_prefix : forall sm p s,
  exists k, k <= length s /\ chars_of (fst (dfa_match sm true p s)) = firstn k s.
Proof.
  intros sm p s. unfold dfa_match.
  destruct (dfa_match_aux_reads sm s 0 p 0 None []) as (k & Hk & E).
  destruct (dfa_match_aux sm true 0 p 0 s None []) as [[ev rt] oob]. cbn in *. eauto.
Qed.

Print Assumptions dfa_match_no_oob_closed.
Print Assumptions built_dfa_no_oob.
Print Assumptions built_dfa_no_oob_total.
Print Assumptions lexer_dfa_no_oob.
Print Assumptions dfa_match_len_le.
Print Assumptions dfa_match_reads_prefix.
