(* Property C12: the statically computed automaton size (dfa_size_analyzer) is exactly the number of states the
   in-place builder creates; all transition targets stay in range.
   Everything the builder does after creating states (merge, the loops around it, the flag updates) is a sequence
   of two kinds of elementary steps ([mstep]); lengths and well-formedness are proved for those once. *)
Require Import Ctpg.Base.Prelude Ctpg.Proofs.ListFacts Ctpg.Model.Dfa.


Lemma upd_length : forall sm i f, length (upd sm i f) = length sm.
Proof. intros. unfold upd. apply update_length. Qed.

Lemma get_upd : forall sm i f q,
  get (upd sm i f) q = if Nat.eqb q i && Nat.ltb i (length sm) then f (get sm i) else get sm q.
Proof. intros. unfold get, upd. apply nth_update. Qed.

Lemma upd_field : forall (A : Type) (g : dstate -> A) s i f q,
  (forall d, g (f d) = g d) -> g (get (upd s i f) q) = g (get s q).
Proof.
  intros A g s i f q H. rewrite get_upd.
  destruct (Nat.eqb q i && Nat.ltb i (length s)) eqn:E; auto.
  apply andb_true_iff in E. destruct E as [E _]. apply Nat.eqb_eq in E. subst. apply H.
Qed.

Lemma fold_upd_field : forall (A B : Type) (g : dstate -> A) (ix : B -> nat) (fn : B -> dstate -> dstate),
  (forall b d, g (fn b d) = g d) ->
  forall l s q, g (get (fold_left (fun acc b => upd acc (ix b) (fn b)) l s) q) = g (get s q).
Proof.
  intros A B g ix fn H. induction l as [|b l IH]; intros s q; cbn [fold_left]; auto.
  rewrite IH. apply upd_field, H.
Qed.

Lemma fold_upd_notin : forall (f : dstate -> dstate) l s q,
  ~ In q l -> get (fold_left (fun acc i => upd acc i f) l s) q = get s q.
Proof.
  intros f. induction l as [|i l IH]; intros s q H; cbn [fold_left]; auto.
  rewrite IH by (intros C; apply H; right; assumption).
  rewrite get_upd. destruct (Nat.eqb_spec q i) as [->|_]; auto. exfalso. apply H. left. reflexivity.
Qed.

Lemma fold_upd_in : forall (f : dstate -> dstate) l s q,
  NoDup l -> In q l -> q < length s -> get (fold_left (fun acc i => upd acc i f) l s) q = f (get s q).
Proof.
  intros f. induction l as [|i l IH]; intros s q Hnd Hin Hq; cbn [fold_left]; [contradiction|].
  inversion Hnd as [|i' l' Hni Hnd']; subst. destruct Hin as [->|Hin].
  - rewrite fold_upd_notin by assumption. rewrite get_upd, Nat.eqb_refl.
    apply Nat.ltb_lt in Hq. rewrite Hq. reflexivity.
  - rewrite IH; auto; [|rewrite upd_length; assumption].
    rewrite get_upd. destruct (Nat.eqb_spec q i) as [->|_]; [contradiction | reflexivity].
Qed.

Lemma mark_end_state_trans : forall t d, d_trans (mark_end_state d t) = d_trans d.
Proof. intros. unfold mark_end_state. destruct (d_end d); reflexivity. Qed.
Lemma mark_end_state_end : forall t d, d_end (mark_end_state d t) = d_end d.
Proof. intros. unfold mark_end_state. destruct (d_end d) eqn:E; auto. Qed.
Lemma mark_end_state_merged : forall t d, d_merged (mark_end_state d t) = d_merged d.
Proof. intros. unfold mark_end_state. destruct (d_end d); reflexivity. Qed.

Lemma get_nth_error : forall sm q d, nth_error sm q = Some d -> get sm q = d.
Proof. intros. unfold get. apply nth_error_nth. assumption. Qed.

Lemma get_overflow : forall sm q, length sm <= q -> get sm q = dstate0.
Proof. intros. unfold get. apply nth_overflow. assumption. Qed.

Lemma tr_dstate0 : forall c, nth c (d_trans dstate0) None = None.
Proof. intros. cbn [dstate0 d_trans]. apply nth_repeat. Qed.

Lemma get_app1 : forall (sm ext : dfa) q, q < length sm -> get (sm ++ ext) q = get sm q.
Proof. intros. unfold get. apply app_nth1. assumption. Qed.

Lemma fold_left_opt_None : forall (A B : Type) (f : option A -> B -> option A) (l : list B),
  (forall b, f None b = None) -> fold_left f l None = None.
Proof. intros A B f l H. induction l; cbn; auto. rewrite H. auto. Qed.

Lemma fold_left_opt_inv : forall (A B : Type) (Inv : A -> Prop) (f : option A -> B -> option A) (l : list B),
  (forall b, f None b = None) ->
  (forall a b a', Inv a -> f (Some a) b = Some a' -> Inv a') ->
  forall a r, Inv a -> fold_left f l (Some a) = Some r -> Inv r.
Proof.
  intros A B Inv f l HN Hstep. induction l as [|b l IH]; cbn; intros a r Ha H.
  - inversion H; subst. assumption.
  - destruct (f (Some a) b) as [a'|] eqn:E; [eauto|].
    rewrite fold_left_opt_None in H by assumption. discriminate.
Qed.

Lemma fold_left_opt_total : forall (A B : Type) (Inv : A -> Prop) (f : option A -> B -> option A) (l : list B),
  (forall a b, Inv a -> exists a', f (Some a) b = Some a' /\ Inv a') ->
  forall a, Inv a -> exists r, fold_left f l (Some a) = Some r /\ Inv r.
Proof.
  intros A B Inv f l H. induction l as [|b l IH]; cbn; intros a Ha; eauto.
  destruct (H a b Ha) as (a' & E & Ha'). rewrite E. auto.
Qed.

(* [keeps f]: f leaves the transitions alone or clears them all (rep with count 0 does), does not overflow the
   four recognition slots and does not remove merged_from marks (the marks are what Proofs/BuilderTerm.v measures;
   nothing in this file reads that conjunct) *)
Definition keeps (f : dstate -> dstate) : Prop :=
  forall d, (d_trans (f d) = d_trans d \/ d_trans (f d) = repeat None 256) /\
            (length (d_rec d) <= 4 -> length (d_rec (f d)) <= 4) /\
            incl (d_merged d) (d_merged (f d)).

Inductive mstep : dfa -> dfa -> Prop :=
| ms_keep s i f : keeps f -> mstep s (upd s i f)
| ms_trans s to from i trf :
    nth i (d_trans (get s from)) None = Some trf ->
    mstep s (upd s to (fun d => set_trans d (update (d_trans d) i (Some trf)))).

Inductive msteps : dfa -> dfa -> Prop :=
| mss_refl s : msteps s s
| mss_step s1 s2 s3 : mstep s1 s2 -> msteps s2 s3 -> msteps s1 s3.

Lemma msteps_trans : forall a b c, msteps a b -> msteps b c -> msteps a c.
Proof. induction 1; intros; auto. econstructor; eauto. Qed.

Lemma msteps_keep : forall s i f, keeps f -> msteps s (upd s i f).
Proof. intros. eapply mss_step; constructor. assumption. Qed.

Lemma keeps_set_merged : forall x, keeps (fun d => set_merged d (x :: d_merged d)).
Proof. intros x d. repeat split; auto. apply incl_tl, incl_refl. Qed.
Lemma keeps_set_start : forall b, keeps (fun d => set_start d b).
Proof. intros b d. repeat split; auto. apply incl_refl. Qed.
Lemma keeps_set_end : forall b, keeps (fun d => set_end d b).
Proof. intros b d. repeat split; auto. apply incl_refl. Qed.
Lemma keeps_set_unreach : forall b, keeps (fun d => set_unreach d b).
Proof. intros b d. repeat split; auto. apply incl_refl. Qed.
Lemma keeps_rep0_state : keeps rep0_state.
Proof.
  (* [set] keeps the case analysis from searching the 256-entry table *)
  intros d. unfold rep0_state. set (z := repeat None 256). destruct (d_start d); repeat split; auto; apply incl_refl.
Qed.
Lemma keeps_mark_end_state : forall t, keeps (fun d => mark_end_state d t).
Proof.
  intros t d. unfold mark_end_state, add_conflicted.
  destruct (d_end d); cbn [set_rec d_trans d_rec d_merged]; repeat split; auto; try apply incl_refl.
  destruct (Nat.ltb_spec (length (d_rec d)) 4); auto. rewrite app_length. cbn. lia.
Qed.

Lemma fold_keep_msteps : forall (f : nat -> dstate -> dstate) (g : nat -> nat) l s,
  (forall t, keeps (f t)) -> msteps s (fold_left (fun acc t => upd acc (g t) (f t)) l s).
Proof.
  intros f g l. induction l as [|t l IH]; cbn; intros s H.
  - constructor.
  - eapply msteps_trans; [apply msteps_keep; apply H | apply IH; assumption].
Qed.

Lemma mark_end_states_msteps : forall sm s t, msteps sm (mark_end_states sm s t).
Proof.
  intros. apply (fold_keep_msteps (fun _ d => mark_end_state d t) (fun i => i)).
  intros _. apply keeps_mark_end_state.
Qed.

(* one call of merge past the two early returns, first part: the flag updates in the order of ctpg.hpp (the mark in
   merged_from of the target, start_state of the source off, end_state of the target, unreachable of the source) *)
Definition pre_merge (sm : dfa) (to from : nat) (keep mark : bool) : dfa :=
  let sm1 := upd sm to (fun d => set_merged d (from :: d_merged d)) in
  let sm2 := upd sm1 from (fun d => set_start d false) in
  let e := if keep then d_end (get sm2 to) || d_end (get sm2 from) else d_end (get sm2 from) in
  let sm3 := upd sm2 to (fun d => set_end d e) in
  upd sm3 from (fun d => set_unreach d mark).

(* a transition of the merged-in state that the target lacks is attached to the target *)
Definition attach (s : dfa) (to c nx : nat) : dfa :=
  upd (upd s to (fun d => set_trans d (update (d_trans d) c (Some nx)))) nx (fun d => set_unreach d false).

(* second part: the body of the loop over the 256 bytes *)
Definition merge_byte (f to from : nat) (keep mark : bool) (acc : option dfa) (i : nat) : option dfa :=
  match acc with
  | None => None
  | Some s =>
      match nth i (d_trans (get s from)) None with
      | None => Some s
      | Some trf =>
          match nth i (d_trans (get s to)) None with
          | None => Some (attach s to i trf)
          | Some trt => merge f s trt trf keep mark
          end
      end
  end.

(* last part: the recognition slots of the merged-in state are added to the target *)
Definition post_merge (s : dfa) (to from : nat) : dfa :=
  fold_left (fun acc t => upd acc to (fun d => mark_end_state d t)) (d_rec (get s from)) s.

Lemma merge_S : forall f sm to from keep mark,
  merge (S f) sm to from keep mark =
  if Nat.eqb to from then Some sm else
  if mem_nat from (d_merged (get sm to)) then Some sm else
  match fold_left (merge_byte f to from keep mark) (seq 0 256) (Some (pre_merge sm to from keep mark)) with
  | None => None
  | Some s => Some (post_merge s to from)
  end.
Proof. reflexivity. Qed.

(* for Proofs/BuilderTerm.v, which counts the marks: the steps of [pre_merge] once the mark is set *)
Lemma pre_merge_from_mark : forall sm to from keep mark,
  msteps (upd sm to (fun d => set_merged d (from :: d_merged d))) (pre_merge sm to from keep mark).
Proof.
  intros. unfold pre_merge.
  eapply msteps_trans; [apply msteps_keep, keeps_set_start|].
  eapply msteps_trans; [apply msteps_keep, keeps_set_end|].
  apply msteps_keep, keeps_set_unreach.
Qed.

Lemma pre_merge_msteps : forall sm to from keep mark, msteps sm (pre_merge sm to from keep mark).
Proof.
  intros. eapply msteps_trans; [apply msteps_keep, (keeps_set_merged from) | apply pre_merge_from_mark].
Qed.

Lemma post_merge_msteps : forall s to from, msteps s (post_merge s to from).
Proof.
  intros. apply (fold_keep_msteps (fun t d => mark_end_state d t) (fun _ => to)), keeps_mark_end_state.
Qed.

(* one round of the loop, given what the nested calls do *)
Lemma mstep_fn_msteps : forall f to from keep mark,
  (forall sm to from sm', merge f sm to from keep mark = Some sm' -> msteps sm sm') ->
  forall a i a', merge_byte f to from keep mark (Some a) i = Some a' -> msteps a a'.
Proof.
  intros f to from keep mark IH a i a' H. cbn [merge_byte] in H.
  destruct (nth i (d_trans (get a from)) None) as [trf|] eqn:Etrf; [|inversion H; constructor].
  destruct (nth i (d_trans (get a to)) None) as [trt|]; [eapply IH; eauto|].
  inversion H; subst.
  eapply mss_step; [eapply ms_trans; eauto | apply msteps_keep, keeps_set_unreach].
Qed.

Lemma merge_msteps : forall fuel sm to from keep mark sm',
  merge fuel sm to from keep mark = Some sm' -> msteps sm sm'.
Proof.
  induction fuel as [|f IH]; intros sm to from keep mark sm' H; [discriminate|].
  rewrite merge_S in H.
  destruct (Nat.eqb to from); [inversion H; constructor|].
  destruct (mem_nat from (d_merged (get sm to))); [inversion H; constructor|].
  destruct (fold_left _ _ _) as [s|] eqn:EL; inversion H; subst.
  apply (msteps_trans _ s); [|apply post_merge_msteps].
  revert EL. apply (fold_left_opt_inv _ _ (msteps sm)); [reflexivity | | apply pre_merge_msteps].
  intros a i a' Ha E. apply (msteps_trans _ _ _ Ha). revert E. apply mstep_fn_msteps. intros. eapply IH; eauto.
Qed.

Lemma merge_ends_msteps : forall idxs sm b keep mark sm',
  merge_ends sm idxs b keep mark = Some sm' -> msteps sm sm'.
Proof.
  induction idxs as [|i t IH]; cbn [merge_ends]; intros sm b keep mark sm' H.
  - inversion H; constructor.
  - destruct (d_end (get sm i)); [|eauto].
    destruct (merge (merge_fuel sm) sm i b keep mark) as [sm1|] eqn:E; [|discriminate].
    eapply msteps_trans; [eapply merge_msteps; eauto | eauto].
Qed.

Lemma option_map_pair : forall (o : option dfa) (s s' : slice) sm',
  option_map (fun x => (x, s)) o = Some (sm', s') -> o = Some sm' /\ s' = s.
Proof. intros [x|] s s' sm' H; inversion H; auto. Qed.

Lemma b_star_msteps : forall sm s sm' s', b_star sm s = Some (sm', s') -> msteps sm sm' /\ s' = s.
Proof.
  intros sm s sm' s' H. apply option_map_pair in H as [H ->]. split; auto.
  eapply msteps_trans; [apply msteps_keep, keeps_set_end | eapply merge_ends_msteps; eauto].
Qed.

Lemma b_plus_msteps : forall sm s sm' s', b_plus sm s = Some (sm', s') -> msteps sm sm' /\ s' = s.
Proof.
  intros sm s sm' s' H. apply option_map_pair in H as [H ->]. split; auto. eapply merge_ends_msteps; eauto.
Qed.

Lemma b_opt_msteps : forall sm s sm' s', b_opt sm s = Some (sm', s') -> msteps sm sm' /\ s' = s.
Proof. intros sm s sm' s' H. inversion H; subst. split; auto. apply msteps_keep, keeps_set_end. Qed.

Lemma b_cat_msteps : forall sm s1 s2 sm' s', b_cat sm s1 s2 = Some (sm', s') ->
  msteps sm sm' /\ s' = mkSl (sl_start s1) (sl_n s1 + sl_n s2).
Proof.
  intros sm s1 s2 sm' s' H. apply option_map_pair in H as [H ->]. split; auto. eapply merge_ends_msteps; eauto.
Qed.

Lemma b_alt_msteps : forall sm s1 s2 sm' s', b_alt sm s1 s2 = Some (sm', s') ->
  msteps sm sm' /\ s' = mkSl (sl_start s1) (sl_n s1 + sl_n s2).
Proof.
  intros sm s1 s2 sm' s' H. apply option_map_pair in H as [H ->]. split; auto. eapply merge_msteps; eauto.
Qed.

(* rep(s, n) first appends n - 1 copies of the slice and then concatenates them one by one *)
Lemma rep_cats_msteps : forall cnt sm whole n sm' s',
  rep_cats sm whole n cnt = Some (sm', s') ->
  msteps sm sm' /\ s' = mkSl (sl_start whole) (sl_n whole + n * cnt).
Proof.
  induction cnt as [|c IH]; cbn [rep_cats]; intros sm whole n sm' s' H.
  - inversion H; subst. split; [constructor|]. destruct s'. cbn. f_equal. lia.
  - destruct (b_cat sm whole (mkSl (sl_start whole + sl_n whole) n)) as [[sm1 x]|] eqn:E; [|discriminate].
    apply b_cat_msteps in E as [E _]. apply IH in H as [H ->]. cbn [sl_start sl_n].
    split; [eapply msteps_trans; eauto | f_equal; lia].
Qed.

Lemma b_rep_msteps : forall sm s n sm' s', b_rep sm s n = Some (sm', s') ->
  msteps (rep_copies sm s 0 (n - 1)) sm' /\ s' = mkSl (sl_start s) (sl_n s * Nat.max 1 n).
Proof.
  intros sm s [|m] sm' s' H; cbn [b_rep] in H.
  - inversion H; subst. split; [apply (fold_keep_msteps (fun _ => rep0_state) (fun j => j)); intros _; apply keeps_rep0_state|].
    destruct s'. cbn. f_equal. lia.
  - apply rep_cats_msteps in H as [H ->]. replace (S m - 1) with m by lia. split; [assumption | f_equal; lia].
Qed.

Lemma msteps_length : forall a b, msteps a b -> length b = length a.
Proof. induction 1 as [|a b c Hs _ IH]; auto. rewrite IH. destruct Hs; apply upd_length. Qed.

Theorem merge_length : forall fuel sm to from keep mark sm',
  merge fuel sm to from keep mark = Some sm' -> length sm' = length sm.
Proof. intros. eapply msteps_length, merge_msteps; eauto. Qed.
Theorem merge_ends_length : forall idxs sm b keep mark sm',
  merge_ends sm idxs b keep mark = Some sm' -> length sm' = length sm.
Proof. intros. eapply msteps_length, merge_ends_msteps; eauto. Qed.
Theorem b_star_length : forall sm s sm' s', b_star sm s = Some (sm', s') -> length sm' = length sm.
Proof. intros. eapply msteps_length, b_star_msteps; eauto. Qed.
Theorem b_plus_length : forall sm s sm' s', b_plus sm s = Some (sm', s') -> length sm' = length sm.
Proof. intros. eapply msteps_length, b_plus_msteps; eauto. Qed.
Theorem b_opt_length : forall sm s sm' s', b_opt sm s = Some (sm', s') -> length sm' = length sm.
Proof. intros. eapply msteps_length, b_opt_msteps; eauto. Qed.
Theorem b_cat_length : forall sm s1 s2 sm' s', b_cat sm s1 s2 = Some (sm', s') -> length sm' = length sm.
Proof. intros. eapply msteps_length, b_cat_msteps; eauto. Qed.
Theorem mark_end_states_length : forall sm s t, length (mark_end_states sm s t) = length sm.
Proof. intros. apply msteps_length, mark_end_states_msteps. Qed.
Theorem rep_cats_length : forall cnt sm whole n sm' s',
  rep_cats sm whole n cnt = Some (sm', s') -> length sm' = length sm.
Proof. intros. eapply msteps_length, rep_cats_msteps; eauto. Qed.

Lemma slice_idxs_length : forall s, length (slice_idxs s) = sl_n s.
Proof. intros. apply seq_length. Qed.

Theorem rep_copies_length : forall cnt sm s i, length (rep_copies sm s i cnt) = length sm + sl_n s * cnt.
Proof.
  induction cnt as [|c IH]; intros sm s i; cbn [rep_copies].
  - lia.
  - rewrite IH, app_length, map_length, slice_idxs_length. lia.
Qed.

(* the proof does not use the first hypothesis: the new length does not depend on the slice being in range *)
Theorem b_rep_length : forall sm s n sm' s',
  sl_start s + sl_n s <= length sm ->
  b_rep sm s n = Some (sm', s') ->
  (1 <= n -> length sm' = length sm + sl_n s * (n - 1)) /\ (n = 0 -> length sm' = length sm).
Proof.
  intros sm s n sm' s' _ H. apply b_rep_msteps in H as [H _].
  apply msteps_length in H. rewrite rep_copies_length in H. split; intros; subst; lia.
Qed.

(* the number of states of a pattern; the analyser adds it to the running size *)
Fixpoint nstates (r : regex) : nat :=
  match r with
  | RSet _ => 2
  | RStar a | RPlus a | ROpt a => nstates a
  | RRep a n => nstates a * Nat.max 1 n
  | RCat a b | RAlt a b => nstates a + nstates b
  end.

Lemma analyze_size_eq : forall r size, analyze_size r size = (mkSl size (nstates r), size + nstates r).
Proof.
  induction r; intros size; cbn [analyze_size nstates]; rewrite ?IHr, ?IHr1, ?IHr2; cbn [sl_start sl_n]; auto.
  - destruct n; cbn [Nat.max]; rewrite ?Nat.mul_1_r; auto. f_equal. lia.
  - f_equal. lia.
  - f_equal. lia.
Qed.

Lemma nstates_pos : forall r, 1 <= nstates r.
Proof. induction r; cbn [nstates]; lia. Qed.

(* [P] is the property required of the length of every transition table: instantiated below with
   [fun n => n = 256] (when every character set of the pattern has 256 entries) and with [fun _ => True] *)
Section WF.
Variable P : nat -> Prop.
Hypothesis P256 : P 256.

Definition st_wf (n : nat) (d : dstate) : Prop :=
  P (length (d_trans d)) /\ length (d_rec d) <= 4 /\
  forall c t, nth c (d_trans d) None = Some t -> t < n.
Definition wf (sm : dfa) : Prop := forall q d, nth_error sm q = Some d -> st_wf (length sm) d.

Lemma st_wf_mono : forall n m d, n <= m -> st_wf n d -> st_wf m d.
Proof. intros n m d H (A & B & C). repeat split; auto. intros c t Ht. apply C in Ht. lia. Qed.

Lemma st_wf_blank : forall n d, d_trans d = repeat None 256 -> length (d_rec d) <= 4 -> st_wf n d.
Proof.
  intros n d E H. unfold st_wf. rewrite E, repeat_length. repeat split; auto.
  intros c t Ht. rewrite nth_repeat in Ht. discriminate.
Qed.

Lemma st_wf_keeps : forall n d f, keeps f -> st_wf n d -> st_wf n (f d).
Proof.
  intros n d f K (A & B & C). destruct (K d) as ([E|E] & R & _).
  - unfold st_wf. rewrite E. auto.
  - apply st_wf_blank; auto.
Qed.

Lemma wf_nil : wf [].
Proof. intros [|q] d H; discriminate. Qed.

Lemma wf_get : forall sm q, wf sm -> st_wf (length sm) (get sm q).
Proof.
  intros sm q H. destruct (nth_error sm q) as [d|] eqn:E.
  - rewrite (get_nth_error _ _ _ E). eauto.
  - apply nth_error_None in E. rewrite get_overflow by assumption. apply st_wf_blank; [reflexivity | exact (Nat.le_0_l 4)].
Qed.

Lemma wf_target : forall sm q c t, wf sm -> nth c (d_trans (get sm q)) None = Some t -> t < length sm.
Proof. intros sm q c t H Ht. destruct (wf_get sm q H) as (_ & _ & C). eauto. Qed.

Lemma wf_upd : forall sm i f, wf sm -> st_wf (length sm) (f (get sm i)) -> wf (upd sm i f).
Proof.
  intros sm i f H Hf q d Hq. rewrite upd_length. unfold upd in Hq. rewrite nth_error_update in Hq.
  destruct (Nat.eqb q i); [|eauto].
  destruct (Nat.ltb i (length sm)); inversion Hq; subst. assumption.
Qed.

Lemma wf_app : forall sm ext,
  wf sm -> (forall d, In d ext -> st_wf (length sm + length ext) d) -> wf (sm ++ ext).
Proof.
  intros sm ext H He q d Hq. rewrite app_length.
  destruct (Nat.lt_ge_cases q (length sm)) as [Hlt|Hge].
  - rewrite nth_error_app1 in Hq by assumption. eapply st_wf_mono; [|eauto]. lia.
  - rewrite nth_error_app2 in Hq by assumption. apply nth_error_In in Hq. auto.
Qed.

Lemma mstep_wf : forall a b, mstep a b -> wf a -> wf b.
Proof.
  destruct 1 as [s i f Hk | s to from i trf Htrf]; intros Hwf; apply wf_upd; auto.
  - apply st_wf_keeps, wf_get; assumption.
  - destruct (wf_get s to Hwf) as (A & B & C). destruct (wf_get s from Hwf) as (_ & _ & C').
    repeat split; cbn [set_trans d_trans d_rec]; auto.
    + rewrite update_length. assumption.
    + intros c t. rewrite nth_update. destruct (Nat.eqb c i && Nat.ltb i (length (d_trans (get s to)))).
      * intros E. inversion E; subst. eauto.
      * apply C.
Qed.

Lemma msteps_wf : forall a b, msteps a b -> wf a -> wf b.
Proof. induction 1; auto. intros. apply IHmsteps. eapply mstep_wf; eauto. Qed.

Theorem merge_wf : forall fuel sm to from keep mark sm',
  merge fuel sm to from keep mark = Some sm' -> wf sm -> wf sm'.
Proof. intros. eapply msteps_wf; [eapply merge_msteps|]; eauto. Qed.

Theorem primary_subset_wf : forall sm cs, P (length cs) -> wf sm -> wf (fst (primary_subset sm cs)).
Proof.
  intros sm cs Hcs H. unfold primary_subset. cbn [fst]. apply wf_app; auto.
  intros d [<-|[<-|[]]]; [|apply st_wf_blank; [reflexivity | exact (Nat.le_0_l 4)]].
  repeat split; cbn [set_trans set_start dstate0 d_trans d_rec length]; try lia.
  - rewrite map_length. assumption.
  - intros c t Ht.
    pose proof (map_nth (fun b : bool => if b then Some (S (length sm)) else None) cs false c) as E.
    cbn beta iota in E. rewrite E in Ht. destruct (nth c cs false); inversion Ht. lia.
Qed.

Lemma st_wf_shift : forall n k d, st_wf n d -> st_wf (n + k) (shift_trans k d).
Proof.
  intros n k d (A & B & C). unfold shift_trans. repeat split; cbn [set_trans d_trans d_rec]; auto.
  - rewrite map_length. assumption.
  - intros c t.
    pose proof (map_nth (fun t => match t with Some x => Some (x + k) | None => None end) (d_trans d) None c) as E.
    cbn beta iota in E. rewrite E.
    destruct (nth c (d_trans d) None) as [x|] eqn:Ex; intros Ht; inversion Ht. apply C in Ex. lia.
Qed.

(* the copy shifted by i + 1 slice widths is appended when i copies stand behind the L0 original states *)
Lemma rep_copies_wf_from : forall cnt sm s i L0,
  wf sm -> length sm = L0 + sl_n s * i -> sl_start s + sl_n s <= L0 ->
  (forall j, j < L0 -> st_wf L0 (get sm j)) ->
  wf (rep_copies sm s i cnt).
Proof.
  induction cnt as [|c IH]; intros sm s i L0 Hwf Hlen Hsl Hget; cbn [rep_copies]; auto.
  apply (IH _ s (S i) L0).
  - apply wf_app; auto. intros d Hd. apply in_map_iff in Hd. destruct Hd as (j & <- & Hj).
    rewrite map_length, slice_idxs_length, Hlen.
    unfold slice_idxs in Hj. apply in_seq in Hj.
    replace (L0 + sl_n s * i + sl_n s) with (L0 + sl_n s * S i) by lia.
    apply st_wf_shift. apply Hget. lia.
  - rewrite app_length, map_length, slice_idxs_length. lia.
  - assumption.
  - intros j Hj. rewrite get_app1 by lia. apply Hget. assumption.
Qed.

Lemma rep_copies_wf : forall cnt sm s,
  wf sm -> sl_start s + sl_n s <= length sm -> wf (rep_copies sm s 0 cnt).
Proof.
  intros cnt sm s H Hs. apply (rep_copies_wf_from cnt sm s 0 (length sm)); auto; try lia.
  intros j _. apply wf_get. assumption.
Qed.

(* the length of every character set of the pattern satisfies P (below with [p256]: each is a 256-entry table) *)
Fixpoint sets_ok (r : regex) : Prop :=
  match r with
  | RSet s => P (length s)
  | RStar a | RPlus a | ROpt a | RRep a _ => sets_ok a
  | RCat a b | RAlt a b => sets_ok a /\ sets_ok b
  end.

(* one walk over the operators: the builder creates exactly the predicted states, returns them as its slice,
   and keeps the automaton well-formed *)
Theorem build_ok : forall r sm sm' s, build r sm = Some (sm', s) ->
  s = mkSl (length sm) (nstates r) /\ length sm' = length sm + nstates r /\ (sets_ok r -> wf sm -> wf sm').
Proof.
  induction r; intros sm sm' s0 H; cbn [build nstates sets_ok] in *.
  - inversion H. rewrite app_length. split; [reflexivity|]. split; [reflexivity|].
    intros Hs Hw. apply (primary_subset_wf sm s); auto.
  - destruct (build r sm) as [[sm1 s1]|] eqn:E; [|discriminate]. apply IHr in E as (-> & E & W).
    apply b_star_msteps in H as [H ->]. rewrite (msteps_length _ _ H). split; [reflexivity|]. split; [assumption|].
    intros Hs Hw. apply (msteps_wf _ _ H); auto.
  - destruct (build r sm) as [[sm1 s1]|] eqn:E; [|discriminate]. apply IHr in E as (-> & E & W).
    apply b_plus_msteps in H as [H ->]. rewrite (msteps_length _ _ H). split; [reflexivity|]. split; [assumption|].
    intros Hs Hw. apply (msteps_wf _ _ H); auto.
  - destruct (build r sm) as [[sm1 s1]|] eqn:E; [|discriminate]. apply IHr in E as (-> & E & W).
    apply b_opt_msteps in H as [H ->]. rewrite (msteps_length _ _ H). split; [reflexivity|]. split; [assumption|].
    intros Hs Hw. apply (msteps_wf _ _ H); auto.
  - destruct (build r sm) as [[sm1 s1]|] eqn:E; [|discriminate]. apply IHr in E as (-> & E & W).
    apply b_rep_msteps in H as [H ->]. pose proof (msteps_length _ _ H) as L. rewrite rep_copies_length in L.
    cbn [sl_start sl_n] in *. split; [reflexivity|]. split; [nia|].
    intros Hs Hw. apply (msteps_wf _ _ H), rep_copies_wf; auto. cbn [sl_start sl_n]. lia.
  - destruct (build r1 sm) as [[sm1 s1]|] eqn:E1; [|discriminate]. apply IHr1 in E1 as (-> & E1 & W1).
    destruct (build r2 sm1) as [[sm2 s2]|] eqn:E2; [|discriminate]. apply IHr2 in E2 as (-> & E2 & W2).
    apply b_cat_msteps in H as [H ->]. rewrite (msteps_length _ _ H). cbn [sl_start sl_n].
    split; [reflexivity|]. split; [lia|]. intros [Hs1 Hs2] Hw. apply (msteps_wf _ _ H); auto.
  - destruct (build r1 sm) as [[sm1 s1]|] eqn:E1; [|discriminate]. apply IHr1 in E1 as (-> & E1 & W1).
    destruct (build r2 sm1) as [[sm2 s2]|] eqn:E2; [|discriminate]. apply IHr2 in E2 as (-> & E2 & W2).
    apply b_alt_msteps in H as [H ->]. rewrite (msteps_length _ _ H). cbn [sl_start sl_n].
    split; [reflexivity|]. split; [lia|]. intros [Hs1 Hs2] Hw. apply (msteps_wf _ _ H); auto.
Qed.

Lemma build_wf : forall r sm sm' s, sets_ok r -> wf sm -> build r sm = Some (sm', s) -> wf sm'.
Proof. intros r sm sm' s Hs Hw H. apply build_ok in H as (_ & _ & W). auto. Qed.

Theorem build_expr_wf : forall r sm, sets_ok r -> build_expr r = Some sm -> wf sm.
Proof.
  unfold build_expr. intros r sm Hs H. destruct (build r []) as [[sm1 s]|] eqn:E; inversion H.
  eapply msteps_wf; [apply mark_end_states_msteps|]. eapply build_wf; eauto. apply wf_nil.
Qed.

Lemma add_term_wf : forall sm t idx sm',
  sets_ok (regex_of_term t) -> wf sm -> add_term sm t idx = Some sm' -> wf sm'.
Proof.
  unfold add_term. intros sm t idx sm' Hs Hwf H.
  destruct (build (regex_of_term t) sm) as [[sm1 s]|] eqn:E; [|discriminate].
  destruct (b_alt _ _ _) as [[sm2 s2]|] eqn:E2; inversion H; subst.
  apply b_alt_msteps in E2 as [E2 _]. eapply msteps_wf; [exact E2|].
  eapply msteps_wf; [apply mark_end_states_msteps|]. eapply build_wf; eauto.
Qed.

Lemma create_lexer_aux_wf : forall ts idx sm sm',
  Forall (fun t => sets_ok (regex_of_term t)) ts -> wf sm -> create_lexer_aux ts idx sm = Some sm' -> wf sm'.
Proof.
  induction ts as [|t ts IH]; cbn [create_lexer_aux]; intros idx sm sm' Hs Hwf H.
  - inversion H; subst. assumption.
  - inversion Hs; subst. destruct (add_term sm t idx) as [sm1|] eqn:E; [|discriminate].
    apply (IH (S idx) sm1 sm'); auto. eapply add_term_wf; eauto.
Qed.

Theorem create_lexer_wf : forall ts sm,
  Forall (fun t => sets_ok (regex_of_term t)) ts -> create_lexer ts = Some sm -> wf sm.
Proof. intros ts sm Hs. apply create_lexer_aux_wf; [assumption | apply wf_nil]. Qed.

End WF.

Definition ptrue (n : nat) : Prop := True.
Definition p256 (n : nat) : Prop := n = 256.

(* all transition targets are indices of the automaton; at most four recognition slots are filled *)
Definition closed (sm : dfa) : Prop := wf ptrue sm.
(* ... and every transition table has exactly 256 entries *)
Definition closed256 (sm : dfa) : Prop := wf p256 sm.

(* the sizes: what [build_ok] says without any condition on the automaton *)
Theorem build_shape : forall r sm sm' s, build r sm = Some (sm', s) ->
  s = mkSl (length sm) (nstates r) /\ length sm' = length sm + nstates r.
Proof. intros r sm sm' s H. apply (build_ok ptrue I) in H. tauto. Qed.

Theorem build_size : forall r sm sm' s, build r sm = Some (sm', s) ->
  let '(sl, sz) := analyze_size r (length sm) in length sm' = sz /\ s = sl.
Proof. intros r sm sm' s H. rewrite analyze_size_eq. apply build_shape in H. tauto. Qed.

Corollary build_expr_size : forall r sm, build_expr r = Some sm -> length sm = sl_n (fst (analyze_size r 0)).
Proof.
  unfold build_expr. intros r sm H. destruct (build r []) as [[sm1 s]|] eqn:E; inversion H.
  rewrite mark_end_states_length, analyze_size_eq. apply build_shape in E as [_ ->]. reflexivity.
Qed.

(* the number of states a term contributes (dfa_size of the term) *)
Definition regex_size (r : regex) : nat := sl_n (fst (analyze_size r 0)).
Definition term_size (t : term_data) : nat := regex_size (regex_of_term t).

Lemma regex_size_eq : forall r, regex_size r = nstates r.
Proof. intros. unfold regex_size. rewrite analyze_size_eq. reflexivity. Qed.

Lemma term_size_pos : forall t, 1 <= term_size t.
Proof. intros t. unfold term_size. rewrite regex_size_eq. apply nstates_pos. Qed.

Theorem add_term_size : forall sm t idx sm', add_term sm t idx = Some sm' -> length sm' = length sm + term_size t.
Proof.
  unfold add_term, term_size. intros sm t idx sm' H. rewrite regex_size_eq.
  destruct (build (regex_of_term t) sm) as [[sm1 s]|] eqn:E; [|discriminate]. apply build_shape in E as [_ <-].
  destruct (b_alt _ _ _) as [[sm2 s2]|] eqn:E2; inversion H; subst.
  apply b_alt_msteps in E2 as [E2 _]. apply msteps_length in E2. rewrite E2. apply mark_end_states_length.
Qed.

Lemma create_lexer_aux_size : forall ts idx sm sm', create_lexer_aux ts idx sm = Some sm' ->
  length sm' = length sm + list_sum (map term_size ts).
Proof.
  induction ts as [|t ts IH]; cbn [create_lexer_aux map list_sum fold_right]; intros idx sm sm' H.
  - inversion H; subst. lia.
  - destruct (add_term sm t idx) as [sm1|] eqn:E; [|discriminate].
    apply add_term_size in E. apply IH in H. fold (list_sum (map term_size ts)). lia.
Qed.

Theorem create_lexer_size : forall ts sm, create_lexer ts = Some sm ->
  length sm = list_sum (map term_size ts).
Proof. intros ts sm H. apply create_lexer_aux_size in H. exact H. Qed.

Lemma char_term_size : forall c, term_size (TChar c) = 2.
Proof. reflexivity. Qed.

Lemma string_fold_size : forall t acc,
  nstates (fold_left (fun acc x => RCat acc (RSet (cs_single x))) t acc) = nstates acc + 2 * length t.
Proof. induction t as [|x t IH]; intros acc; cbn [fold_left length]; [|rewrite IH; cbn [nstates]]; lia. Qed.

Lemma string_term_size : forall s, s <> [] -> term_size (TString s) = 2 * length s.
Proof.
  intros [|c t] H; [congruence|]. unfold term_size. rewrite regex_size_eq. cbn [regex_of_term regex_of_string].
  rewrite string_fold_size. cbn [nstates length]. lia.
Qed.

(* RECORDED DEVIATION: the C++ string_term("") declares dfa_size = 0 (its character count, times two), but
   add_term_data_to_dfa still creates the two states of a one-character set for it (str[0], the terminator):
   the model term has size 2, which is not 2 * length "" = 0. *)
Lemma empty_string_term_size_mismatch :
  term_size (TString []) = 2 /\ term_size (TString []) <> 2 * length (@nil nat).
Proof. split; [reflexivity | cbn; discriminate]. Qed.

Lemma closed_targets : forall sm, closed sm ->
  forall q d c t, nth_error sm q = Some d -> nth c (d_trans d) None = Some t -> t < length sm.
Proof. intros sm H q d c t Hq Ht. destruct (H q d Hq) as (_ & _ & C). eauto. Qed.

Lemma sets_ok_true : forall r, sets_ok ptrue r.
Proof. induction r; cbn; auto. exact I. Qed.

Theorem merge_closed : forall fuel sm to from keep mark sm',
  merge fuel sm to from keep mark = Some sm' -> closed sm -> closed sm'.
Proof. intros. eapply (merge_wf ptrue I); eauto. Qed.

Theorem build_closed : forall r sm sm' s, closed sm -> build r sm = Some (sm', s) -> closed sm'.
Proof. intros. eapply (build_wf ptrue I); eauto. apply sets_ok_true. Qed.

Lemma build_expr_closed : forall r sm, build_expr r = Some sm -> closed sm.
Proof. intros r sm. apply (build_expr_wf ptrue I), sets_ok_true. Qed.

Theorem build_expr_targets : forall r sm, build_expr r = Some sm ->
  forall q d c t, nth_error sm q = Some d -> nth c (d_trans d) None = Some t -> t < length sm.
Proof. intros r sm H. apply closed_targets. eapply build_expr_closed; eauto. Qed.

Theorem build_expr_rec_le_4 : forall r sm, build_expr r = Some sm ->
  forall q d, nth_error sm q = Some d -> length (d_rec d) <= 4.
Proof. intros r sm H q d Hq. destruct (build_expr_closed r sm H q d Hq) as (_ & B & _). exact B. Qed.

Theorem build_expr_trans_256 : forall r sm, sets_ok p256 r -> build_expr r = Some sm ->
  forall q d, nth_error sm q = Some d -> length (d_trans d) = 256.
Proof. intros r sm Hs H q d Hq. destruct (build_expr_wf p256 eq_refl r sm Hs H q d Hq) as (A & _). exact A. Qed.

(* the 256-entry invariant does depend on the character sets of the pattern being 256-entry tables
   (the front end only produces such sets): the start state of the automaton of a malformed empty set has an
   empty transition table *)
Lemma trans_256_needs_sets_ok :
  exists r sm d, build_expr r = Some sm /\ nth_error sm 0 = Some d /\ length (d_trans d) <> 256.
Proof.
  exists (RSet []). do 2 eexists. split; [reflexivity|]. split; [reflexivity|]. cbn. discriminate.
Qed.

Theorem create_lexer_targets : forall ts sm, create_lexer ts = Some sm ->
  forall q d c t, nth_error sm q = Some d -> nth c (d_trans d) None = Some t -> t < length sm.
Proof.
  intros ts sm H. apply closed_targets, (create_lexer_wf ptrue I ts); auto.
  apply Forall_forall. intros. apply sets_ok_true.
Qed.

Theorem create_lexer_closed256 : forall ts sm,
  Forall (fun t => sets_ok p256 (regex_of_term t)) ts -> create_lexer ts = Some sm -> closed256 sm.
Proof. intros ts sm. apply (create_lexer_wf p256 eq_refl). Qed.

Print Assumptions merge_length.
Print Assumptions b_rep_length.
Print Assumptions build_size.
Print Assumptions build_expr_size.
Print Assumptions add_term_size.
Print Assumptions create_lexer_size.
Print Assumptions string_term_size.
Print Assumptions empty_string_term_size_mismatch.
Print Assumptions merge_closed.
Print Assumptions build_closed.
Print Assumptions build_expr_targets.
Print Assumptions build_expr_rec_le_4.
Print Assumptions build_expr_trans_256.
Print Assumptions create_lexer_targets.
Print Assumptions create_lexer_closed256.
