(* Termination with ERROR RECOVERY, part 2: the driver (tree-building instance, any options, any buffer, any lexer,
   unbounded stacks) halts on tables WITH error symbol from every loop-head state that stands before a token
   stream of proper terms ([halts_all]; Proofs/TermRecAll.v starts it at the initial state).
   A loop-head state is described by where it stands in the token stream of the buffer ([stream], [stands] of
   Proofs/DriverStream.v; the same in all three modes) and by the stack invariant [MInv] of
   Proofs/TermRecMachine.v.  One iteration of the driver is
     - a reduction / the shift / the accept of the machine of TermRecMachine.v under the lookahead
       (the pending term, or the error symbol in recovery mode), or
     - on an error cell: enter recovery mode (normal mode), pop a state or give up (recovery mode), discard the
       pending term or give up at <eof> (consume mode).
   By [finish] a non-error cell leads, after finitely many reductions, to the shift of the lookahead (or to the
   accept cell).  Measure: length of the remaining token stream; then, in recovery mode, the stack height.
   [fin_halts] (itself an induction on the number of those reductions), [nc_step] and [halts_R] are the cases of that
   induction in continuation form: "s halts if every state reached afterwards halts", the induction hypotheses of
   [halts_all] being passed in as premises.
   What one action does on a cell is taken from Proofs/RecoveryRefines.v ([act_action], [plain_action]). *)
Require Import Ctpg.Base.Prelude Ctpg.Proofs.ListFacts Ctpg.Model.Grammar Ctpg.Model.LRGen Ctpg.Model.Driver
               Ctpg.Spec.Cfg Ctpg.Spec.Recovery Ctpg.Valid.LRValid Ctpg.Proofs.LRMachine Ctpg.Proofs.LRValidFacts
               Ctpg.Proofs.LRSound Ctpg.Proofs.LRComplete Ctpg.Proofs.DriverBasics Ctpg.Proofs.DriverIter Ctpg.Proofs.DriverStream Ctpg.Proofs.ReportLang
               Ctpg.Proofs.ReportViable Ctpg.Proofs.TermViable Ctpg.Proofs.RecoveryRefines Ctpg.Proofs.TermRecMachine.

Section DriverE.
  Variable g : grammar.
  Variable sts : list items.
  Variable tbl : table.
  Variable opts : options.
  Variable buf : list nat.
  Variable lexer : bool -> spoint -> list nat -> list lex_event * option (nat * nat).

  (* the Prop readings of [term_checks] ([TermViable.term_checks_facts]); the last four are for [TermRecMachine.finish].
     [productive] stands at the end of ReportLang.v, [states_nonempty] in ReportViable.v, the other two in TermViable.v. *)
  Hypothesis Hval : validate g sts tbl = true.
  Hypothesis Hgen : lookahead_generated g sts.
  Hypothesis Hnonempty : states_nonempty sts.
  Hypothesis Hred : reduce_lookahead g sts tbl.
  Hypothesis Hprod : productive g.

  Let SF : sound_facts g sts tbl := validate_facts g sts tbl Hval.

  Notation dstate := (pstate tree unit).
  Notation dstep := (step tree unit g tbl opts buf None lexer tf (ef g) rlf).
  Notation drun := (run_from tree unit g tbl opts buf None lexer tf (ef g) rlf).
  Notation dgct := (get_current_term tree unit g opts buf lexer).
  Notation dact := (act tree unit g tbl buf None tf (ef g) rlf).
  Notation stnd := (stands tree unit g opts buf lexer).
  Notation ftch := (fetched tree unit g opts buf lexer).
  Notation tc := (term_count g).

  Definition halts (s : dstate) : Prop := exists fuel, forall out, fst (fst (drun fuel s out)) <> OutOfFuel.

  Lemma halts_inl s s' : fst (dstep s) = inl s' -> halts s' -> halts s.
  Proof.
    intros Hs (fuel & Hf). exists (S fuel). intros out. cbn [run_from].
    destruct (dstep s) as [[s1|[r s1]] ev]; cbn [fst] in Hs; [|discriminate]. inversion Hs; subst. apply Hf.
  Qed.

  Lemma halts_inr s x : fst (dstep s) = inr x -> halts s.
  Proof.
    intros Hs. exists 1. intros out. cbn [run_from].
    destruct (dstep s) as [[s1|[r s1]] ev] eqn:E; [discriminate|]. cbn. intros ->. exact (step_not_oof E).
  Qed.

  (* the lookahead of a loop-head state, and the term its action is taken on *)
  Definition rest_of (rec : bool) (w : list nat) : list nat := if rec then err_idx g :: w else w.

  Lemma rest_of_lt rec w : tokens_ok g w -> look g (rest_of rec w) < tc.
  Proof.
    intros Hw. destruct rec.
    - cbn. pose proof (sf_tc _ _ _ SF). unfold err_idx. lia.
    - apply (look_lt g sts tbl SF). exact Hw.
  Qed.

  (* one iteration = the action on the lookahead, taken in a state s1 that differs from s in the cursor only *)
  Lemma step_look s toks fl cur cs : stnd s toks fl -> ps_cursors s = cur :: cs ->
    (exists x, fst (dstep s) = inr x) \/
    (exists s1, fst (dstep s) = fst (dact s1 cur (look g (rest_of (ps_rec s) (terms toks)))) /\
                ps_cursors s1 = ps_cursors s /\ ps_values s1 = ps_values s /\
                ps_rec s1 = ps_rec s /\ ps_cons s1 = ps_cons s /\ stnd s1 toks fl /\
                (ps_rec s = false -> ftch s1 toks fl)).
  Proof.
    intros Hp Hcs. destruct (ps_rec s) eqn:Hr.
    - right. exists s. rewrite (step_rec Hr Hcs). cbn [look hd].
      do 5 (split; [auto|]). split; [exact Hp|]. intros; discriminate.
    - pose proof (gct_spec_holds tree unit g opts buf lexer s) as Hsp.
      destruct (dgct s) as [[s1 ot] ev] eqn:Eg. destruct (gct_stacks Hsp) as (H1 & H2 & _ & H3 & H4).
      apply (gct_stands Hr Hp) in Hsp. destruct ot as [t|].
      + destruct Hsp as (-> & Hf). right. exists s1. rewrite (step_gct Hcs Eg). cbn [fst].
        do 5 (split; [auto; congruence|]). split; [exact (SFetched Hf)|auto].
      + left. rewrite (step_lexfail Hcs Eg). eexists. reflexivity.
  Qed.

  (* the action of the tree instance on a non-error cell, by its kind *)
  Lemma act_red s1 cur t e r rest c' :
    cell tbl cur (nterm_count g + t) = inl e -> e_kind e = KReduce -> e_arg e = Some r ->
    mreduce g tbl (ps_cursors s1) (ps_values s1) rest r = Next c' ->
    exists s3, fst (dact s1 cur t) = inl s3 /\ ps_cursors s3 = fst (fst c') /\ ps_values s3 = snd (fst c') /\
               ps_rec s3 = ps_rec s1 /\ same_cur s1 s3.
  Proof.
    intros Hc Hk Ha Hm. rewrite (act_action _ _ _ _ _ _ _ _ _ s1 cur t e Hc) by congruence. unfold plain_action. rewrite Hk, Ha.
    rewrite reduce_eq, clr_cursors, clr_values.
    pose proof (mreduce_decide g tbl (ps_cursors s1) (ps_values s1) rest r) as Hrs.
    destruct (decide_reduce g tbl None (ps_cursors s1) (length (ps_values s1)) r) as [[ri nst]|x]; [|destruct Hrs; congruence].
    rewrite Hm in Hrs. injection Hrs as ->. eexists. split; [reflexivity|].
    (* the reduce replaces the two stacks and the context only *)
    unfold reduced, rlf. cbn [fst snd]. simp_ps. do 3 (split; [reflexivity|]). repeat split; simp_ps; reflexivity.
  Qed.

  Lemma act_shift s1 cur t e nst toks fl :
    cell tbl cur (nterm_count g + t) = inl e -> e_kind e = KShift -> e_arg e = Some nst ->
    ftch s1 toks fl ->
    exists s2, fst (dact s1 cur t) = inl s2 /\ ps_cursors s2 = nst :: ps_cursors s1 /\
               ps_values s2 = Leaf t :: ps_values s1 /\ ps_rec s2 = ps_rec s1 /\ ps_cons s2 = false /\
               stnd s2 (tl toks) fl.
  Proof.
    intros Hc Hk Ha Hf. rewrite (act_action _ _ _ _ _ _ _ _ _ s1 cur t e Hc) by congruence. unfold plain_action. rewrite Hk, Ha.
    cbn [full]. replace (Nat.ltb (length buf) (ps_end (clr s1))) with false
      by (symmetry; apply Nat.ltb_ge; rewrite clr_end; exact (stands_end_le (SFetched Hf))).
    eexists. split; [reflexivity|]. simp_ps. do 4 (split; [reflexivity|]).
    apply (fetched_consume Hf); repeat split; simp_ps; reflexivity.
  Qed.

  Lemma act_shift_err s1 cur t e nst :
    cell tbl cur (nterm_count g + t) = inl e -> e_kind e = KShiftErr -> e_arg e = Some nst ->
    exists s2, fst (dact s1 cur t) = inl s2 /\ ps_cursors s2 = nst :: ps_cursors s1 /\
               ps_values s2 = Leaf (err_idx g) :: ps_values s1 /\ ps_rec s2 = false /\ ps_cons s2 = true /\ same_cur s1 s2.
  Proof.
    intros Hc Hk Ha. rewrite (act_action _ _ _ _ _ _ _ _ _ s1 cur t e Hc) by congruence. unfold plain_action. rewrite Hk, Ha.
    cbn [full]. unfold spec_shift_err. cbn [fst]. eexists. split; [reflexivity|]. simp_ps.
    do 4 (split; [reflexivity|]). repeat split; simp_ps; reflexivity.
  Qed.

  Lemma act_succ s1 cur t e : cell tbl cur (nterm_count g + t) = inl e -> e_kind e = KSuccess ->
    exists x, fst (dact s1 cur t) = inr x.
  Proof.
    intros Hc Hk. rewrite (act_action _ _ _ _ _ _ _ _ _ s1 cur t e Hc) by congruence. unfold plain_action. rewrite Hk.
    destruct (rev (ps_values (clr s1))); eexists; reflexivity.
  Qed.

  (* the invariant of loop-head states *)
  Definition DI (s : dstate) (toks : list tok) (fl : bool) : Prop :=
    stnd s toks fl /\ tokens_ok g (terms toks) /\ MInv g sts (ps_cursors s) (ps_values s).

  (* the driver follows the machine: the reductions, then the shift of the lookahead or the accept cell *)
  Lemma fin_halts s toks fl : DI s toks fl ->
    fin g tbl (ps_cursors s, ps_values s, rest_of (ps_rec s) (terms toks)) ->
    (forall s2, DI s2 (if ps_rec s then toks else tl toks) fl -> ps_rec s2 = false -> ps_cons s2 = ps_rec s ->
                (ps_rec s = false -> toks <> []) -> halts s2) ->
    halts s.
  Proof.
    intros HD (n & c1 & Hr & Hend) K. remember (ps_rec s) as rec eqn:Hrec in Hr, K. revert s HD Hrec Hr.
    (* by induction on the number of reductions; in both cases the iteration is the action on the lookahead *)
    induction n as [|n IH]; intros s HD Hrec Hr; cbn [rsteps] in Hr; pose proof HD as (Hp & Hw & HM);
      destruct (MInv_nonempty g sts tbl SF _ _ HM) as (cur & cs & Hcs & Hcur);
      (destruct (step_look s toks fl cur cs Hp Hcs) as [(x & Hx)|(s1 & Hs & H1 & H2 & H3 & H4 & Hp1 & Hready)];
       [eapply halts_inr; exact Hx|]); rewrite <- Hrec in Hs, Hready.
    - subst c1. destruct Hend as [(c2 & Hsh & Hne)|(cur' & ss' & e & Ecur & Ec & Ek)].
      + (* the shift *)
        destruct (mshift_inv g tbl _ _ _ _ Hsh) as (cur' & cs' & e & nst & Ecur & Ec & Ea & Ek & ->).
        pose proof (MInv_mshift g sts tbl SF _ _ _ _ _ _ HM (rest_of_lt _ _ Hw) Hsh) as HM2.
        rewrite Hcs in Ecur. inversion Ecur; subst cur' cs'. rewrite <- H1, <- H2 in HM2.
        destruct rec; cbn [rest_of look hd tl snd] in *.
        * (* recovery mode: the error symbol is shifted, consume mode begins *)
          rewrite Nat.eqb_refl in Ek.
          destruct (act_shift_err s1 cur _ e nst Ec Ek Ea) as (s2 & Hpa & G1 & G2 & G3 & G4 & Gp).
          rewrite Hpa in Hs. eapply halts_inl; [exact Hs|]. apply K; auto; [|intros; discriminate].
          split; [exact (stands_same Gp Hp1)|]. split; [exact Hw|].
          rewrite G1, G2. exact HM2.
        * (* a term is shifted *)
          pose proof (look_ne_err g sts tbl SF _ Hw) as Hnerr. apply Nat.eqb_neq in Hnerr. rewrite Hnerr in Ek.
          destruct (act_shift s1 cur _ e nst toks fl Ec Ek Ea (Hready eq_refl)) as (s2 & Hpa & G1 & G2 & G3 & G4 & Gp).
          rewrite Hpa in Hs. eapply halts_inl; [exact Hs|]. apply K; auto; [|congruence|intros _ E; apply Hne; now rewrite E].
          split; [exact Gp|]. split; [rewrite terms_tl; exact (Forall_tl _ _ Hw)|].
          rewrite G1, G2. exact HM2.
      + (* the accept cell *)
        rewrite Hcs in Ecur. inversion Ecur; subst cur' ss'.
        destruct (act_succ s1 cur _ e Ec Ek) as (x & Hx). rewrite Hx in Hs. eapply halts_inr; exact Hs.
    - (* a reduction *)
      destruct Hr as ([[ss0 trs0] rest0] & Hm & Hr).
      destruct (MInv_mred g sts tbl SF _ _ _ _ _ _ HM (rest_of_lt _ _ Hw) Hm) as [-> HM3].
      destruct (mred_inv g tbl _ _ _ _ Hm) as (cur' & cs' & e & r & Ecur & Ec & Ek & Ea & Emr).
      rewrite Hcs in Ecur. inversion Ecur; subst cur' cs'.
      destruct (act_red s1 cur _ e r (rest_of rec (terms toks)) (ss0, trs0, rest_of rec (terms toks)) Ec Ek Ea) as (s3 & Hpa & G1 & G2 & G3 & Gp).
      { rewrite H1, H2. exact Emr. }
      rewrite Hpa in Hs. cbn [fst snd] in G1, G2. eapply halts_inl; [exact Hs|].
      apply (IH s3); [|congruence|rewrite G1, G2; exact Hr].
      split; [exact (stands_same Gp Hp1)|]. split; [exact Hw|].
      rewrite G1, G2. exact HM3.
  Qed.

  (* a state outside recovery mode (normal or consume mode) *)
  Lemma nc_step toks fl :
    (forall s' toks', length toks' < length toks -> ps_rec s' = false -> DI s' toks' fl -> halts s') ->
    forall s, ps_rec s = false -> DI s toks fl ->
      (ps_cons s = false -> forall sR, ps_rec sR = true -> ps_cons sR = false -> DI sR toks fl -> halts sR) ->
      halts s.
  Proof.
    intros IH s Hrec HD HR. pose proof HD as (Hp & Hw & HM).
    destruct (finish_or_error g sts tbl Hval Hgen Hnonempty Hred Hprod _ _ _ HM (rest_of_lt (ps_rec s) _ Hw))
      as (cur & cs & Hcs & [(e & Hc & Ek)|Hfin]).
    - (* error cell *)
      rewrite Hrec in Hc. cbn [rest_of] in Hc. set (w := terms toks) in *.
      destruct (step_look s toks fl cur cs Hp Hcs) as [(x & Hx)|(s1 & Hs & H1 & H2 & H3 & H4 & Hp1 & Hready)].
      { eapply halts_inr; exact Hx. }
      fold w in Hs. rewrite Hrec in Hs. cbn [rest_of] in Hs. rewrite act_eq, (decide_error s1 Hc Ek) in Hs.
      pose proof (proj1 (Hready Hrec)) as Htm. fold w (look g w) in Htm.
      destruct (ps_cons s1) eqn:Hcn.
      + (* consume mode: discard the pending term, or give up at <eof> *)
        rewrite Htm in Hs. destruct (Nat.eqb (look g w) (eof_idx g)) eqn:Eeof; cbn [perform fst] in Hs.
        * eapply halts_inr; exact Hs.
        * eapply halts_inl; [exact Hs|].
          assert (Hwne : toks <> []) by (intros ->; cbn in Eeof; rewrite Nat.eqb_refl in Eeof; discriminate).
          apply (IH _ (tl toks)).
          -- destruct toks; [contradiction|cbn; lia].
          -- simp_ps. congruence.
          -- split; [|split].
             ++ apply (fetched_consume (Hready Hrec)); repeat split; simp_ps; reflexivity.
             ++ rewrite terms_tl. exact (Forall_tl _ _ Hw).
             ++ simp_ps. rewrite H1, H2. exact HM.
      + (* normal mode: the error is reported, recovery mode begins *)
        rewrite H3, Hrec in Hs. cbn [perform fst] in Hs.
        eapply halts_inl; [exact Hs|]. apply HR; [congruence|reflexivity|reflexivity|].
        split; [|split; [exact Hw|]].
        * eapply stands_same; [|exact Hp1]; repeat split; reflexivity.
        * cbn [set_modes ps_cursors ps_values]. rewrite H1, H2. exact HM.
    - (* a non-error cell: reductions, then the shift of the pending term or the accept cell *)
      apply (fin_halts s toks fl HD Hfin). rewrite Hrec. intros s2 HD2 Hr2 _ Hne. apply (IH s2 (tl toks)); [|exact Hr2|exact HD2].
      specialize (Hne eq_refl). destruct toks; [contradiction|cbn; lia].
  Qed.

  (* recovery mode: pop until a state accepts the error symbol, act on it *)
  Lemma halts_R toks fl :
    (forall s2, ps_rec s2 = false -> ps_cons s2 = true -> DI s2 toks fl -> halts s2) ->
    forall k s, length (ps_cursors s) <= k -> ps_rec s = true -> ps_cons s = false -> DI s toks fl -> halts s.
  Proof.
    intros HC. induction k as [|k IH]; intros s Hlen Hrec Hcons HD; pose proof HD as (Hp & Hw & HM);
      destruct (finish_or_error g sts tbl Hval Hgen Hnonempty Hred Hprod _ _ _ HM (rest_of_lt (ps_rec s) _ Hw))
        as (cur & cs & Hcs & H).
    - rewrite Hcs in Hlen. cbn in Hlen. lia.
    - destruct H as [(e & Hc & Ek)|Hfin].
      + (* the top state rejects the error symbol: pop it, or give up *)
        rewrite Hrec in Hc. cbn [rest_of look hd] in Hc.
        assert (Hs : fst (dstep s) = fst (dact s cur (err_idx g))).
        { rewrite (step_rec Hrec Hcs). reflexivity. }
        rewrite act_eq, (decide_error s Hc Ek), Hcons, Hrec, Hcs in Hs. cbn [tl] in Hs.
        destruct cs as [|top cs']; cbn [perform fst] in Hs; unfold pop1 in Hs; rewrite Hcs in Hs; cbn [tl] in Hs.
        * eapply halts_inr; exact Hs.
        * eapply halts_inl; [exact Hs|]. apply IH.
          -- cbn [set_stacks ps_cursors]. rewrite Hcs in Hlen. cbn in Hlen |- *. lia.
          -- cbn. exact Hrec.
          -- cbn. exact Hcons.
          -- split; [|split; [exact Hw|]].
             ++ eapply stands_same; [|exact Hp]; repeat split; reflexivity.
             ++ cbn [set_stacks ps_cursors ps_values]. rewrite Hcs in HM. eapply (MInv_pop g sts); exact HM.
      + (* it accepts the error symbol: reductions, then the error token is shifted *)
        apply (fin_halts s toks fl HD Hfin). rewrite Hrec. intros s2 HD2 Hr2 Hc2 _. apply HC; assumption.
  Qed.

  Theorem halts_all : forall m s toks fl, length toks <= m -> ps_rec s = false -> DI s toks fl -> halts s.
  Proof.
    induction m as [m IHm] using lt_wf_ind. intros s toks fl Hlen Hrec HD.
    assert (IH : forall s' toks', length toks' < length toks -> ps_rec s' = false -> DI s' toks' fl -> halts s').
    { intros s' toks' Hlt. apply (IHm (length toks')); lia. }
    assert (HC : forall s2, ps_rec s2 = false -> ps_cons s2 = true -> DI s2 toks fl -> halts s2).
    { intros s2 H1 H2 H3. apply (nc_step toks fl IH s2 H1 H3). intros E; congruence. }
    apply (nc_step toks fl IH s Hrec HD). intros _ sR H1 H2 H3.
    apply (halts_R toks fl HC (length (ps_cursors sR)) sR); auto.
  Qed.

  Corollary halts_init toks fl : stream opts buf lexer sp0 0 toks fl -> tokens_ok g (terms toks) -> halts (init tt).
  Proof.
    intros Hst Hw. apply (halts_all (length toks) (init tt) toks fl (le_n _) eq_refl).
    split; [now apply stands_init|]. split; [exact Hw|]. cbn. apply MInv_init.
  Qed.
End DriverE.
