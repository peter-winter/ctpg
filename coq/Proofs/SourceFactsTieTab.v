(* Part of the tie between the hand-written model and the facts tools/source_facts.py read out of ctpg.hpp on this run. *)
(* the order of the table entry kinds (C01 C05 C11) *)
Require Import Ctpg.Base.Prelude Ctpg.Model.SourceFacts.

(* the enumerators of parse_table_entry_kind in the order of the source, each numbered by the position of its
   constructor in [kind] (Model/LRGen.v): the two orders are the same *)
Lemma tie_kind_order : sf_kind_order = [0; 1; 2; 3; 4; 5]. Proof. reflexivity. Qed.

