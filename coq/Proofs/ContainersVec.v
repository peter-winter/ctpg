(* cvector<T,N> and cqueue<T,N> (Model/Containers.v) refine lists / FIFO lists for every operation sequence, for every
   element type, with no bound on the run length; every array index used under the invariants is inside the array.
   [fold_left_sim] is the induction behind every run theorem, here and in ContainersBits.v and StackVectorLink.v: a
   relation between two states that every step keeps holds after every operation sequence. *)
From Ctpg Require Import Base.Prelude Proofs.ListFacts Model.Containers.
From Coq Require Import NArith ZArith Lia List.
Import ListNotations.

Lemma fold_left_sim : forall (S T O : Type) (R : S -> T -> Prop) (f : S -> O -> S) (g : T -> O -> T),
  (forall s t o, R s t -> R (f s o) (g t o)) ->
  forall ops s t, R s t -> R (fold_left f ops s) (fold_left g ops t).
Proof.
  intros S T O R f g Hstep ops; induction ops as [|o ops IH]; intros s t H; cbn [fold_left].
  - exact H.
  - apply IH, Hstep, H.
Qed.

Section Update.
Context {A : Type}.
Implicit Types l : list A.

Lemma firstn_update : forall (l : list A) n x, firstn n (update l n x) = firstn n l.
Proof.
  intros l; induction l as [|h t IH]; intros [|n] x; cbn [update firstn]; try reflexivity.
  rewrite IH. reflexivity.
Qed.

Lemma skipn_update_lt : forall l n m x, n < m -> skipn m (update l n x) = skipn m l.
Proof.
  intros l; induction l as [|h t IH]; intros n m x Hnm.
  - reflexivity.
  - destruct n as [|n]; destruct m as [|m]; cbn [update skipn]; try reflexivity; try lia.
    apply IH. lia.
Qed.

Lemma firstn_S_update : forall l n x, n < length l -> firstn (S n) (update l n x) = firstn n l ++ [x].
Proof.
  intros l n x Hn. rewrite (firstn_S_nth_error _ n x) by (apply nth_error_update_eq; exact Hn).
  rewrite firstn_update. reflexivity.
Qed.

Lemma nth_error_lt_some : forall l n, n < length l -> exists x, nth_error l n = Some x.
Proof.
  intros l n Hn. destruct (nth_error l n) as [x|] eqn:E.
  - exists x. reflexivity.
  - apply nth_error_None in E. lia.
Qed.
End Update.

Section Move.
Context {A : Type}.

Lemma length_cv_move : forall k (data : list A) from it, length (cv_move data from it k) = length data.
Proof.
  intros k; induction k as [|k IH]; intros data from it; cbn [cv_move].
  - reflexivity.
  - destruct (nth_error data it) as [x|].
    + rewrite IH. apply update_length.
    + reflexivity.
Qed.

(* moving the k elements at it .. it+k-1 down to from .. from+k-1 (from <= it, all inside the array) *)
Lemma cv_move_spec : forall k (data : list A) from it,
  from <= it -> it + k <= length data ->
  cv_move data from it k = firstn from data ++ firstn k (skipn it data) ++ skipn (from + k) data.
Proof.
  intros k; induction k as [|k IH]; intros data from it Hfi Hlen; cbn [cv_move].
  - rewrite Nat.add_0_r. cbn [firstn app]. symmetry. apply firstn_skipn.
  - destruct (nth_error_lt_some data it) as [x Hx]; [lia|].
    rewrite Hx. rewrite IH; [| lia | rewrite update_length; lia].
    rewrite firstn_S_update by lia.
    rewrite !skipn_update_lt by lia.
    rewrite (skipn_nth_error_cons data it x Hx). rewrite firstn_cons.
    rewrite <- app_assoc. cbn [app].
    replace (S from + k) with (from + S k) by lia. reflexivity.
Qed.

(* the first s elements after the elements at from .. to-1 have been overwritten by those at to .. s-1 *)
Lemma cv_move_firstn : forall (data : list A) from to s,
  from <= to <= s -> s <= length data ->
  firstn (from + (s - to)) (cv_move data from to (s - to)) = firstn from (firstn s data) ++ skipn to (firstn s data).
Proof.
  intros data from to s Hft Hs. rewrite cv_move_spec by lia.
  rewrite app_assoc, firstn_app.
  replace (length (firstn from data ++ firstn (s - to) (skipn to data))) with (from + (s - to))
    by (rewrite app_length, !firstn_length, skipn_length; lia).
  rewrite Nat.sub_diag, firstn_all2 by (rewrite app_length, !firstn_length, skipn_length; lia).
  cbn [firstn]. rewrite app_nil_r, firstn_firstn, skipn_firstn_comm.
  replace (Nat.min from s) with from by lia. reflexivity.
Qed.
End Move.

Section CVector.
Context {A : Type}.
Implicit Types c : cvector A.

Lemma cv_abs_length : forall c, cv_wf c -> length (cv_abs c) = N.to_nat (cv_size c).
Proof.
  intros c [Hlen Hsz]. unfold cv_abs. rewrite firstn_length. lia.
Qed.

Lemma cv_new_wf : forall cap (d : A), cv_wf (cv_new cap d).
Proof.
  intros cap d. unfold cv_wf, cv_new; cbn [cv_data cv_cap cv_size]. rewrite repeat_length. lia.
Qed.

Lemma cv_new_abs : forall cap (d : A), cv_abs (cv_new cap d) = [].
Proof. intros cap d. reflexivity. Qed.

Theorem cv_push_never_undef : forall c x, cv_push c x <> Undef.
Proof.
  intros c x. unfold cv_push. destruct (cv_cap c <=? cv_size c)%N; discriminate.
Qed.

Theorem cv_push_throws_iff_full : forall c x,
  cv_wf c -> (cv_push c x = Throw <-> length (cv_abs c) = N.to_nat (cv_cap c)).
Proof.
  intros c x Hwf. rewrite (cv_abs_length c Hwf). destruct Hwf as [Hlen Hsz].
  unfold cv_push. destruct (N.leb_spec (cv_cap c) (cv_size c)) as [H|H].
  - split; [intros _; lia | reflexivity].
  - split; [discriminate | intros E; lia].
Qed.

Theorem cv_push_in_bounds : forall c c' x,
  cv_wf c -> cv_push c x = Ok c' ->
  (N.to_nat (cv_size c) < length (cv_data c))%nat /\ cv_wf c' /\ cv_abs c' = cv_abs c ++ [x].
Proof.
  intros c c' x [Hlen Hsz] Hp. unfold cv_push in Hp.
  destruct (N.leb_spec (cv_cap c) (cv_size c)) as [H|H]; [discriminate Hp|].
  injection Hp as <-.
  assert (Hin : N.to_nat (cv_size c) < length (cv_data c)) by lia.
  split; [exact Hin|]. split.
  - unfold cv_wf; cbn [cv_data cv_cap cv_size]. rewrite update_length. lia.
  - unfold cv_abs; cbn [cv_data cv_cap cv_size].
    replace (N.to_nat (cv_size c + 1)) with (S (N.to_nat (cv_size c))) by lia.
    apply firstn_S_update. exact Hin.
Qed.

Theorem cv_get_spec : forall c i d,
  cv_wf c -> (i < cv_size c)%N -> cv_get c i = Ok (nth (N.to_nat i) (cv_abs c) d).
Proof.
  intros c i d [Hlen Hsz] Hi. unfold cv_get, cv_abs.
  destruct (nth_error_lt_some (cv_data c) (N.to_nat i)) as [x Hx]; [lia|].
  rewrite Hx. f_equal. symmetry. apply nth_error_nth.
  rewrite nth_error_firstn_lt by lia. exact Hx.
Qed.

Theorem cv_back_spec : forall c d,
  cv_wf c -> cv_size c <> 0%N -> cv_back c = Ok (last (cv_abs c) d).
Proof.
  intros c d [Hlen Hsz] Hnz. unfold cv_back.
  destruct (N.eqb_spec (cv_size c) 0) as [E|_]; [contradiction|].
  unfold cv_get, cv_abs.
  destruct (nth_error_lt_some (cv_data c) (N.to_nat (cv_size c - 1))) as [x Hx]; [lia|].
  rewrite Hx. f_equal.
  replace (N.to_nat (cv_size c)) with (S (N.to_nat (cv_size c - 1))) by lia.
  rewrite (firstn_S_nth_error _ _ _ Hx). rewrite last_last. reflexivity.
Qed.

(* c with the elements at from .. to-1 erased *)
Definition cv_erased c (from to : nat) : cvector A :=
  {| cv_cap := cv_cap c;
     cv_data := cv_move (cv_data c) from to (N.to_nat (cv_size c) - to);
     cv_size := N.of_nat (from + (N.to_nat (cv_size c) - to)) |}.

(* erase with its clamps resolved.  Z.to_nat absorbs the clamp of `first` to begin(); the cases are decided on the
   integers, before anything is converted, so that each arithmetic side condition is about f, t and the size alone *)
Lemma cv_erase_eq : forall c f t,
  cv_erase c f t =
  if (t <=? f)%Z then Ok c
  else if (Z.min (Z.of_N (cv_size c)) t <? Z.max 0 f)%Z then Undef
  else Ok (cv_erased c (Z.to_nat f) (Nat.min (N.to_nat (cv_size c)) (Z.to_nat t))).
Proof.
  intros c f t. unfold cv_erase. cbv zeta. rewrite Z.ltb_antisym, Bool.negb_involutive.
  destruct (t <=? f)%Z; [reflexivity|].
  replace (if (f <? 0)%Z then 0%Z else f) with (Z.max 0 f) by (destruct (Z.ltb_spec f 0); lia).
  replace (if (Z.of_N (cv_size c) <? t)%Z then Z.of_N (cv_size c) else t) with (Z.min (Z.of_N (cv_size c)) t)
    by (destruct (Z.ltb_spec (Z.of_N (cv_size c)) t); lia).
  destruct (Z.ltb_spec (Z.min (Z.of_N (cv_size c)) t) (Z.max 0 f)) as [H|H]; [reflexivity|].
  unfold cv_erased.
  replace (Z.to_nat f) with (Z.to_nat (Z.max 0 f)) by lia.
  replace (Nat.min (N.to_nat (cv_size c)) (Z.to_nat t)) with (Z.to_nat (Z.min (Z.of_N (cv_size c)) t)) by lia.
  (* from here on the clamped offsets are two integers with 0 <= from <= to <= size *)
  pose proof (Z.le_max_l 0 f) as H0. pose proof (Z.le_min_l (Z.of_N (cv_size c)) t) as Hs.
  generalize dependent (Z.max 0 f). generalize dependent (Z.min (Z.of_N (cv_size c)) t). intros to Hs from H H0.
  do 2 f_equal. lia.
Qed.

Lemma cv_erased_spec : forall c from to,
  cv_wf c -> from <= to <= N.to_nat (cv_size c) ->
  cv_wf (cv_erased c from to) /\ cv_abs (cv_erased c from to) = firstn from (cv_abs c) ++ skipn to (cv_abs c).
Proof.
  intros c from to [Hlen Hsz] Hft. split.
  - unfold cv_wf; cbn [cv_erased cv_data cv_cap cv_size]. rewrite length_cv_move. lia.
  - unfold cv_abs; cbn [cv_erased cv_data cv_cap cv_size]. rewrite Nat2N.id. apply cv_move_firstn; lia.
Qed.

Lemma cv_erase_spec : forall c f t,
  cv_wf c ->
  cv_wf (keep c (cv_erase c f t)) /\ cv_cap (keep c (cv_erase c f t)) = cv_cap c /\
  cv_abs (keep c (cv_erase c f t)) = lv_step (cv_cap c) (cv_abs c) (VErase f t).
Proof.
  intros c f t Hwf. unfold lv_step. rewrite (cv_abs_length c Hwf), cv_erase_eq, (Z.ltb_antisym t f), Bool.negb_involutive.
  destruct (Z.leb_spec t f) as [Htf|Hft]; [split; [exact Hwf | split; reflexivity]|].
  set (from := Z.to_nat f). set (to := Nat.min (N.to_nat (cv_size c)) (Z.to_nat t)).
  destruct (Z.ltb_spec (Z.min (Z.of_N (cv_size c)) t) (Z.max 0 f)) as [H|H]; cbn [keep].
  - (* Undef: the vector is left alone.  The list specification either sees to < from as well, or (t <= 0) erases
       the empty range at 0 *)
    split; [exact Hwf | split; [reflexivity|]].
    destruct (Nat.ltb_spec to from) as [_|Hge]; [reflexivity|].
    replace to with from by lia. symmetry. apply firstn_skipn.
  - assert (Hft' : from <= to <= N.to_nat (cv_size c)) by lia.
    rewrite (proj2 (Nat.ltb_ge to from)) by apply Hft'.
    destruct (cv_erased_spec c from to Hwf Hft') as [Hwf' Habs]. split; [exact Hwf' | split; [reflexivity | exact Habs]].
Qed.

(* on a list, erasing the range end() - n .. end() keeps the first size - n elements *)
Lemma lv_erase_last : forall cap (l : list A) (s n : N),
  length l = N.to_nat s ->
  lv_step cap l (VErase (Z.of_N s - Z.of_N n) (Z.of_N s)) = lv_step cap l (VEraseLast n).
Proof.
  intros cap l s n Hl. cbn [lv_step]. destruct (Z.ltb_spec (Z.of_N s - Z.of_N n) (Z.of_N s)) as [H|H]; cbn [negb].
  - rewrite Nat.min_l by lia. rewrite (proj2 (Nat.ltb_ge _ _)) by lia.
    rewrite skipn_all, app_nil_r. f_equal. lia.
  - rewrite firstn_all2 by lia. reflexivity.
Qed.

Theorem cv_erase_last_spec : forall c c' n,
  cv_wf c -> cv_erase c (Z.of_N (cv_size c) - Z.of_N n) (Z.of_N (cv_size c)) = Ok c' ->
  cv_wf c' /\ cv_cap c' = cv_cap c /\ cv_abs c' = firstn (length (cv_abs c) - N.to_nat n) (cv_abs c).
Proof.
  intros c c' n Hwf He.
  pose proof (cv_erase_spec c (Z.of_N (cv_size c) - Z.of_N n) (Z.of_N (cv_size c)) Hwf) as H.
  rewrite He, lv_erase_last in H by (apply cv_abs_length; exact Hwf). exact H.
Qed.

(* erase(end() - n, end()) neither throws nor leaves the array, whatever n is (the code clamps `first` to begin()) *)
Lemma cv_erase_last_ok : forall c n,
  exists c', cv_erase c (Z.of_N (cv_size c) - Z.of_N n) (Z.of_N (cv_size c)) = Ok c'.
Proof.
  intros c n. rewrite cv_erase_eq.
  destruct (Z.of_N (cv_size c) <=? Z.of_N (cv_size c) - Z.of_N n)%Z; [eexists; reflexivity|].
  rewrite (proj2 (Z.ltb_ge _ _)) by lia. eexists; reflexivity.
Qed.

Lemma cv_step_spec : forall c o,
  cv_wf c ->
  cv_wf (cv_step c o) /\ cv_cap (cv_step c o) = cv_cap c /\
  cv_abs (cv_step c o) = lv_step (cv_cap c) (cv_abs c) o.
Proof.
  intros c o Hwf. pose proof (cv_abs_length c Hwf) as Habs.
  destruct o as [x| | |n|f t]; cbn [cv_step].
  - (* push *)
    cbn [lv_step]. rewrite Habs, N2Nat.id.
    generalize (cv_push_in_bounds c). unfold cv_push. destruct (cv_cap c <=? cv_size c)%N; intros Hin; cbn [keep].
    + split; [exact Hwf | split; reflexivity].
    + destruct (Hin _ x Hwf eq_refl) as [_ [Hwf' Habs']]. split; [exact Hwf' | split; [reflexivity | exact Habs']].
  - (* pop *)
    cbn [lv_step]. destruct Hwf as [Hlen Hsz].
    destruct (N.eqb_spec (cv_size c) 0) as [E|E].
    + split; [split; assumption|]. split; [reflexivity|].
      unfold cv_abs. rewrite E. reflexivity.
    + unfold cv_pop. destruct (N.eqb_spec (cv_size c) 0) as [E'|_]; [contradiction|].
      split; [|split; [reflexivity|]].
      * unfold cv_wf; cbn [cv_data cv_cap cv_size]. split; [assumption | lia].
      * unfold cv_abs; cbn [cv_data cv_cap cv_size].
        replace (N.to_nat (cv_size c)) with (S (N.to_nat (cv_size c - 1))) by lia.
        rewrite removelast_firstn by lia. reflexivity.
  - (* clear *)
    destruct Hwf as [Hlen Hsz]. split; [|split; reflexivity].
    unfold cv_wf, cv_clear; cbn [cv_data cv_cap cv_size]. split; [assumption | lia].
  - (* erase(end() - n, end()) *)
    rewrite <- (lv_erase_last (cv_cap c) (cv_abs c) (cv_size c) n Habs). apply cv_erase_spec. exact Hwf.
  - (* erase(first, last) *)
    apply cv_erase_spec. exact Hwf.
Qed.
End CVector.

(* what a run preserves: the invariant, the capacity, and the contents as the list specification computes them *)
Definition cv_sim {A} (cap : N) (c : cvector A) (l : list A) : Prop := cv_wf c /\ cv_cap c = cap /\ cv_abs c = l.

Lemma cv_run_sim : forall A cap (d : A) ops, cv_sim cap (cv_run cap d ops) (fold_left (lv_step cap) ops []).
Proof.
  intros A cap d ops. apply (fold_left_sim _ _ _ (cv_sim cap)).
  - intros c l o (Hwf & <- & <-). apply cv_step_spec. exact Hwf.
  - split; [apply cv_new_wf | split; reflexivity].
Qed.

Theorem cv_run_wf : forall A cap (d : A) ops, cv_wf (cv_run cap d ops).
Proof. intros A cap d ops. apply (cv_run_sim A cap d ops). Qed.

Theorem cv_run_refines : forall A cap (d : A) ops, cv_abs (cv_run cap d ops) = fold_left (lv_step cap) ops [].
Proof. intros A cap d ops. apply (cv_run_sim A cap d ops). Qed.

(* pop_back on an empty vector wraps current_size (which is why cv_step's VPop guards it) *)
Example cv_pop_empty_wraps : cv_size (cv_pop (cv_new 4 0%N)) = size_max.
Proof. vm_compute. reflexivity. Qed.

(* the ring invariant; with cq_size q <> 0 (top, pop) or cq_size q < cq_cap q (push) the capacity is non-zero, so
   cq_start / cq_end - the only array indices the code uses - are inside the array *)
Definition cq_wf {A} (q : cqueue A) : Prop :=
  length (cq_data q) = N.to_nat (cq_cap q) /\
  (cq_size q <= cq_cap q)%N /\
  (cq_cap q = 0%N \/ (cq_start q < cq_cap q /\ cq_end q < cq_cap q))%N /\
  (cq_cap q = 0 \/ cq_end q = (cq_start q + cq_size q) mod cq_cap q)%N.

(* `if (++i == N) i = 0` is the successor modulo N *)
Lemma wrap_succ_N : forall i cap : N, (i < cap)%N -> (if i + 1 =? cap then 0 else i + 1)%N = ((i + 1) mod cap)%N.
Proof.
  intros i cap Hi. destruct (N.eqb_spec (i + 1) cap) as [E|E].
  - rewrite E. symmetry. apply N.mod_same. lia.
  - symmetry. apply N.mod_small. lia.
Qed.

Lemma wrap_succ : forall i cap, i < cap -> (if Nat.eqb (S i) cap then 0 else S i) = S i mod cap.
Proof.
  intros i cap Hi. destruct (Nat.eqb_spec (S i) cap) as [E|E].
  - rewrite E. symmetry. apply Nat.mod_same. lia.
  - symmetry. apply Nat.mod_small. lia.
Qed.

(* fewer than cap steps round the ring do not come back to the start *)
Lemma ring_neq : forall s k cap, s < cap -> 0 < k < cap -> (s + k) mod cap <> s.
Proof.
  intros s k cap Hs Hk. destruct (Nat.lt_ge_cases (s + k) cap) as [H|H].
  - rewrite Nat.mod_small by exact H. lia.
  - rewrite <- (Nat.mod_unique (s + k) cap 1 (s + k - cap)) by lia. lia.
Qed.

Section CQueue.
Context {A : Type}.
Implicit Types q : cqueue A.

Lemma cq_take_S : forall (data : list A) cap s n x,
  s < cap -> nth_error data s = Some x -> cq_take data cap s (S n) = x :: cq_take data cap (S s mod cap) n.
Proof. intros data cap s n x Hs Hx. cbn [cq_take]. rewrite Hx, wrap_succ by exact Hs. reflexivity. Qed.

Lemma cq_take_length : forall n (data : list A) cap s,
  length data = cap -> s < cap -> length (cq_take data cap s n) = n.
Proof.
  intros n; induction n as [|n IH]; intros data cap s Hlen Hs.
  - reflexivity.
  - destruct (nth_error_lt_some data s) as [x Hx]; [lia|].
    rewrite (cq_take_S data cap s n x Hs Hx). cbn [length].
    rewrite IH; [reflexivity | exact Hlen | apply Nat.mod_upper_bound; lia].
Qed.

(* writing at the end index of a non-full ring appends to the contents *)
Lemma cq_take_snoc : forall n (data : list A) cap s x,
  length data = cap -> s < cap -> n < cap ->
  cq_take (update data ((s + n) mod cap) x) cap s (S n) = cq_take data cap s n ++ [x].
Proof.
  intros n; induction n as [|n IH]; intros data cap s x Hlen Hs Hn.
  - rewrite Nat.add_0_r, Nat.mod_small by exact Hs.
    rewrite (cq_take_S _ cap s 0 x Hs) by (apply nth_error_update_eq; lia). reflexivity.
  - destruct (nth_error_lt_some data s) as [y Hy]; [lia|].
    rewrite (cq_take_S _ cap s (S n) y Hs)
      by (rewrite nth_error_update_neq by (apply ring_neq; lia); exact Hy).
    rewrite (cq_take_S data cap s n y Hs Hy). cbn [app]. f_equal.
    replace ((s + S n) mod cap) with ((S s mod cap + n) mod cap)
      by (rewrite Nat.add_mod_idemp_l by lia; f_equal; lia).
    apply IH; [exact Hlen | apply Nat.mod_upper_bound; lia | lia].
Qed.

(* the invariant of a queue of non-zero capacity, without its disjunctions *)
Lemma cq_wf_pos : forall q, cq_wf q -> cq_cap q <> 0%N ->
  (cq_start q < cq_cap q)%N /\ cq_end q = ((cq_start q + cq_size q) mod cq_cap q)%N.
Proof. intros q (_ & _ & [Hc|[Hs _]] & [Hc'|He]) Hcap; try contradiction. split; assumption. Qed.

Lemma cq_wf_intro : forall q,
  length (cq_data q) = N.to_nat (cq_cap q) -> (cq_size q <= cq_cap q)%N -> cq_cap q <> 0%N ->
  (cq_start q < cq_cap q)%N -> cq_end q = ((cq_start q + cq_size q) mod cq_cap q)%N -> cq_wf q.
Proof.
  intros q Hlen Hsz Hcap Hs He. split; [exact Hlen|]. split; [exact Hsz|]. split; right; [|exact He].
  split; [exact Hs|]. rewrite He. apply N.mod_lt. exact Hcap.
Qed.

Lemma cq_abs_length : forall q, cq_wf q -> length (cq_abs q) = N.to_nat (cq_size q).
Proof.
  intros q Hwf. unfold cq_abs. destruct (N.eq_dec (cq_cap q) 0) as [Hc|Hc].
  - destruct Hwf as (_ & Hsz & _). replace (N.to_nat (cq_size q)) with 0%nat by lia. reflexivity.
  - apply cq_take_length; [apply Hwf | pose proof (cq_wf_pos q Hwf Hc); lia].
Qed.

Lemma cq_new_wf : forall cap (d : A), cq_wf (cq_new cap d).
Proof.
  intros cap d. destruct (N.eq_dec cap 0) as [E|E].
  - unfold cq_wf, cq_new; cbn [cq_data cq_cap cq_start cq_end cq_size]. rewrite repeat_length.
    split; [reflexivity|]. split; [lia|]. split; left; exact E.
  - apply cq_wf_intro; cbn [cq_new cq_data cq_cap cq_start cq_end cq_size]; try lia.
    + apply repeat_length.
    + symmetry. apply N.mod_small. lia.
Qed.

Lemma cq_new_abs : forall cap (d : A), cq_abs (cq_new cap d) = [].
Proof. intros cap d. reflexivity. Qed.

(* the head of a non-empty queue is the element at cq_start, and the rest starts at its successor *)
Lemma cq_abs_cons : forall q, cq_wf q -> cq_size q <> 0%N ->
  exists x, nth_error (cq_data q) (N.to_nat (cq_start q)) = Some x /\
            cq_abs q = x :: cq_take (cq_data q) (N.to_nat (cq_cap q)) (N.to_nat ((cq_start q + 1) mod cq_cap q))
                                 (N.to_nat (cq_size q - 1)).
Proof.
  intros q Hwf Hnz. pose proof Hwf as (Hlen & Hsz & _).
  destruct (cq_wf_pos q Hwf) as [Hs _]; [lia|].
  destruct (nth_error_lt_some (cq_data q) (N.to_nat (cq_start q))) as [x Hx]; [lia|].
  exists x. split; [exact Hx|]. unfold cq_abs.
  replace (N.to_nat (cq_size q)) with (S (N.to_nat (cq_size q - 1))) by lia.
  rewrite (cq_take_S _ _ _ _ x) by (lia || exact Hx).
  rewrite N2Nat.inj_mod, N2Nat.inj_add, Nat.add_1_r. reflexivity.
Qed.

Lemma cq_push_ok : forall q q' x,
  cq_wf q -> cq_push q x = Ok q' ->
  (N.to_nat (cq_end q) < length (cq_data q))%nat /\ cq_wf q' /\ cq_cap q' = cq_cap q /\ cq_abs q' = cq_abs q ++ [x].
Proof.
  intros q q' x Hwf Hp. pose proof Hwf as (Hlen & Hsz & _). unfold cq_push in Hp.
  destruct (N.leb_spec (cq_cap q) (cq_size q)) as [H|H]; [discriminate Hp|].
  injection Hp as <-.
  destruct (cq_wf_pos q Hwf) as [Hs He]; [lia|].
  assert (Hlt : (cq_end q < cq_cap q)%N) by (rewrite He; apply N.mod_lt; lia).
  split; [lia|]. split; [|split; [reflexivity|]].
  - apply cq_wf_intro; cbn [cq_data cq_cap cq_start cq_end cq_size]; try lia.
    + rewrite update_length. exact Hlen.
    + rewrite wrap_succ_N by exact Hlt. rewrite He, N.add_mod_idemp_l, N.add_assoc by lia. reflexivity.
  - unfold cq_abs; cbn [cq_data cq_cap cq_start cq_end cq_size].
    replace (N.to_nat (cq_size q + 1)) with (S (N.to_nat (cq_size q))) by lia.
    rewrite He, N2Nat.inj_mod, N2Nat.inj_add. apply cq_take_snoc; lia.
Qed.

Lemma cq_pop_ok : forall q q',
  cq_wf q -> cq_pop q = Ok q' -> cq_wf q' /\ cq_cap q' = cq_cap q /\ cq_abs q' = tl (cq_abs q).
Proof.
  intros q q' Hwf Hp. pose proof Hwf as (Hlen & Hsz & _). unfold cq_pop in Hp.
  destruct (N.eqb_spec (cq_size q) 0) as [Hz|Hz]; [discriminate Hp|].
  injection Hp as <-.
  destruct (cq_wf_pos q Hwf) as [Hs He]; [lia|]. rewrite wrap_succ_N by exact Hs.
  split; [|split; [reflexivity|]].
  - apply cq_wf_intro; cbn [cq_data cq_cap cq_start cq_end cq_size]; try lia.
    + apply N.mod_lt. lia.
    + rewrite He, N.add_mod_idemp_l by lia. f_equal. lia.
  - destruct (cq_abs_cons q Hwf Hz) as (x & _ & E). rewrite E. reflexivity.
Qed.

Theorem cq_push_throws_iff_full : forall q x,
  cq_wf q -> (cq_push q x = Throw <-> length (cq_abs q) = N.to_nat (cq_cap q)).
Proof.
  intros q x Hwf. rewrite (cq_abs_length q Hwf). destruct Hwf as [Hlen [Hsz _]].
  unfold cq_push. destruct (N.leb_spec (cq_cap q) (cq_size q)) as [H|H].
  - split; [intros _; lia | reflexivity].
  - split; [discriminate | intros E; lia].
Qed.

Theorem cq_pop_throws_iff_empty : forall q,
  cq_wf q -> (cq_pop q = Throw <-> cq_abs q = []).
Proof.
  intros q Hwf. rewrite <- length_zero_iff_nil, (cq_abs_length q Hwf).
  unfold cq_pop. destruct (N.eqb_spec (cq_size q) 0) as [Hz|Hz].
  - split; [intros _; lia | reflexivity].
  - split; [discriminate | intros E; lia].
Qed.

Theorem cq_push_never_undef : forall q x, cq_push q x <> Undef.
Proof. intros q x. unfold cq_push. destruct (cq_cap q <=? cq_size q)%N; discriminate. Qed.

Theorem cq_pop_never_undef : forall q, cq_pop q <> Undef.
Proof. intros q. unfold cq_pop. destruct (cq_size q =? 0)%N; discriminate. Qed.

Theorem cq_top_spec : forall q,
  cq_wf q -> (cq_abs q = [] -> cq_top q = Throw) /\ (forall x t, cq_abs q = x :: t -> cq_top q = Ok x).
Proof.
  intros q Hwf. pose proof (cq_abs_length q Hwf) as Habs.
  unfold cq_top. destruct (N.eqb_spec (cq_size q) 0) as [Hz|Hz].
  - split; [reflexivity|]. intros x t E. rewrite E in Habs. cbn [length] in Habs. lia.
  - destruct (cq_abs_cons q Hwf Hz) as (y & Hy & E). rewrite Hy, E.
    split; [discriminate|]. intros x t [= -> _]. reflexivity.
Qed.

Theorem cq_never_undef : forall q, cq_wf q -> cq_top q <> Undef.
Proof.
  intros q Hwf. unfold cq_top. destruct (N.eqb_spec (cq_size q) 0) as [Hz|Hz]; [discriminate|].
  destruct (cq_abs_cons q Hwf Hz) as (y & Hy & _). rewrite Hy. discriminate.
Qed.

Lemma cq_step_spec : forall q o,
  cq_wf q ->
  cq_wf (cq_step q o) /\ cq_cap (cq_step q o) = cq_cap q /\ cq_abs (cq_step q o) = lq_step (cq_cap q) (cq_abs q) o.
Proof.
  intros q o Hwf. destruct o as [x|]; cbn [cq_step lq_step].
  - rewrite (cq_abs_length q Hwf), N2Nat.id.
    generalize (cq_push_ok q). unfold cq_push. destruct (cq_cap q <=? cq_size q)%N; intros Hok; cbn [keep].
    + split; [exact Hwf | split; reflexivity].
    + apply (Hok _ x Hwf eq_refl).
  - generalize (cq_pop_ok q) (cq_pop_throws_iff_empty q Hwf) (cq_pop_never_undef q).
    destruct (cq_pop q) as [q'| |]; intros Hok Hthrow Hdef; cbn [keep].
    + apply (Hok q' Hwf eq_refl).
    + rewrite (proj1 Hthrow eq_refl). split; [exact Hwf | split; reflexivity].
    + contradiction Hdef. reflexivity.
Qed.
End CQueue.

Definition cq_sim {A} (cap : N) (q : cqueue A) (l : list A) : Prop := cq_wf q /\ cq_cap q = cap /\ cq_abs q = l.

Lemma cq_run_sim : forall A cap (d : A) ops, cq_sim cap (cq_run cap d ops) (fold_left (lq_step cap) ops []).
Proof.
  intros A cap d ops. apply (fold_left_sim _ _ _ (cq_sim cap)).
  - intros q l o (Hwf & <- & <-). apply cq_step_spec. exact Hwf.
  - split; [apply cq_new_wf | split; reflexivity].
Qed.

Theorem cq_run_wf : forall A cap (d : A) ops, cq_wf (cq_run cap d ops).
Proof. intros A cap d ops. apply (cq_run_sim A cap d ops). Qed.

Theorem cq_run_refines : forall A cap (d : A) ops, cq_abs (cq_run cap d ops) = fold_left (lq_step cap) ops [].
Proof. intros A cap d ops. apply (cq_run_sim A cap d ops). Qed.
Print Assumptions cv_run_refines.
Print Assumptions cq_run_refines.
