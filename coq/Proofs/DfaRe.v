(* Language theory for the derivative expressions of Valid/DfaValid.v: semantics, correctness of the smart
   constructors, of nullable / deriv / is_empty, and of the translation from Model.Dfa.regex. *)
Require Import Ctpg.Base.Prelude Ctpg.Proofs.ListFacts Ctpg.Model.Dfa Ctpg.Spec.Lang Ctpg.Valid.DfaValid.


Lemma re_eqb_eq : forall a b, re_eqb a b = true -> a = b.
Proof.
  induction a; destruct b; cbn; intros H; try discriminate; auto.
  - apply Nat.eqb_eq in H. subst. reflexivity.
  - apply andb_true_iff in H. destruct H as [H1 H2]. f_equal; auto.
  - apply andb_true_iff in H. destruct H as [H1 H2]. f_equal; auto.
  - f_equal; auto.
Qed.

Lemma vec_eqb_eq : forall a b, vec_eqb a b = true -> a = b.
Proof.
  unfold vec_eqb. induction a as [|x a IH]; destruct b as [|y b]; cbn; intros H; try discriminate; auto.
  apply andb_true_iff in H. destruct H as [H1 H2].
  apply re_eqb_eq in H1. subst. f_equal. auto.
Qed.

Lemma vec_mem_In : forall v l, vec_mem v l = true -> In v l.
Proof.
  unfold vec_mem. intros v l H. apply existsb_exists in H. destruct H as (w & Hin & He).
  apply vec_eqb_eq in He. subst. assumption.
Qed.

Lemma find_idx_some : forall s D i k, find_idx s D i = Some k -> i <= k /\ nth (k - i) D [] = s.
Proof.
  induction D as [|x D IH]; cbn; intros i k H; try discriminate.
  destruct (list_eqb Bool.eqb s x) eqn:E.
  - inversion H; subst. rewrite Nat.sub_diag. split; auto. symmetry. apply (list_eqb_spec bool Bool.eqb Bool.eqb_true_iff); auto.
  - apply IH in H. destruct H as [H1 H2]. split; [lia|].
    replace (k - i) with (S (k - S i)) by lia. exact H2.
Qed.

Lemma find_idx_in : forall s D i, In s D -> exists k, find_idx s D i = Some k.
Proof.
  induction D as [|x D IH]; cbn; intros i H; [contradiction|].
  destruct (list_eqb Bool.eqb s x) eqn:E; eauto.
  destruct H as [H|H]; auto.
  subst. rewrite (proj2 (list_eqb_spec bool Bool.eqb Bool.eqb_true_iff _ _) eq_refl) in E. discriminate.
Qed.

Section Lang.
Variable D : list charset.    (* the dictionary of Valid/DfaValid.v: [Chr k] denotes its entry k, [cset D k] *)

Inductive star (L : list nat -> Prop) : list nat -> Prop :=
| star0 : star L []
| starS u v : L u -> star L v -> star L (u ++ v).

Fixpoint lang (r : re) (s : list nat) : Prop :=
  match r with
  | Emp => False
  | Eps => s = []
  | Chr k => exists c, s = [c] /\ nth c (cset D k) false = true
  | Cat a b => exists u v, s = u ++ v /\ lang a u /\ lang b v
  | Alt a b => lang a s \/ lang b s
  | Star a => star (lang a) s
  end.

Lemma star_app : forall L u v, star L u -> star L v -> star L (u ++ v).
Proof.
  intros L u v Hu Hv. induction Hu as [|u1 u2 H1 _ IH]; [exact Hv|]. rewrite <- app_assoc. constructor; auto.
Qed.

Lemma star_one : forall (L : list nat -> Prop) u, L u -> star L u.
Proof. intros L u H. rewrite <- (app_nil_r u). constructor; [assumption | constructor]. Qed.

Lemma star_mono : forall (L M : list nat -> Prop), (forall s, L s -> M s) -> forall s, star L s -> star M s.
Proof. intros L M H s Hs. induction Hs; constructor; auto. Qed.

Lemma star_cons : forall (L : list nat -> Prop) c s, star L (c :: s) ->
  exists u v, s = u ++ v /\ L (c :: u) /\ star L v.
Proof.
  intros L c s H. remember (c :: s) as w eqn:E. revert c s E.
  induction H as [|u v Hu Hv IH]; intros c s E; [discriminate|].
  destruct u as [|x u]; cbn in E; [auto|]. inversion E; subst. exists u, v. auto.
Qed.

Lemma cat_assoc : forall a b c s, lang (Cat a (Cat b c)) s <-> lang (Cat (Cat a b) c) s.
Proof.
  intros a b c s. cbn [lang]. split.
  - intros (u & v & -> & Ha & v1 & v2 & -> & Hb & Hc).
    exists (u ++ v1), v2. rewrite app_assoc. eauto 8.
  - intros (u & v & -> & (u1 & u2 & -> & Ha & Hb) & Hc).
    exists u1, (u2 ++ v). rewrite app_assoc. eauto 8.
Qed.

Lemma cat_congr : forall a a' b b', (forall s, lang a s <-> lang a' s) -> (forall s, lang b s <-> lang b' s) ->
  forall s, lang (Cat a b) s <-> lang (Cat a' b') s.
Proof.
  intros a a' b b' Ha Hb s. cbn [lang].
  split; intros (u & v & -> & Hu & Hv); exists u, v; repeat split; auto; (apply Ha || apply Hb); auto.
Qed.

Lemma cat_app_ok : forall a b s, lang (cat_app a b) s <-> lang (Cat a b) s.
Proof.
  induction a; intros b0 s; cbn [cat_app]; try reflexivity.
  rewrite <- cat_assoc. apply cat_congr; [reflexivity | intros s'; apply IHa2].
Qed.

Lemma cat_Eps_l : forall b s, lang b s <-> lang (Cat Eps b) s.
Proof.
  intros. cbn [lang]. split.
  - intros H. exists [], s. auto.
  - intros (u & v & -> & -> & Hv). exact Hv.
Qed.
Lemma cat_Eps_r : forall a s, lang a s <-> lang (Cat a Eps) s.
Proof.
  intros. cbn [lang]. split.
  - intros H. exists s, []. rewrite app_nil_r. auto.
  - intros (u & v & -> & Hu & ->). rewrite app_nil_r. exact Hu.
Qed.

Lemma mk_cat_ok : forall a b s, lang (mk_cat a b) s <-> lang (Cat a b) s.
Proof.
  intros a b s.
  destruct a; destruct b; cbn [mk_cat];
    first [ apply cat_Eps_l | apply cat_Eps_r | apply cat_app_ok | cbn [lang]; split; [intros [] | intros (u & v & _ & H); tauto] ].
Qed.

Lemma alt_mem_ok : forall x c s, alt_mem x c = true -> lang x s -> lang c s.
Proof.
  induction c; cbn [alt_mem]; intros s H Hx;
    try (apply re_eqb_eq in H; subst; exact Hx).
  apply orb_true_iff in H. destruct H as [H|H].
  - apply re_eqb_eq in H. subst. left. auto.
  - right. auto.
Qed.

Lemma alt_end_ok : forall c x s, lang (alt_end c x) s <-> lang c s \/ lang x s.
Proof.
  induction c; intros x s; cbn [alt_end]; try reflexivity.
  - cbn [lang]. tauto.
  - cbn [lang]. rewrite IHc2. tauto.
Qed.

Lemma alt_snoc_ok : forall c x s, lang (alt_snoc c x) s <-> lang c s \/ lang x s.
Proof.
  intros c x s.
  assert (G : lang (if alt_mem x c then c else alt_end c x) s <-> lang c s \/ lang x s).
  { destruct (alt_mem x c) eqn:E.
    - split; auto. intros [H|H]; auto. eapply alt_mem_ok; eauto.
    - apply alt_end_ok. }
  destruct x; cbn [alt_snoc]; try exact G.
  cbn [lang]. tauto.
Qed.

Lemma alt_add_ok : forall b a s, lang (alt_add a b) s <-> lang a s \/ lang b s.
Proof.
  induction b; intros a0 s; cbn [alt_add]; try apply alt_snoc_ok.
  rewrite IHb2, alt_snoc_ok. cbn [lang]. tauto.
Qed.

Lemma mk_alt_ok : forall a b s, lang (mk_alt a b) s <-> lang (Alt a b) s.
Proof. intros. apply alt_add_ok. Qed.

Lemma star_star : forall L s, star (star L) s -> star L s.
Proof. intros L s H. induction H; [constructor | apply star_app; auto]. Qed.

Lemma star_nil : forall (L : list nat -> Prop), (forall u, L u -> u = []) -> forall s, s = [] <-> star L s.
Proof.
  intros L HL s. split.
  - intros ->. constructor.
  - intros H. induction H as [|u v Hu _ IH]; [reflexivity|]. rewrite (HL u Hu). exact IH.
Qed.

Lemma mk_star_ok : forall a s, lang (mk_star a) s <-> lang (Star a) s.
Proof.
  intros a s. destruct a; cbn [mk_star]; try reflexivity.
  - apply star_nil. intros u [].
  - apply star_nil. intros u H. exact H.
  - split; [apply star_one | apply star_star].
Qed.

Lemma norm_ok : forall r s, lang (norm r) s <-> lang r s.
Proof.
  induction r; intros s; cbn [norm]; try reflexivity.
  - rewrite mk_cat_ok. apply cat_congr; assumption.
  - rewrite mk_alt_ok. cbn [lang]. rewrite IHr1, IHr2. tauto.
  - rewrite mk_star_ok. split; apply star_mono; intros s'; apply IHr.
Qed.

Lemma nullable_ok : forall r, nullable r = true <-> lang r [].
Proof.
  induction r; cbn [nullable lang].
  - split; [discriminate | contradiction].
  - tauto.
  - split; [discriminate|]. intros (c & E & _). discriminate.
  - rewrite andb_true_iff, IHr1, IHr2. split.
    + intros [H1 H2]. exists [], []. auto.
    + intros (u & v & E & H1 & H2). symmetry in E. apply app_eq_nil in E. destruct E; subst. auto.
  - rewrite orb_true_iff, IHr1, IHr2. tauto.
  - split; auto. intros _. constructor.
Qed.

Lemma deriv_ok : forall c r s, lang (deriv D c r) s <-> lang r (c :: s).
Proof.
  intros c. induction r; intros s; cbn [deriv].
  - reflexivity.
  - cbn [lang]. split; [contradiction | discriminate].
  - cbn [lang]. destruct (nth c (cset D k) false) eqn:E; cbn [lang].
    + split.
      * intros ->. eauto.
      * intros (c' & E' & _). inversion E'; auto.
    + split; [contradiction|].
      intros (c' & E' & H). inversion E'; subst. congruence.
  - assert (G : lang (mk_cat (deriv D c r1) r2) s \/ (nullable r1 = true /\ lang (deriv D c r2) s)
                <-> lang (Cat r1 r2) (c :: s)).
    { rewrite mk_cat_ok. cbn [lang]. split.
      - intros [(u & v & -> & H1 & H2) | [Hn H2]].
        + exists (c :: u), v. repeat split; auto. apply IHr1; auto.
        + exists [], (c :: s). repeat split; auto.
          * apply nullable_ok; auto.
          * apply IHr2; auto.
      - intros (u & v & E & H1 & H2). destruct u as [|x u]; cbn in E.
        + subst v. right. split; [apply nullable_ok; auto | apply IHr2; auto].
        + inversion E; subst. left. exists u, v. repeat split; auto. apply IHr1; auto. }
    destruct (nullable r1) eqn:En.
    + rewrite mk_alt_ok. cbn [lang] in *. rewrite <- G. tauto.
    + rewrite <- G. split; auto. intros [H|[H _]]; [auto | discriminate].
  - rewrite mk_alt_ok. cbn [lang]. rewrite IHr1, IHr2. tauto.
  - rewrite mk_cat_ok. cbn [lang]. split.
    + intros (u & v & -> & H1 & H2). apply IHr in H1.
      change (c :: u ++ v) with ((c :: u) ++ v). constructor; auto.
    + intros H. apply star_cons in H. destruct H as (u & v & -> & H1 & H2).
      exists u, v. repeat split; auto. apply IHr; auto.
Qed.

Lemma forallb_negb_nth : forall l c, forallb negb l = true -> nth c l false = false.
Proof.
  induction l as [|x l IH]; intros c H; destruct c; cbn in *; auto;
    apply andb_true_iff in H; destruct H as [H1 H2]; auto.
  destruct x; auto; discriminate.
Qed.

Lemma is_empty_ok : forall r s, is_empty D r = true -> ~ lang r s.
Proof.
  induction r; intros s; cbn [is_empty lang]; intros H Hl; try discriminate; auto.
  - destruct Hl as (c & _ & Hc). rewrite (forallb_negb_nth _ c H) in Hc. discriminate.
  - destruct Hl as (u & v & _ & H1 & H2).
    apply orb_true_iff in H. destruct H as [H|H]; [eapply IHr1 | eapply IHr2]; eauto.
  - apply andb_true_iff in H. destruct H as [Ha Hb].
    destruct Hl; [eapply IHr1 | eapply IHr2]; eauto.
Qed.

Lemma rep_re_ok : forall (a : regex) e, (forall s, lang e s -> matches a s) ->
  forall n s, lang (rep_re e n) s -> matches (RRep a n) s.
Proof.
  intros a e H. induction n; intros s Hl; cbn [rep_re lang] in Hl.
  - subst. constructor.
  - destruct Hl as (u & v & -> & H1 & H2). constructor; auto.
Qed.

Lemma star_re_ok : forall (a : regex) e, (forall s, lang e s -> matches a s) ->
  forall s, lang (Star e) s -> matches (RStar a) s.
Proof. intros a e H s Hs. cbn [lang] in Hs. induction Hs; constructor; auto. Qed.

Lemma re_of_complete : forall r s, matches r s -> incl (charsets_of r) D -> lang (re_of D r) s.
Proof.
  induction 1; cbn [re_of charsets_of]; intros Hi.
  - destruct (find_idx_in s D 0 (Hi s (or_introl eq_refl))) as (k & Hk).
    rewrite Hk. apply find_idx_some in Hk. destruct Hk as [_ Hk]. rewrite Nat.sub_0_r in Hk.
    exists c. unfold cset. rewrite Hk. auto.
  - constructor.
  - constructor; [auto | apply (IHmatches2 Hi)].
  - exists u, v. split; [reflexivity|]. split; [auto | apply (IHmatches2 Hi)].
  - right. reflexivity.
  - left. auto.
  - reflexivity.
  - exists u, v. auto.
  - apply incl_app_inv in Hi. destruct Hi. exists u, v. auto.
  - apply incl_app_inv in Hi. destruct Hi. left. auto.
  - apply incl_app_inv in Hi. destruct Hi. right. auto.
Qed.

Lemma re_of_sound : forall r s, lang (re_of D r) s -> matches r s.
Proof.
  induction r; intros s0 H; cbn [re_of] in H.
  - destruct (find_idx s D 0) as [k|] eqn:Hk; [| contradiction].
    apply find_idx_some in Hk. destruct Hk as [_ Hk]. rewrite Nat.sub_0_r in Hk.
    destruct H as (c & -> & Hc). unfold cset in Hc. rewrite Hk in Hc.
    constructor; auto.
  - eapply star_re_ok; eauto.
  - destruct H as (u & v & -> & H1 & H2). constructor; auto.
    eapply star_re_ok; eauto.
  - destruct H as [H|H].
    + apply MOptOne; auto.
    + cbn [lang] in H. subst. constructor.
  - eapply rep_re_ok; eauto.
  - destruct H as (u & v & -> & H1 & H2). constructor; auto.
  - destruct H; [apply MAltL | apply MAltR]; auto.
Qed.

Lemma re_of_ok : forall r s, incl (charsets_of r) D -> (matches r s <-> lang (norm (re_of D r)) s).
Proof.
  intros r s Hi. rewrite norm_ok. split.
  - intros H. apply re_of_complete; auto.
  - apply re_of_sound.
Qed.

End Lang.
