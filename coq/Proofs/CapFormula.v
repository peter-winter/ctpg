(* The fixed stack capacity of a parser over cstring_buffer<N>:  N + EmptyRulesCount + 1  (N = bytes + 1 for the NUL);
   as a function of the grammar and the number n of input bytes it is [cstring_cap g n].
   When the grammar has no empty rule, <eof> / the error token are never shifted, the table has no shift-on-error
   cell (no error recovery) and the lexer returns non-empty lexemes within the input, no stack of the driver ever
   holds more than n + 1 entries -- any table, any options, any semantic algebra -- so the run with the formula's
   capacity is the run with unbounded stacks (same result, final state, output), never Throw.
   The argument is a counting one and needs no validity of the table: every shift consumes at least one byte,
   every reduce pops at least one entry before it pushes one.  The one push that is not paid for is that of the
   error token at a shift-on-error cell; [step0_cinv] counts those, Proofs/CapFormulaRec.v follows them along a run.
   CapFormulaValid.v derives the table hypotheses from the validator; CapFormulaTree.v bounds the stack for accepted
   inputs when there are empty rules; CapFormulaCex.v refutes the formula by computation (empty rules: finding D8;
   error recovery). *)
Require Import Ctpg.Base.Prelude Ctpg.Model.Grammar Ctpg.Model.LRGen Ctpg.Model.Driver
               Ctpg.Spec.Cfg Ctpg.Spec.LRSpec Ctpg.Spec.Eval
               Ctpg.Proofs.GenLists Ctpg.Proofs.DriverBasics Ctpg.Proofs.DriverIter Ctpg.Proofs.SafeCap.

(* the number of rules with an empty right side, as the driver sees rules: by their rule_info (ri_n = number of
   right-side symbols).  The root rule ## -> root has ri_n = 1 and is never counted. *)
Definition is_empty_ri (ri : rule_info) : bool := Nat.eqb (ri_n ri) 0.
Definition empty_rules (g : grammar) : nat := length (filter is_empty_ri (rule_infos g)).

(* the same count on the right sides (indexed by r_idx); equal to [empty_rules] for analysed grammars, see
   [analyze_empty_rules] below *)
Definition is_empty_rhs (r : list symbol) : bool := match r with [] => true | _ => false end.
Definition empty_right_sides (g : grammar) : nat := length (filter is_empty_rhs (right_sides g)).

(* capacity of both stacks for an input of n bytes: N = n + 1 (the NUL), plus EmptyRulesCount, plus 1 *)
Definition cstring_cap (g : grammar) (n : nat) : nat := (n + 1) + empty_rules g + 1.

Lemma empty_rules_0_iff g : empty_rules g = 0 <-> Forall (fun ri => 0 < ri_n ri) (rule_infos g).
Proof.
  unfold empty_rules. induction (rule_infos g) as [|ri l IH]; [split; [constructor|reflexivity]|].
  cbn [filter]. unfold is_empty_ri at 1. rewrite Forall_cons_iff, <- IH.
  destruct (ri_n ri); cbn [Nat.eqb length]; lia.
Qed.

Lemma empty_rules_0 g : empty_rules g = 0 ->
  forall i ri, nth_error (rule_infos g) i = Some ri -> 0 < ri_n ri.
Proof.
  intros H i ri Hi. apply empty_rules_0_iff in H. rewrite Forall_forall in H. exact (H ri (nth_error_In _ _ Hi)).
Qed.

(* the list under [filter is_empty_ri] is the rule_infos as [Grammar.analyze] builds them from left and right sides *)
Lemma filter_ris_len : forall (rs : list (list symbol)) (ls : list nat) (k : nat), length ls = length rs ->
  length (filter is_empty_ri
            (map (fun p => mkRI (fst (snd p)) (fst p) (length (snd (snd p))))
                 (combine (seq k (length rs)) (combine ls rs)))) =
  length (filter is_empty_rhs rs).
Proof.
  induction rs as [|r rs IH]; intros ls k Hlen; [reflexivity|].
  destruct ls as [|l ls]; [discriminate|]. cbn [length seq combine map filter].
  cbn [snd fst]. unfold is_empty_ri at 1. cbn [ri_n].
  assert (E : Nat.eqb (length r) 0 = is_empty_rhs r) by (destruct r; reflexivity). rewrite E.
  cbn in Hlen. specialize (IH ls (S k) ltac:(lia)).
  destruct (is_empty_rhs r); cbn [length]; rewrite IH; reflexivity.
Qed.

(* for a grammar produced by [analyze], [empty_rules] is the number of empty right sides, i.e. the number of rules
   of the DSL-level description written with no right-side symbol (the root rule has one symbol) *)
Theorem analyze_empty_rules rg g : analyze rg = Some g ->
  empty_rules g = empty_right_sides g /\
  empty_rules g = length (filter (fun r => match rr_r r with [] => true | _ => false end) (rg_rules rg)).
Proof.
  unfold analyze. cbv zeta.
  destruct (map_opt (fun r => find_str (rg_nterms rg ++ [id_fake_root]) (rr_l r))
                    (rg_rules rg ++ [mkRR id_fake_root [RNterm (rg_root rg)] None])) as [ls|] eqn:Els; [|discriminate].
  destruct (map_opt (fun r => map_opt (make_symbol (map rt_id (rg_terms rg) ++ [id_eof; id_error])
                                                   (rg_nterms rg ++ [id_fake_root])) (rr_r r))
                    (rg_rules rg ++ [mkRR id_fake_root [RNterm (rg_root rg)] None])) as [rs|] eqn:Ers; [|discriminate].
  intros H. inversion H; subst g; clear H.
  unfold empty_rules, empty_right_sides. cbn [rule_infos right_sides].
  pose proof (map_opt_length _ _ _ Els) as L1. pose proof (map_opt_length _ _ _ Ers) as L2.
  rewrite (Permutation_filter_length _ _ _ (sort_ris_perm _)). rewrite <- L2. rewrite filter_ris_len by lia.
  split; [reflexivity|].
  (* the right sides are the images of the raw right sides, of the same lengths *)
  clear Els L1 L2 ls. revert rs Ers.
  generalize (make_symbol (map rt_id (rg_terms rg) ++ [id_eof; id_error]) (rg_nterms rg ++ [id_fake_root])) as mk.
  intros mk. induction (rg_rules rg) as [|r l IH]; intros rs Ers.
  - cbn in Ers. destruct (mk (RNterm (rg_root rg))); [|discriminate]. inversion Ers; reflexivity.
  - cbn [app map_opt] in Ers.
    destruct (map_opt mk (rr_r r)) as [x|] eqn:Ex; [|discriminate].
    destruct (map_opt (fun r0 => map_opt mk (rr_r r0)) (l ++ [mkRR id_fake_root [RNterm (rg_root rg)] None])) as [ys|] eqn:Ey;
      [|discriminate].
    inversion Ers; subst rs. cbn [filter]. specialize (IH ys eq_refl).
    apply map_opt_length in Ex.
    assert (E : is_empty_rhs x = match rr_r r with [] => true | _ => false end).
    { destruct x, (rr_r r); cbn in *; try reflexivity; discriminate. }
    rewrite E. destruct (rr_r r); cbn [length]; rewrite IH; reflexivity.
Qed.

Section Count.
  Variables V C : Type.
  Variable g : grammar.
  Variable tbl : table.
  Variable opts : options.
  Variable buf : list nat.
  Variable lexer : bool -> spoint -> list nat -> list lex_event * option (nat * nat).
  Variable term_f : nat -> nat -> nat -> spoint -> V.
  Variable err_f : spoint -> V.
  Variable rule_f : nat -> C -> list V -> C * V.

  Notation pst := (pstate V C).
  Notation step0 := (step V C g tbl opts buf None lexer term_f err_f rule_f).
  Notation run_gh0 := (run_gh V C g tbl opts buf None lexer term_f err_f rule_f).
  Notation runc cap := (run V C g tbl opts buf cap lexer term_f err_f rule_f).
  Notation run0 := (runc None).
  Notation gspec := (gct_spec V C g opts buf lexer).
  Notation gctx := (get_current_term V C g opts buf lexer).

  Theorem run_unbounded_no_throw fuel c : fst (fst (run0 fuel c)) <> Throw.
  Proof.
    rewrite run_of_gh.
    pose proof (run_gh_sinv V C g tbl opts buf None lexer term_f err_f rule_f (fun _ => True) (fun r _ => r <> Throw)
                  (fun _ _ => ltac:(discriminate)) (fun s _ => step0_no_throw V C g tbl opts buf lexer term_f err_f rule_f s) fuel (init c) [] [] I (Forall_nil _)) as H.
    destruct (run_gh0 fuel (init c) [] []) as [[[r sf] o] v]. apply H.
  Qed.

  (* the form the capacity theorems conclude in: a run that is the unbounded run, and so does not throw *)
  Lemma same_run_no_throw cap fuel c : runc cap fuel c = run0 fuel c ->
    runc cap fuel c = run0 fuel c /\ fst (fst (runc cap fuel c)) <> Throw.
  Proof. intros E. split; [exact E|]. rewrite E. apply run_unbounded_no_throw. Qed.

  (* so a capacity above bytes + 1, such as the formula's bytes + 2, is as good as unbounded stacks as soon as no stack
     holds more than bytes + 1 entries *)
  Lemma cstring_cap_suffices_of_height fuel c :
    never_above V C g tbl opts buf lexer term_f err_f rule_f (length buf + 1) fuel c ->
    runc (Some (cstring_cap g (length buf))) fuel c = run0 fuel c /\
    fst (fst (runc (Some (cstring_cap g (length buf))) fuel c)) <> Throw.
  Proof.
    intros Hna. apply same_run_no_throw. eapply capacity_irrelevant; [exact Hna|]. unfold cstring_cap. lia.
  Qed.

  (* the states the hypotheses are about: any set that contains state 0 and is closed under the targets the driver
     reads (shift cells, and the goto cell of a reduce, which is read without looking at its kind).
     [fun _ => True] for hypotheses about the whole table, [fun s => s < length sts] for validated tables. *)
  Variable Q : nat -> Prop.
  Hypothesis Q0 : Q 0.
  (* lexemes are not empty, and lie within the input (consume mode skips them without the driver's overrun check) *)
  Hypothesis Hrange : lexer_in_range lexer.

  (* k entries have been pushed without consuming a byte *)
  Definition within (k : nat) (s : pst) : Prop :=
    length (ps_cursors s) <= ps_it s + 1 + k /\ ps_it s <= length buf /\ ps_end s <= length buf.

  (* nothing pending, or <eof> pending, or a non-empty lexeme pending *)
  Definition pend_ok (s : pst) : Prop :=
    ps_it s = ps_end s \/ ps_term s = Some (eof_idx g) \/ ps_it s < ps_end s.

  Definition cinv (k : nat) (s : pst) : Prop := within k s /\ pend_ok s /\ Forall Q (ps_cursors s).

  Lemma within_mono s k k' : k <= k' -> within k s -> within k' s.
  Proof. unfold within. lia. Qed.

  Lemma within_height s k : within k s -> height s <= length buf + 1 + k.
  Proof. unfold within, height. lia. Qed.

  Lemma within_clr s k : within k s -> within k (clr s).
  Proof. unfold within. now rewrite clr_cursors, clr_it, clr_end. Qed.

  Lemma cinv_init c : cinv 0 (init c).
  Proof. unfold cinv, within, pend_ok; cbn. repeat split; try lia; auto. Qed.

  Lemma wsk_in_buf pos : pos <= length buf -> pos + wsk opts buf pos <= length buf.
  Proof.
    intros H. unfold wsk. destruct (o_skip_ws opts); [|lia].
    pose proof (count_ws_le opts (skipn pos buf)) as L. rewrite skipn_length in L. lia.
  Qed.

  (* get_current_term only moves the input position forward, within the buffer *)
  Lemma gct_in_buf s s1 ot ev : gspec s (s1, ot, ev) -> ps_it s <= length buf -> ps_end s <= length buf ->
    ps_it s <= ps_it s1 /\ ps_it s1 <= length buf /\ ps_end s1 <= length buf.
  Proof.
    intros H Hit Hen. pose proof (wsk_in_buf _ Hit) as L. remember (s1, ot, ev) as x eqn:E.
    destruct H as [Hr|Hr Hne|sp1 it1 Hr He Hit1 Hsp1 Hsk|sp1 it1 c rest lx Hr He Hit1 Hsp1 Hsk Hl
                  |sp1 it1 c rest lx t len Hr He Hit1 Hsp1 Hsk Hl]; injection E as <- _ _; simp_ps; try lia.
    pose proof (Hrange _ _ _ _ _ (f_equal snd Hl)) as Hlen. rewrite <- Hsk, skipn_length in Hlen. lia.
  Qed.

  Lemma gct_within k s s1 ot ev : within k s -> gspec s (s1, ot, ev) -> within k s1.
  Proof.
    intros (Hh & Hit & Hen) H. destruct (gct_in_buf _ _ _ _ H Hit Hen) as (Hle & Hit1 & Hen1).
    unfold within. rewrite (proj1 (gct_stacks H)). lia.
  Qed.

  (* ... and the term it hands to [act] is the error token in recovery mode, and otherwise <eof> or a lexeme still to
     be consumed *)
  Lemma gct_cinv k s s1 t ev : cinv k s -> gspec s (s1, Some t, ev) ->
    cinv k s1 /\
    ((ps_rec s1 = true /\ t = err_idx g) \/
     (ps_rec s1 = false /\ (t = eof_idx g \/ ps_it s1 < ps_end s1))).
  Proof.
    intros (Hw & Hp & HQ) H. pose proof (gct_within _ _ _ _ _ Hw H) as Hw1.
    rewrite <- (proj1 (gct_stacks H)) in HQ.
    enough (pend_ok s1 /\ ((ps_rec s1 = true /\ t = err_idx g) \/
                           (ps_rec s1 = false /\ (t = eof_idx g \/ ps_it s1 < ps_end s1)))) as [Hp1 Ht]
      by exact (conj (conj Hw1 (conj Hp1 HQ)) Ht).
    clear Hw Hw1 HQ. unfold pend_ok in *. remember (s1, Some t, ev) as x eqn:E.
    destruct H as [Hr|Hr Hne|sp1 it1 Hr He Hit1 Hsp1 Hsk|sp1 it1 c rest lx Hr He Hit1 Hsp1 Hsk Hl
                  |sp1 it1 c rest lx t0 len Hr He Hit1 Hsp1 Hsk Hl]; try discriminate E; injection E as <- Et _; simp_ps.
    - auto.
    - split; [exact Hp|right; split; [exact Hr|]].
      destruct Hp as [Hp|[Hp|Hp]]; [contradiction|left; congruence|right; exact Hp].
    - auto.
    - pose proof (Hrange _ _ _ _ _ (f_equal snd Hl)). split; right; [right; lia|split; [exact Hr|right; lia]].
  Qed.

  Hypothesis Qshift : forall st col e nst, Q st -> cell tbl st col = inl e -> e_kind e = KShift -> e_arg e = Some nst -> Q nst.
  Hypothesis Qgoto : forall st r ri e nst, Q st -> nth_error (rule_infos g) r = Some ri ->
    cell tbl st (ri_l ri) = inl e -> e_arg e = Some nst -> Q nst.
  Hypothesis Hempty : empty_rules g = 0.
  (* <eof> and the error token are never shifted (by a plain shift) *)
  Hypothesis Hns_eof : forall st e, Q st -> cell tbl st (nterm_count g + eof_idx g) = inl e -> e_kind e <> KShift.
  Hypothesis Hns_err : forall st e, Q st -> cell tbl st (nterm_count g + err_idx g) = inl e -> e_kind e <> KShift.

  (* One iteration.  Every push is paid by a consumed byte (a shift) or follows a pop (a reduce, as no rule is empty),
     except the push of the error token at a shift-on-error cell: d is 1 for an iteration that takes such a cell. *)
  Lemma step0_cinv k d s : cinv k s ->
    (forall cur cs s1 t ev e nst, ps_cursors s = cur :: cs -> Q cur -> gctx s = (s1, Some t, ev) ->
       cell tbl cur (nterm_count g + t) = inl e -> e_kind e = KShiftErr -> e_arg e = Some nst -> Q nst /\ d = 1) ->
    match fst (step0 s) with inl s' => cinv (k + d) s' | inr (_, s') => within (k + d) s' end.
  Proof.
    intros Hinv Hse. assert (Hkd : k <= k + d) by lia. apply step_moves; cbn [fst].
    - intros _. exact (within_mono _ _ _ Hkd (proj1 Hinv)).
    - intros s1 ev1 _ _ Hg. exact (within_mono _ _ _ Hkd (gct_within _ _ _ _ _ (proj1 Hinv) Hg)).
    - intros cur cs s1 t ev1 m Hcs Eg Hg Ha.
      destruct (gct_cinv _ _ _ _ _ Hinv Hg) as [(Hw1 & Hp1 & HQ1) Ht].
      assert (HQcur : Q cur).
      { rewrite (proj1 (gct_stacks Hg)), Hcs in HQ1. exact (Forall_inv HQ1). }
      specialize (Hse cur cs s1 t ev1). specialize (fun e nst => Hse e nst Hcs HQcur Eg). clear Hinv Hg Eg Hcs.
      pose proof (within_mono _ _ _ Hkd Hw1) as Hw1'. pose proof Hw1 as (Hh1 & Hit1 & Hen1). unfold pend_ok in Hp1.
      case_move Ha; cbn [perform fst];
        try exact Hw1'; try exact (within_clr _ _ Hw1'); clear Hw1 Hw1'; unfold cinv, within, pend_ok; simp_mv.
      + (* consume mode: the pending lexeme is discarded *)
        assert (ps_it s1 <= ps_end s1) by (destruct Hp1 as [Hp|[Hp|Hp]]; [lia|contradiction|lia]).
        repeat split; auto; lia.
      + (* enter recovery *) repeat split; auto; lia.
      + (* pop *)
        destruct (ps_cursors s1) as [|x l]; cbn [tl length] in *; [discriminate|].
        repeat split; [lia|lia|lia|exact Hp1|exact (Forall_inv_tail HQ1)].
      + (* pop fails *) destruct (ps_cursors s1); cbn [tl length] in *; lia.
      + (* shift: t is neither <eof> nor the error token, so a lexeme is consumed *)
        assert (Hlt : ps_it s1 < ps_end s1).
        { destruct Ht as [[_ ->]|[_ [->|Hlt]]]; [| |exact Hlt]; exfalso.
          - exact (Hns_err _ _ HQcur Hcell Hkind).
          - exact (Hns_eof _ _ HQcur Hcell Hkind). }
        cbn [length]. repeat split; auto; try lia. constructor; [|exact HQ1]. eapply Qshift; eassumption.
      + (* shift of the error token: one more entry, no byte consumed *)
        destruct (Hse _ _ Hcell Hkind Harg) as [HQn ->]. cbn [length]. repeat split; auto; try lia.
      + (* reduce: at least one entry is popped before the push *)
        inversion Hred as [| | | | | | | |? top0 below0 e0 ? Hat Hc0 _ Ha0 _ _]; subst.
        pose proof (red_at_length g _ _ _ _ _ Hat) as Hlen. destruct Hat as (Hn & Hle & Hsk).
        pose proof (empty_rules_0 g Hempty _ _ Hn) as Hpos.
        rewrite <- (firstn_skipn (ri_n ri) (ps_cursors s1)), Hsk in HQ1. apply Forall_app in HQ1 as [_ HQ1].
        rewrite Hsk. cbn [length] in *.
        repeat split; auto; try lia. constructor; [|exact HQ1]. exact (Qgoto _ _ _ _ _ (Forall_inv HQ1) Hn Hc0 Ha0).
  Qed.

  (* no error recovery: then the stacks never hold more than (bytes consumed) + 1 entries *)
  Hypothesis Hnse : forall st t e, Q st -> cell tbl st (nterm_count g + t) = inl e -> e_kind e <> KShiftErr.

  Theorem height_le_bytes fuel c : never_above V C g tbl opts buf lexer term_f err_f rule_f (length buf + 1) fuel c.
  Proof.
    apply (never_above_inv V C g tbl opts buf lexer term_f err_f rule_f (cinv 0) (fun _ s' => within 0 s')); [| |apply cinv_init].
    - intros s Hs. rewrite <- (Nat.add_0_r (length buf + 1)). apply within_height, Hs.
    - intros s Hs. apply (step0_cinv 0 0 s Hs). intros cur cs s1 t ev e nst _ HQ _ Hce Hk. destruct (Hnse _ _ _ HQ Hce Hk).
  Qed.

  Theorem cstring_capacity_suffices_Q fuel c :
    runc (Some (cstring_cap g (length buf))) fuel c = run0 fuel c /\
    fst (fst (runc (Some (cstring_cap g (length buf))) fuel c)) <> Throw.
  Proof. apply cstring_cap_suffices_of_height, height_le_bytes. Qed.
End Count.

(* the hypotheses as boolean checks of the whole table *)
Definition no_shifterrb (tbl : table) : bool :=
  forallb (forallb (fun e => match e_kind e with KShiftErr => false | _ => true end)) tbl.

Lemma no_shifterrb_ok tbl : no_shifterrb tbl = true ->
  forall st col e, cell tbl st col = inl e -> e_kind e <> KShiftErr.
Proof.
  intros H st col e (row & Hr & He)%cell_inl Hk. unfold no_shifterrb in H. rewrite forallb_forall in H.
  specialize (H row (nth_error_In _ _ Hr)). rewrite forallb_forall in H.
  specialize (H e (nth_error_In _ _ He)). rewrite Hk in H. discriminate.
Qed.

(* Generic driver: any semantic algebra, options, lexer with non-empty lexemes, ANY table that never shifts
   <eof> / the error token and has no shift-on-error cell.  [length buf] is the number of input bytes.
   The stacks themselves: never more than bytes + 1 cursors (and bytes values) *)
Theorem height_le_bytes_without_empty_rules :
  forall (V C : Type) g tbl opts buf lexer
         (term_f : nat -> nat -> nat -> spoint -> V) (err_f : spoint -> V) (rule_f : nat -> C -> list V -> C * V),
  empty_rules g = 0 -> eof_err_not_shifted g tbl -> no_shifterrb tbl = true -> lexer_in_range lexer ->
  forall fuel c, never_above V C g tbl opts buf lexer term_f err_f rule_f (length buf + 1) fuel c.
Proof.
  intros V C g tbl opts buf lexer term_f err_f rule_f Hempty [Hn1 Hn2] Hse Hlex fuel c.
  apply (height_le_bytes V C g tbl opts buf lexer term_f err_f rule_f (fun _ => True)); auto.
  - intros st e _. apply Hn1.
  - intros st e _. apply Hn2.
  - intros st t e _. apply (no_shifterrb_ok tbl Hse).
Qed.

Theorem cstring_capacity_suffices_without_empty_rules :
  forall (V C : Type) g tbl opts buf lexer
         (term_f : nat -> nat -> nat -> spoint -> V) (err_f : spoint -> V) (rule_f : nat -> C -> list V -> C * V),
  empty_rules g = 0 ->
  eof_err_not_shifted g tbl ->
  no_shifterrb tbl = true ->
  lexer_in_range lexer ->
  forall fuel c,
    run V C g tbl opts buf (Some (cstring_cap g (length buf))) lexer term_f err_f rule_f fuel c =
    run V C g tbl opts buf None lexer term_f err_f rule_f fuel c /\
    fst (fst (run V C g tbl opts buf (Some (cstring_cap g (length buf))) lexer term_f err_f rule_f fuel c)) <> Throw.
Proof. intros. apply cstring_cap_suffices_of_height, height_le_bytes_without_empty_rules; assumption. Qed.

(* The tree driver of Spec/LRSpec.v on a token list w (one byte per token): capacity from [length w] *)
Definition tree_run_cap (g : grammar) (tbl : table) (cap : option nat) (w : list nat) (fuel : nat)
  : result tree * pstate tree unit * list event :=
  run tree unit g tbl tree_opts w cap id_lexer (fun t _ _ _ => Leaf t) (fun _ => Leaf (err_idx g))
      (fun r c args => (c, Node r args)) fuel tt.

Lemma tree_run_cap_None g tbl w fuel : fst (fst (tree_run_cap g tbl None w fuel)) = tree_run g tbl w fuel.
Proof. reflexivity. Qed.

Lemma id_lexer_in_range : lexer_in_range id_lexer.
Proof.
  intros v p rest t len H. destruct rest as [|c rest]; cbn in H; [discriminate|]. inversion H; subst. cbn. lia.
Qed.

Corollary cstring_capacity_suffices_tree : forall g tbl w fuel,
  empty_rules g = 0 -> eof_err_not_shifted g tbl -> no_shifterrb tbl = true ->
  tree_run_cap g tbl (Some (cstring_cap g (length w))) w fuel = tree_run_cap g tbl None w fuel /\
  fst (fst (tree_run_cap g tbl (Some (cstring_cap g (length w))) w fuel)) <> Throw /\
  fst (fst (tree_run_cap g tbl (Some (cstring_cap g (length w))) w fuel)) = tree_run g tbl w fuel.
Proof.
  intros g tbl w fuel He Hn Hs. unfold tree_run_cap.
  destruct (cstring_capacity_suffices_without_empty_rules tree unit g tbl tree_opts w id_lexer
              (fun t _ _ _ => Leaf t) (fun _ => Leaf (err_idx g)) (fun r c args => (c, Node r args))
              He Hn Hs id_lexer_in_range fuel tt) as [E Ht].
  split; [exact E|]. split; [exact Ht|]. rewrite E. reflexivity.
Qed.

Print Assumptions analyze_empty_rules.
Print Assumptions run_unbounded_no_throw.
Print Assumptions cstring_capacity_suffices_Q.
Print Assumptions cstring_capacity_suffices_without_empty_rules.
Print Assumptions height_le_bytes_without_empty_rules.
Print Assumptions cstring_capacity_suffices_tree.
