(* The capacity formula  N + EmptyRulesCount + 1  of cstring_buffer parsers and error recovery: the precise statement
   that explains both Proofs/CapFormula.v (no recovery: the capacity suffices) and Proofs/CapFormulaCex.v (finding
   D16: S -> error a error b on "ab" needs 5 entries, capacity 4).

   In a grammar without empty rules (eof / the error token never shifted by a plain shift, lexemes non-empty and
   within the buffer), every loop-head state of the run with unbounded stacks satisfies
         length (ps_cursors s) <= ps_it s + 1 + k
   where k is the number of iterations executed so far that took a shift-on-error cell (pushed the error token):
   [err_shift_step] recognises such an iteration, [nerr] counts them, [bounded_from] is the prefix-wise bound.
   Recovery's pop loop and consume mode never push; a shift of the error token pushes without consuming a byte
   (the one-iteration argument is [step0_cinv] of Proofs/CapFormula.v).
   Hence a capacity of  bytes + 1 + K  is as good as unbounded stacks for every run with at most K shifts of the
   error token ([capacity_suffices_with_at_most_K_recoveries]); the library's capacity is bytes + 2, i.e. K = 1:
   it has exactly one spare slot ([cstring_capacity_suffices_with_at_most_one_recovery]).
   The capacity equals the height that can be reached, so SafeCap.capacity_irrelevant does not apply: section
   SameRun.  K = 0: without recovery already bytes + 1 entries are enough.
   The bound is tight, by computation on the grammar of D16: "ab" performs 2 shifts of the error token and throws;
   "b" performs 1 and does not. *)
Require Import Ctpg.Base.Prelude Ctpg.Model.Grammar Ctpg.Model.LRGen Ctpg.Model.Driver
               Ctpg.Spec.Cfg Ctpg.Spec.LRSpec Ctpg.Spec.Eval
               Ctpg.Valid.LRValid
               Ctpg.Proofs.DriverBasics Ctpg.Proofs.DriverIter Ctpg.Proofs.SafeCap Ctpg.Proofs.CapFormula
               Ctpg.Proofs.CapFormulaCex.

Definition b2n (b : bool) : nat := if b then 1 else 0.

(* SafeCap.capacity_irrelevant needs a capacity strictly above the height reached; with capacity = height the check
   of do_reduce could fire before the goto-uninit crash, and the check of a shift before the overrun crash.  Without
   empty rules a reduce pushes onto a stack that it has just made shorter, and lexemes within the buffer exclude the
   overrun crash: then the two runs are equal as soon as the unbounded one stays within the capacity. *)
Section SameRun.
  Variables V C : Type.
  Variable g : grammar.
  Variable tbl : table.
  Variable opts : options.
  Variable buf : list nat.
  Variable lexer : bool -> spoint -> list nat -> list lex_event * option (nat * nat).
  Variable term_f : nat -> nat -> nat -> spoint -> V.
  Variable err_f : spoint -> V.
  Variable rule_f : nat -> C -> list V -> C * V.
  Variable n : nat.

  Hypothesis Hempty : empty_rules g = 0.
  Hypothesis Hrange : forall v p rest t len, snd (lexer v p rest) = Some (t, len) -> 0 < len /\ len <= length rest.

  Notation pst := (pstate V C).
  Notation step0 := (step V C g tbl opts buf None lexer term_f err_f rule_f).
  Notation stepn := (step V C g tbl opts buf (Some n) lexer term_f err_f rule_f).
  Notation red0 := (do_reduce V C g tbl None rule_f).
  Notation redn := (do_reduce V C g tbl (Some n) rule_f).
  Notation run_gh0 := (run_gh V C g tbl opts buf None lexer term_f err_f rule_f).
  Notation run_ghn := (run_gh V C g tbl opts buf (Some n) lexer term_f err_f rule_f).

  (* a reduce pops at least one entry, so neither of its capacity checks can fire on a stack that fits *)
  Lemma red_same s r : exact V C s -> height s <= n -> redn s r = red0 s r.
  Proof.
    intros Hex Hh. rewrite !reduce_eq.
    destruct (decide_reduce_cap g tbl n (ps_cursors s) (length (ps_values s)) r Hex) as [->|(_ & ri & Hri & Hle & _)]; [reflexivity|].
    pose proof (empty_rules_0 g Hempty _ _ Hri). unfold exact, height in *. lia.
  Qed.

  (* The bounded iteration is the unbounded one when the stack fits before and after.  By [step_cap] it could differ
     only by a Throw where the unbounded iteration pushes (then the next stack would not fit), reads an unset goto
     after popping a right side (not empty: the stack it tested was shorter than this one), or finds the lexeme beyond
     the buffer (excluded for lexemes within it). *)
  Lemma step_same s : exact V C s -> height s <= n -> ps_it s <= length buf -> ps_end s <= length buf ->
    match fst (step0 s) with inl s' => height s' <= n | inr _ => True end ->
    stepn s = step0 s.
  Proof.
    intros Hex Hh Hit Hen Hnext.
    destruct (step_cap V C g tbl opts buf lexer term_f err_f rule_f n s (conj Hex Hh)) as [E|(_ & _ & Hm)]; [exact E|exfalso].
    destruct (fst (step0 s)) as [s''|[r ?]]; [lia|].
    destruct Hm as [(_ & r0 & ri & Hri & Hle)|(_ & s1 & ot & ev & Hg & Hov)].
    - pose proof (empty_rules_0 g Hempty _ _ Hri). unfold exact, height in *. lia.
    - destruct (gct_in_buf V C g opts buf lexer Hrange _ _ _ _ Hg Hit Hen) as (_ & _ & Hen1). lia.
  Qed.

  Definition fits (x : pst) : Prop := height x <= n /\ ps_it x <= length buf /\ ps_end x <= length buf.

  Lemma lockstep_fits fuel : forall s out, exact V C s ->
    (let '(_, sf, _, v) := run_gh0 fuel s out [] in forall x, In x (v ++ [sf]) -> fits x) ->
    run_ghn fuel s out [] = run_gh0 fuel s out [].
  Proof.
    intros s out Hex Hall.
    pose proof (run_gh_first V C g tbl opts buf None lexer term_f err_f rule_f fuel s out) as Hfirst.
    pose proof (runs_part V C g tbl opts buf lexer term_f err_f rule_f n fuel s out) as L.
    destruct (run_gh0 fuel s out []) as [[[r sf] o] v]. destruct (run_ghn fuel s out []) as [[[r' sf'] o'] v'].
    destruct (L (conj Hex (proj1 (Hall s Hfirst)))) as [[E _]|(_ & x & Hx & [Hex' _] & Hne & Hnext)]; [exact E|].
    (* the runs would part at a state that fits, before a state that fits *)
    destruct (Hall x (in_or_app _ _ _ (or_introl Hx))) as (Hh & Hit & Hen).
    destruct Hne. apply (step_same x Hex' Hh Hit Hen).
    destruct (fst (step0 x)) as [x'|]; [exact (proj1 (Hall x' Hnext))|exact I].
  Qed.

  (* capacity n is as good as unbounded stacks when the unbounded run never has more than n entries and keeps its
     input positions within the buffer *)
  Theorem capacity_equal_height_suffices fuel c : 0 < n ->
    (let '(_, sf, _, v) := run_gh0 fuel (init c) [] [] in forall x, In x (v ++ [sf]) -> fits x) ->
    run V C g tbl opts buf (Some n) lexer term_f err_f rule_f fuel c =
    run V C g tbl opts buf None lexer term_f err_f rule_f fuel c.
  Proof.
    intros Hpos Hall. rewrite !run_of_gh.
    rewrite (lockstep_fits fuel (init c) [] (proj1 (hinv_init V C n c Hpos)) Hall). reflexivity.
  Qed.
End SameRun.

Section CountRec.
  Variables V C : Type.
  Variable g : grammar.
  Variable tbl : table.
  Variable opts : options.
  Variable buf : list nat.
  Variable lexer : bool -> spoint -> list nat -> list lex_event * option (nat * nat).
  Variable term_f : nat -> nat -> nat -> spoint -> V.
  Variable err_f : spoint -> V.
  Variable rule_f : nat -> C -> list V -> C * V.

  (* as in CapFormula.Count: a set of states closed under the targets the driver reads, here including the targets of
     shift-on-error cells *)
  Variable Q : nat -> Prop.
  Hypothesis Q0 : Q 0.
  Hypothesis Qshift : forall st col e nst, Q st -> cell tbl st col = inl e -> e_kind e = KShift -> e_arg e = Some nst -> Q nst.
  Hypothesis Qshifterr : forall st col e nst, Q st -> cell tbl st col = inl e -> e_kind e = KShiftErr -> e_arg e = Some nst -> Q nst.
  Hypothesis Qgoto : forall st r ri e nst, Q st -> nth_error (rule_infos g) r = Some ri ->
    cell tbl st (ri_l ri) = inl e -> e_arg e = Some nst -> Q nst.

  Hypothesis Hempty : empty_rules g = 0.
  Hypothesis Hns_eof : forall st e, Q st -> cell tbl st (nterm_count g + eof_idx g) = inl e -> e_kind e <> KShift.
  Hypothesis Hns_err : forall st e, Q st -> cell tbl st (nterm_count g + err_idx g) = inl e -> e_kind e <> KShift.
  (* NO hypothesis about shift-on-error cells *)
  (* lexemes are not empty and lie within the input (consume mode skips them without the driver's overrun check) *)
  Hypothesis Hlex : forall v p rest t len, snd (lexer v p rest) = Some (t, len) -> 0 < len /\ len <= length rest.

  Notation pst := (pstate V C).
  Notation step0 := (step V C g tbl opts buf None lexer term_f err_f rule_f).
  Notation run_gh0 := (run_gh V C g tbl opts buf None lexer term_f err_f rule_f).
  Notation gspec := (gct_spec V C g opts buf lexer).
  Notation gctx := (get_current_term V C g opts buf lexer).

  (* the counted event: this iteration takes a shift-on-error cell (and pushes the error token) *)
  Definition err_shift_step (s : pst) : bool :=
    match ps_cursors s with
    | [] => false
    | cursor :: _ =>
        match gctx s with
        | (_, Some t, _) =>
            match cell tbl cursor (nterm_count g + t) with
            | inl e => match e_kind e, e_arg e with KShiftErr, Some _ => true | _, _ => false end
            | inr _ => false
            end
        | (_, None, _) => false
        end
    end.

  (* number of error-token shifts among the iterations started at the states of l *)
  Fixpoint nerr (l : list pst) : nat :=
    match l with [] => 0 | x :: r => b2n (err_shift_step x) + nerr r end.

  Lemma nerr_app a b : nerr (a ++ b) = nerr a + nerr b.
  Proof. induction a as [|x a IH]; cbn [app nerr]; [reflexivity|]. rewrite IH. apply Nat.add_assoc. Qed.

  (* height bound of one state, given the number k of error-token shifts so far.  [hb s k], [pend_ok] and [cinvk] are
     [within k s], [pend_ok] and [cinv] of Proofs/CapFormula.v, whose counting step is used with d = 1 exactly for the
     iterations that [err_shift_step] recognises. *)
  Definition hb (s : pst) (k : nat) : Prop :=
    length (ps_cursors s) <= ps_it s + 1 + k /\ ps_it s <= length buf /\ ps_end s <= length buf.

  (* the bound along a sequence of loop-head states: each state against the count of the iterations BEFORE it *)
  Fixpoint bounded_from (k : nat) (l : list pst) : Prop :=
    match l with
    | [] => True
    | x :: r => hb x k /\ bounded_from (k + b2n (err_shift_step x)) r
    end.

  Lemma hb_mono s k k' : k <= k' -> hb s k -> hb s k'.
  Proof. exact (within_mono V C buf s k k'). Qed.

  Lemma bounded_from_snoc l : forall k s, bounded_from k (l ++ [s]) <-> bounded_from k l /\ hb s (k + nerr l).
  Proof.
    induction l as [|x l IH]; intros k s; cbn [app bounded_from nerr].
    - rewrite Nat.add_0_r. split; intros [H1 H2]; split; assumption.
    - rewrite IH, Nat.add_assoc. symmetry. apply and_assoc.
  Qed.

  Lemma bounded_from_In l : forall k x, bounded_from k l -> In x l -> hb x (k + nerr l).
  Proof.
    induction l as [|y l IH]; intros k x Hb []; cbn [bounded_from nerr] in *; destruct Hb as [Hy Hb].
    - subst y. eapply hb_mono; [apply Nat.le_add_r|exact Hy].
    - rewrite Nat.add_assoc. exact (IH _ _ Hb H).
  Qed.

  (* every state of a bounded sequence, the last one included, against the count of the whole sequence *)
  Lemma bounded_all k v sf x : bounded_from k (v ++ [sf]) -> In x (v ++ [sf]) -> hb x (k + nerr v).
  Proof.
    intros H Hx. apply bounded_from_snoc in H as [Hv Hf].
    apply in_app_or in Hx as [Hx|[<-|[]]]; [exact (bounded_from_In _ _ _ Hv Hx)|exact Hf].
  Qed.

  Definition pend_ok (s : pst) : Prop :=
    ps_it s = ps_end s \/ ps_term s = Some (eof_idx g) \/ ps_it s < ps_end s.

  Definition cinvk (k : nat) (s : pst) : Prop := hb s k /\ pend_ok s /\ Forall Q (ps_cursors s).

  Lemma cinvk_mono s k k' : k <= k' -> cinvk k s -> cinvk k' s.
  Proof. intros Hle (H1 & H2). exact (conj (hb_mono _ _ _ Hle H1) H2). Qed.

  Lemma cinvk_init c : cinvk 0 (init c).
  Proof. exact (cinv_init V C g buf Q Q0 c). Qed.

  Lemma gct_hb k s s1 ot ev : hb s k -> gspec s (s1, ot, ev) -> hb s1 k.
  Proof. exact (gct_within V C g opts buf lexer Hlex k s s1 ot ev). Qed.

  Lemma gct_cinvk k s s1 t ev : cinvk k s -> gspec s (s1, Some t, ev) ->
    cinvk k s1 /\
    ((ps_rec s1 = true /\ t = err_idx g) \/
     (ps_rec s1 = false /\ (t = eof_idx g \/ ps_it s1 < ps_end s1))).
  Proof. exact (gct_cinv V C g opts buf lexer Q Hlex k s s1 t ev). Qed.

  (* one iteration: the count grows exactly when the error token is pushed *)
  Lemma step0_cinvk k s : cinvk k s ->
    match fst (step0 s) with
    | inl s' => cinvk (k + b2n (err_shift_step s)) s'
    | inr (_, s') => hb s' (k + b2n (err_shift_step s))
    end.
  Proof.
    intros Hinv.
    apply (step0_cinv V C g tbl opts buf lexer term_f err_f rule_f Q Hlex Qshift Qgoto Hempty Hns_eof Hns_err
             k (b2n (err_shift_step s)) s Hinv).
    intros cur cs s1 t ev e nst Hcs HQ Eg Hce Hk Harg. split; [exact (Qshifterr _ _ _ _ HQ Hce Hk Harg)|].
    unfold err_shift_step. rewrite Hcs, Eg, Hce, Hk, Harg. reflexivity.
  Qed.

  Theorem height_le_bytes_plus_error_shifts_prefix fuel c :
    let '(_, sf, _, v) := run_gh0 fuel (init c) [] [] in bounded_from 0 (v ++ [sf]).
  Proof.
    apply (run_gh_inv V C g tbl opts buf None lexer term_f err_f rule_f
             (fun vis s => cinvk (nerr vis) s /\ bounded_from 0 vis) (fun vis _ s' => bounded_from 0 (vis ++ [s']))).
    - intros vis s [Hc Hbd]. apply bounded_from_snoc. exact (conj Hbd (proj1 Hc)).
    - intros vis s [Hc Hbd]. pose proof (step0_cinvk _ _ Hc) as Hs.
      assert (Hbd' : bounded_from 0 (vis ++ [s])) by (apply bounded_from_snoc; exact (conj Hbd (proj1 Hc))).
      replace (nerr vis + b2n (err_shift_step s)) with (nerr (vis ++ [s])) in Hs by (rewrite nerr_app; cbn [nerr]; lia).
      destruct (fst (step0 s)) as [s'|[r s']]; [exact (conj Hs Hbd')|apply bounded_from_snoc; exact (conj Hbd' Hs)].
    - exact (conj (cinvk_init c) I).
  Qed.

  (* the number of error-token shifts of the whole run with unbounded stacks *)
  Definition err_shifts (fuel : nat) (c : C) : nat :=
    let '(_, _, _, v) := run_gh0 fuel (init c) [] [] in nerr v.

  Lemma all_states_bounded fuel c :
    let '(_, sf, _, v) := run_gh0 fuel (init c) [] [] in
    forall x, In x (v ++ [sf]) -> hb x (err_shifts fuel c).
  Proof.
    pose proof (height_le_bytes_plus_error_shifts_prefix fuel c) as H. unfold err_shifts.
    destruct (run_gh0 fuel (init c) [] []) as [[[r sf] o] v]. intros x. exact (bounded_all 0 v sf x H).
  Qed.

  Lemma never_above_of_bounded fuel c :
    (let '(_, sf, _, v) := run_gh0 fuel (init c) [] [] in bounded_from 0 (v ++ [sf])) ->
    never_above V C g tbl opts buf lexer term_f err_f rule_f (length buf + 1 + err_shifts fuel c) fuel c.
  Proof.
    unfold never_above, err_shifts. destruct (run_gh0 fuel (init c) [] []) as [[[r sf] o] v].
    intros H x Hx. exact (within_height V C buf x _ (bounded_all _ _ _ _ H Hx)).
  Qed.

  Theorem height_le_bytes_plus_error_shifts fuel c :
    never_above V C g tbl opts buf lexer term_f err_f rule_f (length buf + 1 + err_shifts fuel c) fuel c.
  Proof. exact (never_above_of_bounded fuel c (height_le_bytes_plus_error_shifts_prefix fuel c)). Qed.

  (* at most K shifts of the error token: capacity bytes + 1 + K.  Only the bound along the run is used. *)
  Lemma capacity_of_bounded K fuel c :
    (let '(_, sf, _, v) := run_gh0 fuel (init c) [] [] in bounded_from 0 (v ++ [sf])) -> err_shifts fuel c <= K ->
    run V C g tbl opts buf (Some (length buf + 1 + K)) lexer term_f err_f rule_f fuel c =
    run V C g tbl opts buf None lexer term_f err_f rule_f fuel c /\
    fst (fst (run V C g tbl opts buf (Some (length buf + 1 + K)) lexer term_f err_f rule_f fuel c)) <> Throw.
  Proof.
    intros H HK. apply same_run_no_throw.
    apply capacity_equal_height_suffices; [exact Hempty|exact Hlex|lia|]. unfold err_shifts in HK.
    destruct (run_gh0 fuel (init c) [] []) as [[[r sf] o] v].
    intros x Hx. destruct (bounded_all _ _ _ _ H Hx) as (H1 & H2 & H3). unfold fits, height. lia.
  Qed.

  Theorem capacity_suffices_with_at_most_K_recoveries_Q K fuel c :
    err_shifts fuel c <= K ->
    run V C g tbl opts buf (Some (length buf + 1 + K)) lexer term_f err_f rule_f fuel c =
    run V C g tbl opts buf None lexer term_f err_f rule_f fuel c /\
    fst (fst (run V C g tbl opts buf (Some (length buf + 1 + K)) lexer term_f err_f rule_f fuel c)) <> Throw.
  Proof. exact (capacity_of_bounded K fuel c (height_le_bytes_plus_error_shifts_prefix fuel c)). Qed.
End CountRec.

(* with the hypotheses about the whole table *)
Theorem height_le_bytes_plus_error_shifts_without_empty_rules :
  forall (V C : Type) g tbl opts buf lexer
         (term_f : nat -> nat -> nat -> spoint -> V) (err_f : spoint -> V) (rule_f : nat -> C -> list V -> C * V),
  empty_rules g = 0 -> eof_err_not_shifted g tbl -> lexer_in_range lexer ->
  forall fuel c,
    (* every loop-head state, against the number of error-token shifts BEFORE it *)
    (let '(_, sf, _, v) := run_gh V C g tbl opts buf None lexer term_f err_f rule_f fuel (init c) [] [] in
     bounded_from V C g tbl opts buf lexer 0 (v ++ [sf])) /\
    (* hence: never more than bytes + 1 + (error-token shifts of the run) entries *)
    never_above V C g tbl opts buf lexer term_f err_f rule_f
      (length buf + 1 + err_shifts V C g tbl opts buf lexer term_f err_f rule_f fuel c) fuel c.
Proof.
  intros V C g tbl opts buf lexer term_f err_f rule_f Hempty [Hn1 Hn2] Hlex fuel c.
  assert (H : let '(_, sf, _, v) := run_gh V C g tbl opts buf None lexer term_f err_f rule_f fuel (init c) [] [] in
              bounded_from V C g tbl opts buf lexer 0 (v ++ [sf])).
  { apply (height_le_bytes_plus_error_shifts_prefix V C g tbl opts buf lexer term_f err_f rule_f (fun _ => True)); auto.
    - intros st e _. apply Hn1.
    - intros st e _. apply Hn2. }
  exact (conj H (never_above_of_bounded V C g tbl opts buf lexer term_f err_f rule_f fuel c H)).
Qed.

Theorem capacity_suffices_with_at_most_K_recoveries :
  forall (V C : Type) g tbl opts buf lexer
         (term_f : nat -> nat -> nat -> spoint -> V) (err_f : spoint -> V) (rule_f : nat -> C -> list V -> C * V),
  empty_rules g = 0 -> eof_err_not_shifted g tbl -> lexer_in_range lexer ->
  forall K fuel c,
    err_shifts V C g tbl opts buf lexer term_f err_f rule_f fuel c <= K ->
    run V C g tbl opts buf (Some (length buf + 1 + K)) lexer term_f err_f rule_f fuel c =
    run V C g tbl opts buf None lexer term_f err_f rule_f fuel c /\
    fst (fst (run V C g tbl opts buf (Some (length buf + 1 + K)) lexer term_f err_f rule_f fuel c)) <> Throw.
Proof.
  intros V C g tbl opts buf lexer term_f err_f rule_f Hempty Hn Hlex K fuel c.
  apply capacity_of_bounded; try assumption.
  apply height_le_bytes_plus_error_shifts_without_empty_rules; assumption.
Qed.

(* the library's capacity bytes + 2 = bytes + 1 + 1: exactly one spare slot, exactly one shift of the error token *)
Theorem cstring_capacity_suffices_with_at_most_one_recovery :
  forall (V C : Type) g tbl opts buf lexer
         (term_f : nat -> nat -> nat -> spoint -> V) (err_f : spoint -> V) (rule_f : nat -> C -> list V -> C * V) fuel c,
  empty_rules g = 0 ->
  eof_err_not_shifted g tbl ->
  lexer_in_range lexer ->
  err_shifts V C g tbl opts buf lexer term_f err_f rule_f fuel c <= 1 ->
    run V C g tbl opts buf (Some (cstring_cap g (length buf))) lexer term_f err_f rule_f fuel c =
    run V C g tbl opts buf None lexer term_f err_f rule_f fuel c /\
    fst (fst (run V C g tbl opts buf (Some (cstring_cap g (length buf))) lexer term_f err_f rule_f fuel c)) <> Throw.
Proof.
  intros V C g tbl opts buf lexer term_f err_f rule_f fuel c Hempty Hn Hlex H1.
  replace (cstring_cap g (length buf)) with (length buf + 1 + 1) by (unfold cstring_cap; lia).
  apply capacity_suffices_with_at_most_K_recoveries; assumption.
Qed.

(* with k >= 1 shifts of the error token: the library's capacity plus k - 1 *)
Corollary cstring_capacity_plus_extra_recoveries_suffices :
  forall (V C : Type) g tbl opts buf lexer
         (term_f : nat -> nat -> nat -> spoint -> V) (err_f : spoint -> V) (rule_f : nat -> C -> list V -> C * V) k fuel c,
  empty_rules g = 0 -> eof_err_not_shifted g tbl -> lexer_in_range lexer ->
  err_shifts V C g tbl opts buf lexer term_f err_f rule_f fuel c <= k -> 1 <= k ->
    run V C g tbl opts buf (Some (cstring_cap g (length buf) + (k - 1))) lexer term_f err_f rule_f fuel c =
    run V C g tbl opts buf None lexer term_f err_f rule_f fuel c /\
    fst (fst (run V C g tbl opts buf (Some (cstring_cap g (length buf) + (k - 1))) lexer term_f err_f rule_f fuel c)) <> Throw.
Proof.
  intros V C g tbl opts buf lexer term_f err_f rule_f k fuel c Hempty Hn Hlex Hk H1.
  replace (cstring_cap g (length buf) + (k - 1)) with (length buf + 1 + k) by (unfold cstring_cap; lia).
  apply capacity_suffices_with_at_most_K_recoveries; assumption.
Qed.

(* no recovery at all (the setting of Proofs/CapFormula.v): already bytes + 1 entries are enough *)
Corollary capacity_bytes_plus_1_suffices_without_recovery :
  forall (V C : Type) g tbl opts buf lexer
         (term_f : nat -> nat -> nat -> spoint -> V) (err_f : spoint -> V) (rule_f : nat -> C -> list V -> C * V) fuel c,
  empty_rules g = 0 -> eof_err_not_shifted g tbl -> lexer_in_range lexer ->
  err_shifts V C g tbl opts buf lexer term_f err_f rule_f fuel c = 0 ->
    run V C g tbl opts buf (Some (length buf + 1)) lexer term_f err_f rule_f fuel c =
    run V C g tbl opts buf None lexer term_f err_f rule_f fuel c /\
    fst (fst (run V C g tbl opts buf (Some (length buf + 1)) lexer term_f err_f rule_f fuel c)) <> Throw.
Proof.
  intros V C g tbl opts buf lexer term_f err_f rule_f fuel c Hempty Hn Hlex H0.
  replace (length buf + 1) with (length buf + 1 + 0) by lia.
  apply capacity_suffices_with_at_most_K_recoveries; try assumption. lia.
Qed.

(* a table without shift-on-error cell never shifts the error token *)
Lemma no_shifterrb_err_shifts :
  forall (V C : Type) g tbl opts buf lexer
         (term_f : nat -> nat -> nat -> spoint -> V) (err_f : spoint -> V) (rule_f : nat -> C -> list V -> C * V) fuel c,
  no_shifterrb tbl = true -> err_shifts V C g tbl opts buf lexer term_f err_f rule_f fuel c = 0.
Proof.
  intros V C g tbl opts buf lexer term_f err_f rule_f fuel c Hse. unfold err_shifts.
  destruct (run_gh V C g tbl opts buf None lexer term_f err_f rule_f fuel (init c) [] []) as [[[r sf] o] v].
  induction v as [|x v IH]; [reflexivity|]. cbn [nerr]. rewrite IH, Nat.add_0_r.
  unfold err_shift_step. destruct (ps_cursors x) as [|cur cs]; [reflexivity|].
  destruct (get_current_term V C g opts buf lexer x) as [[s1 [t|]] ev]; [|reflexivity].
  destruct (cell tbl cur (nterm_count g + t)) as [e|cr] eqn:Hc; [|reflexivity].
  pose proof (no_shifterrb_ok tbl Hse _ _ _ Hc) as Hk. destruct (e_kind e); try reflexivity. congruence.
Qed.

(* the counted iterations are exactly those that emit the trace event [EvShiftErr] *)
Definition is_shifterr_ev (e : event) : bool := match e with EvShiftErr _ _ => true | _ => false end.

(* which moves write an [EvShiftErr] *)
Definition shifts_err (m : move) : bool :=
  match m with MShiftErr _ => true | MStop _ ev => existsb is_shifterr_ev ev | _ => false end.

Lemma perform_shifterr V C buf term_f err_f rule_f m (s1 : pstate V C) :
  existsb is_shifterr_ev (snd (perform buf term_f err_f rule_f m s1)) = shifts_err m.
Proof.
  assert (Hlc : existsb is_shifterr_ev (lc s1) = false) by (unfold lc; destruct (ps_cons s1); reflexivity).
  destruct m as [| | | | | | | | | |[|]]; cbn [perform snd shifts_err rr_line]; rewrite ?existsb_app, ?Hlc; reflexivity.
Qed.

(* with unbounded stacks a shift-on-error cell with a target is followed *)
Lemma decide_shifterr V C g tbl buf (s1 : pstate V C) cur t :
  shifts_err (decide V C g tbl buf None s1 cur t) =
  match cell tbl cur (nterm_count g + t) with
  | inl e => match e_kind e, e_arg e with KShiftErr, Some _ => true | _, _ => false end
  | inr _ => false
  end.
Proof.
  unfold decide. destruct (cell tbl cur (nterm_count g + t)) as [e|c]; [|reflexivity].
  destruct (e_kind e); cbn [full].
  - destruct (ps_cons s1); [destruct (match ps_term s1 with Some x => Nat.eqb x (eof_idx g) | None => false end)|
                            destruct (ps_rec s1); [destruct (tl (ps_cursors s1))|]]; reflexivity.
  - reflexivity.
  - destruct (e_arg e); [destruct (Nat.ltb (length buf) (ps_end s1))|]; reflexivity.
  - destruct (e_arg e); reflexivity.
  - destruct (e_arg e) as [r|]; [destruct (decide_reduce g tbl None _ _ r) as [[? ?]|?]|]; reflexivity.
  - destruct (e_arg e) as [r|]; [destruct (decide_reduce g tbl None _ _ r) as [[? ?]|?]|]; reflexivity.
Qed.

Lemma err_shift_step_event :
  forall (V C : Type) g tbl opts buf lexer
         (term_f : nat -> nat -> nat -> spoint -> V) (err_f : spoint -> V) (rule_f : nat -> C -> list V -> C * V) s,
  err_shift_step V C g tbl opts buf lexer s =
  existsb is_shifterr_ev (snd (step V C g tbl opts buf None lexer term_f err_f rule_f s)).
Proof.
  intros V C g tbl opts buf lexer term_f err_f rule_f s.
  unfold err_shift_step, step. destruct (ps_cursors s) as [|cur cs]; [reflexivity|].
  pose proof (gct_spec_holds V C g opts buf lexer s) as Hg.
  destruct (get_current_term V C g opts buf lexer s) as [[s1 ot] ev1].
  assert (Hlx : forall lx, existsb is_shifterr_ev (map EvLex lx) = false) by (induction lx; auto).
  assert (Hev1 : existsb is_shifterr_ev ev1 = false).
  { inversion Hg; subst; try reflexivity; rewrite existsb_app, Hlx; reflexivity. }
  destruct ot as [t|]; [|cbn [snd]; symmetry; exact Hev1].
  rewrite act_eq. destruct (perform _ _ _ _ _ s1) as [r ev2] eqn:Ep. cbn [snd].
  rewrite existsb_app, Hev1. cbn [orb].
  change ev2 with (snd (r, ev2)). rewrite <- Ep, perform_shifterr, decide_shifterr. reflexivity.
Qed.

(* Tightness, on the grammar of finding D16:  S -> error a error b   (terms a = 0, b = 1). *)

Definition tree_err_shifts (g : grammar) (tbl : table) (w : list nat) (fuel : nat) : nat :=
  err_shifts tree unit g tbl tree_opts w id_lexer (fun t _ _ _ => Leaf t) (fun _ => Leaf (err_idx g))
             (fun r c args => (c, Node r args)) fuel tt.
Definition tree_max_height (g : grammar) (tbl : table) (w : list nat) (fuel : nat) : nat :=
  max_height tree unit g tbl tree_opts w id_lexer (fun t _ _ _ => Leaf t) (fun _ => Leaf (err_idx g))
             (fun r c args => (c, Node r args)) fuel tt.

(* the theorem for the tree driver *)
Corollary cstring_capacity_suffices_tree_with_at_most_one_recovery : forall g tbl w fuel,
  empty_rules g = 0 -> eof_err_not_shifted g tbl -> tree_err_shifts g tbl w fuel <= 1 ->
  tree_run_cap g tbl (Some (cstring_cap g (length w))) w fuel = tree_run_cap g tbl None w fuel /\
  res (tree_run_cap g tbl (Some (cstring_cap g (length w))) w fuel) <> Throw.
Proof.
  intros g tbl w fuel He Hn H1. unfold tree_run_cap, res.
  apply cstring_capacity_suffices_with_at_most_one_recovery; try assumption. exact id_lexer_in_range.
Qed.

(* the witness of D16, input "ab": TWO shifts of the error token, the bound bytes + 1 + 2 = 5 is reached, the
   library's capacity 4 = bytes + 1 + 1 is one short: Throw.   Already "a" alone: two shifts, 4 entries, capacity 3. *)
Example d16_two_error_shifts :
  empty_rules rec_g = 0 /\ eof_err_not_shiftedb rec_g rec_tbl = true /\
  tree_err_shifts rec_g rec_tbl [0; 1] 20 = 2 /\
  tree_max_height rec_g rec_tbl [0; 1] 20 = length [0; 1] + 1 + 2 /\
  cstring_cap rec_g (length [0; 1]) = length [0; 1] + 1 + 1 /\
  res (tree_run_cap rec_g rec_tbl None [0; 1] 20) = Accept rec_tree /\
  res (tree_run_cap rec_g rec_tbl (Some (cstring_cap rec_g (length [0; 1]))) [0; 1] 20) = Throw /\
  tree_err_shifts rec_g rec_tbl [0] 20 = 2 /\
  tree_max_height rec_g rec_tbl [0] 20 = length [0] + 1 + 2 /\
  res (tree_run_cap rec_g rec_tbl None [0] 20) = Reject /\
  res (tree_run_cap rec_g rec_tbl (Some (cstring_cap rec_g (length [0]))) [0] 20) = Throw.
Proof. vm_compute. repeat split. Qed.

(* the same grammar, inputs "" and "b": ONE shift of the error token; the stack fills the capacity exactly in the
   first case (2 entries, capacity 2: the spare slot is used), no Throw: the bounded run is the unbounded run *)
Example d16_grammar_one_error_shift :
  tree_err_shifts rec_g rec_tbl [] 20 = 1 /\
  tree_max_height rec_g rec_tbl [] 20 = 2 /\ cstring_cap rec_g (length (@nil nat)) = 2 /\
  tree_run_cap rec_g rec_tbl (Some (cstring_cap rec_g 0)) [] 20 = tree_run_cap rec_g rec_tbl None [] 20 /\
  res (tree_run_cap rec_g rec_tbl (Some (cstring_cap rec_g 0)) [] 20) = Reject /\
  tree_err_shifts rec_g rec_tbl [1] 20 = 1 /\
  tree_run_cap rec_g rec_tbl (Some (cstring_cap rec_g 1)) [1] 20 = tree_run_cap rec_g rec_tbl None [1] 20 /\
  res (tree_run_cap rec_g rec_tbl (Some (cstring_cap rec_g 1)) [1] 20) = Reject.
Proof. vm_compute. repeat split. Qed.

(* ... and by the theorem rather than by running the bounded parser *)
Example d16_grammar_one_error_shift_by_theorem :
  tree_run_cap rec_g rec_tbl (Some (cstring_cap rec_g (length [1]))) [1] 20 = tree_run_cap rec_g rec_tbl None [1] 20 /\
  res (tree_run_cap rec_g rec_tbl (Some (cstring_cap rec_g (length [1]))) [1] 20) <> Throw.
Proof.
  apply cstring_capacity_suffices_tree_with_at_most_one_recovery.
  - vm_compute; reflexivity.
  - apply eof_err_not_shiftedb_ok. vm_compute; reflexivity.
  - vm_compute. lia.
Qed.

(* the number of error-token shifts is not the height: discarded bytes pay for later shifts.  "abb" shifts the
   error token three times and still fits (5 entries, capacity 5) *)
Example d16_grammar_three_error_shifts_fit :
  tree_err_shifts rec_g rec_tbl [0; 1; 1] 30 = 3 /\ tree_max_height rec_g rec_tbl [0; 1; 1] 30 = 5 /\
  cstring_cap rec_g (length [0; 1; 1]) = 5 /\
  res (tree_run_cap rec_g rec_tbl (Some (cstring_cap rec_g (length [0; 1; 1]))) [0; 1; 1] 30) = Accept rec_tree.
Proof. vm_compute. repeat split. Qed.

(* a grammar with ONE error token,  S -> error b : input "b" recovers once, is accepted, and needs exactly the
   library's capacity (3 entries: state 0, error token, b) -- the one spare slot is what makes recovery work here *)
Definition rec1_raw : raw_grammar :=
  mkRG id_S [mkRT id_a 0%Z NoAssoc; mkRT id_b 0%Z NoAssoc] [id_S]
    [mkRR id_S [RTerm id_error; RTerm id_b] None].
Definition rec1_g : grammar := g_of rec1_raw.
Definition rec1_tbl : table := tbl_of rec1_g.

Example one_recovery_accepted_capacity_exact :
  analyze rec1_raw = Some rec1_g /\ validate rec1_g (sts_of rec1_g) rec1_tbl = true /\
  empty_rules rec1_g = 0 /\ eof_err_not_shiftedb rec1_g rec1_tbl = true /\ no_shifterrb rec1_tbl = false /\
  tree_err_shifts rec1_g rec1_tbl [1] 20 = 1 /\
  tree_max_height rec1_g rec1_tbl [1] 20 = 3 /\ cstring_cap rec1_g (length [1]) = 3 /\
  res (tree_run_cap rec1_g rec1_tbl (Some (cstring_cap rec1_g (length [1]))) [1] 20) = Accept (Node 0 [Leaf 3; Leaf 1]) /\
  res (tree_run_cap rec1_g rec1_tbl (Some (cstring_cap rec1_g (length [1]) - 1)) [1] 20) = Throw.
Proof. vm_compute. repeat split. Qed.

Print Assumptions height_le_bytes_plus_error_shifts_without_empty_rules.
Print Assumptions capacity_suffices_with_at_most_K_recoveries.
Print Assumptions cstring_capacity_plus_extra_recoveries_suffices.
Print Assumptions err_shift_step_event.
Print Assumptions d16_two_error_shifts.
Print Assumptions cstring_capacity_suffices_with_at_most_one_recovery.
