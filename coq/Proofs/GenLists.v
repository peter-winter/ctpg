(* Generic list facts used by the generator proofs (Proofs/Gen*.v), and what the proofs about `Grammar.analyze` need of
   the list helpers of Model/Grammar.v: map_opt, insert_ri, sort_ris. Last, the loop shape of the nullable / FIRST
   computation: a pass over a list that raises a flag, run again while the flag is raised (Section FlaggedPass). *)
From Coq Require Import Permutation.
Require Import Ctpg.Base.Prelude Ctpg.Proofs.ListFacts Ctpg.Model.Grammar.

Lemma update_nth_same {A} (l : list A) n d : update l n (nth n l d) = l.
Proof.
  revert n; induction l as [|y l IH]; intros [|n]; cbn; auto. f_equal. apply IH.
Qed.

(* a property of all entries that the new entry has (where it lands) still holds of all entries *)
Lemma nth_update_P {A} (P : A -> Prop) (l : list A) n m x d :
  (n = m -> P x) -> P (nth m l d) -> P (nth m (update l n x) d).
Proof.
  intros Hx Hl. rewrite nth_update. destruct (Nat.eqb_spec m n); [destruct (Nat.ltb n (length l))|]; cbn [andb]; auto.
Qed.

Lemma nth_error_update_eq {A} (l : list A) n x : n < length l -> nth_error (update l n x) n = Some x.
Proof. apply ListFacts.nth_error_update_eq. Qed.

Lemma nth_error_update_neq {A} (l : list A) n m x : n <> m -> nth_error (update l n x) m = nth_error l m.
Proof. apply ListFacts.nth_error_update_neq. Qed.

Lemma update_app_l {A} (l l' : list A) n x : n < length l -> update (l ++ l') n x = update l n x ++ l'.
Proof.
  revert n; induction l as [|y l IH]; intros [|n] H; cbn in *; try lia; auto. f_equal. apply IH; lia.
Qed.

Lemma update_app_r {A} (l l' : list A) n x : update (l ++ l') (length l + n) x = l ++ update l' n x.
Proof. induction l as [|y l IH]; cbn; auto. f_equal. apply IH. Qed.

Lemma update_app_last {A} (l : list A) y x : update (l ++ [y]) (length l) x = l ++ [x].
Proof. rewrite <- (Nat.add_0_r (length l)). apply (update_app_r l [y] 0 x). Qed.

Lemma nth_error_nth_d {A} (l : list A) n d x : nth_error l n = Some x -> nth n l d = x.
Proof. apply nth_error_nth. Qed.

Lemma nth_error_app_l {A} (l l' : list A) n x : nth_error l n = Some x -> nth_error (l ++ l') n = Some x.
Proof. intros H. rewrite nth_error_app1; [assumption|]. eapply nth_error_Some_lt; eassumption. Qed.

Lemma nth_In_lt {A} (l : list A) n d : n < length l -> In (nth n l d) l.
Proof. apply nth_In. Qed.

Lemma In_nth_ex {A} (l : list A) x d : In x l -> exists n, n < length l /\ nth n l d = x.
Proof. apply In_nth. Qed.

Lemma in_update_inv {A} (l : list A) n x y : In y (update l n x) -> y = x \/ In y l.
Proof.
  revert n; induction l as [|z l IH]; intros [|n] H; cbn in *; try tauto.
  - destruct H; auto.
  - destruct H; auto. apply IH in H. tauto.
Qed.

Lemma firstn_all_le {A} (l : list A) n : length l <= n -> firstn n l = l.
Proof. apply firstn_all2. Qed.

Lemma list_sum_update (l : list nat) n x : n < length l -> list_sum (update l n x) + nth n l 0 = list_sum l + x.
Proof.
  unfold list_sum. revert n; induction l as [|y l IH]; intros [|n] H; cbn in *; try lia.
  specialize (IH n ltac:(lia)). lia.
Qed.

Lemma list_sum_bound (l : list nat) b : Forall (fun x => x <= b) l -> list_sum l <= length l * b.
Proof. unfold list_sum. induction 1; cbn; lia. Qed.

Lemma NoDup_bounded_length (l : list nat) n : NoDup l -> (forall x, In x l -> x < n) -> length l <= n.
Proof.
  intros Hnd Hb. rewrite <- (seq_length n 0). apply NoDup_incl_length; [assumption|].
  intros x Hx. apply in_seq. specialize (Hb x Hx). lia.
Qed.

Lemma NoDup_map_inj {A B} (f : A -> B) (l : list A) :
  (forall x y, In x l -> In y l -> f x = f y -> x = y) -> NoDup l -> NoDup (map f l).
Proof.
  intros Hinj Hnd. induction Hnd as [|x l Hx Hnd IH]; cbn; constructor.
  - intros Hin. apply in_map_iff in Hin. destruct Hin as (y & E & Hy).
    assert (y = x) by (apply Hinj; cbn; auto). subst. contradiction.
  - apply IH. intros a b Ha Hb. apply Hinj; cbn; auto.
Qed.

Lemma forallb_false_ex {A} (f : A -> bool) l : forallb f l = false -> exists x, In x l /\ f x = false.
Proof.
  induction l as [|y l IH]; cbn; [discriminate|]. intros H. apply andb_false_iff in H. destruct H as [H|H].
  - exists y; auto.
  - destruct (IH H) as (x & Hx & Hf). exists x; auto.
Qed.

Lemma existsb_false_all {A} (f : A -> bool) l : existsb f l = false -> forall x, In x l -> f x = false.
Proof.
  induction l as [|y l IH]; cbn; [tauto|]. intros H x Hx. apply orb_false_iff in H. destruct H as [H1 H2].
  destruct Hx; [subst; assumption|]. apply IH; assumption.
Qed.

Lemma filter_nil_all {A} (f : A -> bool) l : filter f l = [] -> forall x, In x l -> f x = false.
Proof.
  intros H x Hx. destruct (f x) eqn:E; [|reflexivity].
  assert (In x (filter f l)) by (apply filter_In; auto). rewrite H in *. contradiction.
Qed.

Lemma filter_none {A} (f : A -> bool) l : (forall x, In x l -> f x = false) -> filter f l = [].
Proof.
  intros H. induction l as [|x l IH]; [reflexivity|]. cbn. rewrite (H x (or_introl eq_refl)).
  apply IH. intros y Hy. apply H. right. exact Hy.
Qed.

Lemma nth_repeat_lt {A} (a d : A) m n : n < m -> nth n (repeat a m) d = a.
Proof. revert n; induction m as [|m IH]; intros [|n] H; cbn; try lia; auto. apply IH. lia. Qed.

Lemma Permutation_filter_length {A} (f : A -> bool) l l' : Permutation l l' -> length (filter f l) = length (filter f l').
Proof. induction 1; cbn; repeat match goal with |- context [f ?x] => destruct (f x) end; cbn; congruence. Qed.

Lemma map_opt_length {A B} (f : A -> option B) l : forall ys, map_opt f l = Some ys -> length ys = length l.
Proof.
  induction l as [|x l IH]; intros ys H; cbn in H.
  - inversion H; reflexivity.
  - destruct (f x); [|discriminate]. destruct (map_opt f l); [|discriminate]. inversion H; subst. cbn. f_equal. auto.
Qed.

Lemma map_opt_In {A B} (f : A -> option B) l : forall ys y, map_opt f l = Some ys -> In y ys ->
  exists x, In x l /\ f x = Some y.
Proof.
  induction l as [|x l IH]; intros ys y H Hy; cbn in H.
  - inversion H; subst. destruct Hy.
  - destruct (f x) as [b|] eqn:E; [|discriminate]. destruct (map_opt f l) as [bs|]; [|discriminate].
    inversion H; subst. destruct Hy as [<-|Hy].
    + exists x. cbn; auto.
    + destruct (IH bs y eq_refl Hy) as (x' & Hx' & E'). exists x'. cbn; auto.
Qed.

Lemma map_opt_none_in {A B} (f : A -> option B) (l : list A) x : In x l -> f x = None -> map_opt f l = None.
Proof.
  induction l as [|a l IH]; cbn; [tauto|]. intros [->|Hin] Hx.
  - rewrite Hx. reflexivity.
  - rewrite (IH Hin Hx). destruct (f a); reflexivity.
Qed.

Lemma insert_ri_perm x l : Permutation (insert_ri x l) (x :: l).
Proof.
  induction l as [|z l IH]; cbn [insert_ri]; [reflexivity|]. destruct (Nat.leb _ _); [reflexivity|].
  apply perm_trans with (z :: x :: l); [apply perm_skip, IH|apply perm_swap].
Qed.

Lemma sort_ris_perm l : Permutation (sort_ris l) l.
Proof.
  unfold sort_ris. induction l as [|x l IH]; cbn [fold_right]; [constructor|].
  apply perm_trans with (x :: fold_right insert_ri [] l); [apply insert_ri_perm|apply perm_skip, IH].
Qed.

(* A pass over a list that applies [step a] for each element [a] and raises a flag when [changed a] says that the
   step changed something; the pass is run again while the flag comes back raised. [pass] and [it] are any functions
   with the unfolding equations of such a loop. *)
Section FlaggedPass.
  Context {A X : Type} (step : A -> X -> X) (changed : A -> X -> bool).
  Context (pass : list A -> X -> bool -> X * bool) (it : nat -> X -> X) (ris : list A).
  Hypothesis pass_nil : forall x ch, pass [] x ch = (x, ch).
  Hypothesis pass_cons : forall a t x ch, pass (a :: t) x ch = pass t (step a x) (ch || changed a x).
  Hypothesis it_0 : forall x, it 0 x = x.
  Hypothesis it_S : forall f x, it (S f) x = let '(x', ch) := pass ris x false in if ch then it f x' else x'.

  Section Inv.
    Variable I : X -> Prop.
    Hypothesis step_inv : forall a x, In a ris -> I x -> I (step a x).

    Lemma pass_inv l : incl l ris -> forall x ch, I x -> I (fst (pass l x ch)).
    Proof.
      induction l as [|a l IH]; intros Hl x ch Hx; [rewrite pass_nil; exact Hx|].
      rewrite pass_cons. apply IH; [intros b Hb; apply Hl; right; exact Hb|]. apply step_inv; [apply Hl; left; reflexivity|exact Hx].
    Qed.

    Lemma fix_inv fuel : forall x, I x -> I (it fuel x).
    Proof.
      induction fuel as [|f IH]; intros x Hx; [rewrite it_0; exact Hx|].
      rewrite it_S. pose proof (pass_inv ris (incl_refl _) x false Hx) as Hp.
      destruct (pass ris x false) as [x' [|]]; [apply IH|]; exact Hp.
    Qed.
  End Inv.

  (* every step keeps [I] and does not lower a measure that [I] bounds by [N]; a step that reports a change has
     raised it, one that reports none has changed nothing *)
  Variables (I : X -> Prop) (mu : X -> nat) (N : nat).
  Hypothesis mu_le : forall x, I x -> mu x <= N.
  Hypothesis step_ok : forall a x, In a ris -> I x ->
    I (step a x) /\ mu x <= mu (step a x) /\ if changed a x then mu x < mu (step a x) else step a x = x.

  Lemma pass_spec l : incl l ris -> forall x ch x' ch', I x -> pass l x ch = (x', ch') ->
    I x' /\ mu x <= mu x' /\
    if ch' then ch = true \/ mu x < mu x' else ch = false /\ x' = x /\ forall a, In a l -> changed a x = false.
  Proof.
    induction l as [|a l IH]; intros Hl x ch x' ch' Hx E.
    - rewrite pass_nil in E. injection E as <- <-. split; [exact Hx|]. split; [lia|].
      destruct ch; [left; reflexivity|]. split; [reflexivity|]. split; [reflexivity|]. intros a [].
    - rewrite pass_cons in E. destruct (step_ok a x (Hl a (or_introl eq_refl)) Hx) as (Hx1 & Hm & Hc).
      apply IH in E as (Hx' & Hm' & Hc'); [|intros b Hb; apply Hl; right; exact Hb|exact Hx1].
      split; [exact Hx'|]. split; [lia|]. destruct ch'.
      + destruct Hc' as [Hc'|Hc']; [|right; lia].
        apply orb_prop in Hc'. destruct Hc' as [->|Hc']; [left; reflexivity|]. rewrite Hc' in Hc. right. lia.
      + destruct Hc' as ((-> & Ec)%orb_false_elim & -> & Hcl). rewrite Ec in Hc. rewrite Hc in *.
        split; [reflexivity|]. split; [reflexivity|]. intros b [<-|Hb]; [exact Ec|apply Hcl; exact Hb].
  Qed.

  (* so more than [N - mu x] rounds from [x] end in a point that no step changes *)
  Lemma fix_closed fuel : forall x, I x -> N < fuel + mu x ->
    I (it fuel x) /\ forall a, In a ris -> changed a (it fuel x) = false.
  Proof.
    induction fuel as [|f IH]; intros x Hx Hf; [specialize (mu_le x Hx); lia|].
    rewrite it_S. destruct (pass ris x false) as [x' ch] eqn:E.
    destruct (pass_spec ris (incl_refl _) x false x' ch Hx E) as (Hx' & _ & Hc). destruct ch.
    - destruct Hc as [Hc|Hc]; [discriminate|]. apply IH; [exact Hx'|lia].
    - destruct Hc as (_ & -> & Hc). split; assumption.
  Qed.
End FlaggedPass.
