(* The pattern grammar is AMBIGUOUS (alt -> alt '|' alt) and its table has a shift/reduce conflict resolved in favour
   of the shift: the full validator fails, [lr_complete] / [lr_unique] / [term_checks] do not apply.
   What does hold: the table is the LR(1) automaton of the grammar except for the two reductions by  alt -> alt '|' alt
   on lookahead '|'. That is enough for the RIGHT-NESTED derivation trees [rnt] (the left operand of '|' is never itself
   an alternative): every sentence of the pattern grammar has one, the table accepts it within
   6 * (number of tokens) + 1 steps (the induction of Proofs/PatternCompleteLR.v), and, the machine being a function,
   it is the only one. *)
Require Import Ctpg.Base.Prelude Ctpg.Model.Grammar Ctpg.Model.LRGen Ctpg.Spec.Cfg Ctpg.Valid.LRValid
               Ctpg.Valid.LRResolved Ctpg.Valid.LRProductive Ctpg.Proofs.LRReflect Ctpg.Proofs.LRMachine
               Ctpg.Proofs.LRValidFacts Ctpg.Proofs.LRSound Ctpg.Proofs.GenWf Ctpg.Proofs.GenTrans Ctpg.Proofs.GenCorrect
               Ctpg.Proofs.GenAnalyze Ctpg.Proofs.GenResolved Ctpg.Proofs.GenTermChecks Ctpg.Proofs.PatternParse
               Ctpg.Proofs.PatternCompleteLR.

(* REFUTED: the full LR(1) validator rejects the pattern table (PatternParse.regex_validate_full), hence so do the
   checks of the termination theorems *)
Theorem regex_table_validated_refuted : validate regex_g regex_sts regex_tb = false.
Proof. exact regex_validate_full. Qed.

Theorem regex_term_checks_refuted : term_checks regex_g regex_sts regex_tb = false.
Proof. unfold term_checks. rewrite regex_validate_full. reflexivity. Qed.

Lemma regex_grammar_wf : grammar_wf regex_g = true.
Proof. exact (validate_sound_wf _ _ _ regex_validate_sound). Qed.

(* the other four checks of [term_checks] hold: only [validate] fails; three of them hold of every output of the generator *)
Theorem regex_term_checks_partial :
  lookahead_generatedb regex_g regex_sts = true /\ states_nonempty_b regex_sts = true /\
  reduce_lookaheadb regex_g regex_sts regex_tb = true /\ productiveb regex_g = true.
Proof.
  destruct regex_generated as (sts & Ha & Hg & Es).
  destruct (gen_term_checks_default regex_g sts regex_tb regex_grammar_wf (analyze_wf_extra _ _ Ha) Hg) as (H1 & H2 & H3).
  rewrite Es in H1, H2, H3. split; [exact H1|]. split; [exact H3|]. split; [exact H2|]. vm_compute. reflexivity.
Qed.

(* The validators for tables with a resolved conflict ([validate_resolved]) and with excepted reductions
   ([validate_except]) ask, like [validate], that the table is sound and the item sets closed; they differ in what they
   ask of the cells of a state. The common part is evaluated once. *)
Lemma forallb_andb {A} (f h : A -> bool) l : forallb (fun x => f x && h x) l = forallb f l && forallb h l.
Proof.
  induction l as [|x l IH]; cbn [forallb]; [reflexivity|]. rewrite IH.
  destruct (f x), (h x), (forallb f l); reflexivity.
Qed.

Definition items_closed (g : grammar) (sts : list items) : bool :=
  let ne := nterm_empty g in
  let nf := nterm_first g ne in
  tables_closed g ne nf && forallb (closure_ok g sts ne nf) (seq 0 (length sts)).

Lemma validate_except_parts bad g sts tbl :
  validate_except bad g sts tbl =
  validate_sound g sts tbl && items_closed g sts &&
  forallb (fun s => goto_ok g sts tbl s && reduce_okx bad g sts tbl s) (seq 0 (length sts)).
Proof.
  unfold validate_except, table_okx, items_closed, validate_sound. cbv zeta.
  rewrite !forallb_andb, <- !andb_assoc. reflexivity.
Qed.

Lemma validate_resolved_parts g sts tbl :
  validate_resolved g sts tbl =
  validate_sound g sts tbl && items_closed g sts &&
  forallb (fun s => nt_goto_ok g sts tbl s && accept_ok g sts tbl s &&
                    forallb (cell_resolved g sts tbl s) (seq 0 (term_count g))) (seq 0 (length sts)).
Proof.
  unfold validate_resolved, resolved_ok, state_resolved, items_closed, validate_sound. cbv zeta.
  rewrite !forallb_andb, <- !andb_assoc. reflexivity.
Qed.

Lemma accept_clean_all g sts : accept_clean g sts = forallb (st_clean g) (map st_all sts).
Proof. unfold accept_clean. induction sts as [|st sts IH]; cbn [forallb map]; [reflexivity|]. rewrite IH. reflexivity. Qed.

Lemma regex_no_rr : no_rr regex_g (length regex_sts) regex_tb = true.
Proof. vm_compute. reflexivity. Qed.

Lemma regex_accept_clean : forallb (st_clean regex_g) regex_sts = true.
Proof. vm_compute. reflexivity. Qed.

(* the validator for tables with conflicts resolved by the documented precedence rule accepts it, as it accepts every
   output of the generator without a reduce/reduce cell (GenResolved.gen_validates_resolved) *)
Theorem regex_table_validated_resolved : validate_resolved regex_g regex_sts regex_tb = true.
Proof.
  destruct regex_generated as (sts & Ha & Hg & Es).
  pose proof (gen_validates_resolved_default regex_g sts regex_tb regex_grammar_wf (analyze_wf_extra _ _ Ha) Hg) as H.
  rewrite <- (map_length st_all sts), accept_clean_all, Es in H. exact (H regex_no_rr regex_accept_clean).
Qed.

Lemma regex_items_closed : items_closed regex_g regex_sts = true.
Proof.
  pose proof regex_table_validated_resolved as H. rewrite validate_resolved_parts in H.
  apply andb_true_iff in H as [H _]. apply andb_true_iff in H as [_ H]. exact H.
Qed.

(* rule 13 is  alt -> alt '|' alt ; term 5 is '|' *)
Definition regex_bad (r t : nat) : bool := Nat.eqb r 13 && Nat.eqb t 5.

(* the strongest true variant: every shift, goto, accept and reduction the LR(1) automaton of the grammar has is in the
   table, except the reduction by rule 13 on lookahead '|' (states 23 and 36: the table shifts there) *)
Theorem regex_table_validated_partial : validate_except regex_bad regex_g regex_sts regex_tb = true.
Proof. rewrite validate_except_parts, regex_validate_sound, regex_items_closed. vm_compute. reflexivity. Qed.

(* exactly two cells deviate *)
Example regex_conflict_states :
  filter (fun s => negb (reduce_ok regex_g regex_sts regex_tb s)) (seq 0 (length regex_sts)) = [23; 36] /\
  map (fun s => e_kind (cell_at regex_tb s (nterm_count regex_g + 5))) [23; 36] = [KShift; KShift].
Proof. vm_compute. split; reflexivity. Qed.

Definition rules_of (g : grammar) : list (nat * nat * list symbol) :=
  map (fun ri => (ri_r ri, ri_l ri, get_rhs g (ri_r ri))) (rule_infos g).

Lemma is_rule_rules_of g sts tbl : validate_sound g sts tbl = true ->
  forall r l rhs, is_rule g r l rhs <-> In (r, l, rhs) (rules_of g).
Proof.
  intros Hv r l rhs. pose proof (sound_facts_of g sts tbl Hv) as SF. unfold rules_of. rewrite in_map_iff. split.
  - intros (i & ri & Hi & <- & <- & Hr). exists ri. split; [|eapply nth_error_In; eassumption].
    unfold get_rhs. rewrite (nth_error_nth _ _ [] Hr). reflexivity.
  - intros (ri & E & Hin). apply In_nth_error in Hin. destruct Hin as (i & Hi). inversion E; subst r l rhs.
    assert (Hlt : i < rule_count g) by (rewrite <- (sf_len_ri _ _ _ SF); apply nth_error_Some; congruence).
    pose proof (is_rule_ri g sts tbl SF i Hlt) as H. unfold get_ri in H. rewrite (nth_error_nth _ _ _ Hi) in H. exact H.
Qed.

(* nonterminals: 0 expr, 1 alt, 2 concat, 3 q_expr, 4 primary, 5 number, 6 ##
   terms: 0 digit, 1 primary, 2 '*', 3 '+', 4 '?', 5 '|', 6 '(', 7 ')', 8 '{', 9 '}', 10 <eof>, 11 <error> *)
Definition regex_rules : list (nat * nat * list symbol) :=
  [(14, 0, [NT 1]); (12, 1, [NT 2]); (13, 1, [NT 1; T 5; NT 1]); (10, 2, [NT 3]); (11, 2, [NT 2; NT 3]);
   (5, 3, [NT 4]); (6, 3, [NT 4; T 2]); (7, 3, [NT 4; T 3]); (8, 3, [NT 4; T 4]);
   (9, 3, [NT 4; T 8; NT 5; T 9]); (2, 4, [T 0]); (3, 4, [T 1]); (4, 4, [T 6; NT 0; T 7]);
   (0, 5, [T 0]); (1, 5, [NT 5; T 0]); (15, 6, [NT 0])].

(* type-checking this term checks the literal [regex_rules] against [rules_of regex_g] by conversion *)
Lemma regex_is_rule r l rhs : is_rule regex_g r l rhs <-> In (r, l, rhs) regex_rules.
Proof. exact (is_rule_rules_of _ _ _ regex_validate_sound r l rhs). Qed.

Lemma regex_node r l rhs ch :
  find (fun x => Nat.eqb (fst (fst x)) r) regex_rules = Some (r, l, rhs) ->
  Forall2 (valid_tree regex_g) rhs ch -> valid_tree regex_g (NT l) (Node r ch).
Proof. intros Hf. apply VNode, regex_is_rule. exact (proj1 (find_some _ _ Hf)). Qed.

Lemma regex_root_symbol : root_symbol regex_g = Some (NT 0).
Proof. vm_compute. reflexivity. Qed.

(* right-nested derivation trees: the trees of the unambiguous grammar  alt -> concat | concat '|' alt,
   written with the rules of the pattern grammar *)
Inductive rnt : nat -> tree -> Prop :=
| rn0 : rnt 5 (Node 0 [Leaf 0])
| rn1 n : rnt 5 n -> rnt 5 (Node 1 [n; Leaf 0])
| rn2 : rnt 4 (Node 2 [Leaf 0])
| rn3 : rnt 4 (Node 3 [Leaf 1])
| rn4 e : rnt 0 e -> rnt 4 (Node 4 [Leaf 6; e; Leaf 7])
| rn5 p : rnt 4 p -> rnt 3 (Node 5 [p])
| rn6 p : rnt 4 p -> rnt 3 (Node 6 [p; Leaf 2])
| rn7 p : rnt 4 p -> rnt 3 (Node 7 [p; Leaf 3])
| rn8 p : rnt 4 p -> rnt 3 (Node 8 [p; Leaf 4])
| rn9 p n : rnt 4 p -> rnt 5 n -> rnt 3 (Node 9 [p; Leaf 8; n; Leaf 9])
| rn10 q : rnt 3 q -> rnt 2 (Node 10 [q])
| rn11 c q : rnt 2 c -> rnt 3 q -> rnt 2 (Node 11 [c; q])
| rn12 c : rnt 2 c -> rnt 1 (Node 12 [c])
| rn13 c b : rnt 2 c -> rnt 1 b -> rnt 1 (Node 13 [Node 12 [c]; Leaf 5; b])
| rn14 a : rnt 1 a -> rnt 0 (Node 14 [a]).

Lemma rnt_valid l t : rnt l t -> valid_tree regex_g (NT l) t.
Proof.
  (* node by node down to the subtrees that are variables; [reflexivity] looks the rule up and so gives the right side *)
  induction 1; repeat (eapply regex_node; [reflexivity|]; repeat constructor); assumption.
Qed.

Lemma rnt_derives_tree t : rnt 0 t -> derives_tree regex_g t (yield t).
Proof. intros H. exists (NT 0). split; [exact regex_root_symbol|]. split; [apply rnt_valid; assumption|reflexivity]. Qed.

(* a | b for right-nested a, b: re-associate to the right *)
Lemma graft_ex : forall l a, rnt l a -> l = 1 -> forall b, rnt 1 b ->
  exists t, rnt 1 t /\ yield t = yield a ++ 5 :: yield b.
Proof.
  induction 1; intros E; try discriminate E; intros b0 Hb0.
  - exists (Node 13 [Node 12 [c]; Leaf 5; b0]). split; [constructor; assumption|].
    cbn. rewrite !app_nil_r. reflexivity.
  - destruct (IHrnt2 eq_refl b0 Hb0) as (t2 & Ht2 & Hy2).
    exists (Node 13 [Node 12 [c]; Leaf 5; t2]). split; [constructor; assumption|].
    cbn. rewrite !app_nil_r, Hy2. cbn. rewrite <- !app_assoc. reflexivity.
Qed.

(* take apart every Forall2 / Forall hypothesis over a list written as a cons or as [] *)
Ltac inv_forall2 :=
  repeat match goal with
         | H : Forall2 _ (_ :: _) _ |- _ => inversion H; clear H; subst
         | H : Forall2 _ [] _ |- _ => inversion H; clear H; subst
         end.
Ltac inv_forall :=
  repeat match goal with
         | H : Forall _ (_ :: _) |- _ => inversion H; clear H; subst
         | H : Forall _ [] |- _ => clear H
         end.

(* every derivation tree has a right-nested tree with the same yield *)
Definition norm_ok (t : tree) : Prop :=
  forall X, valid_tree regex_g X t ->
    match X with
    | T a => t = Leaf a
    | NT l => l < 6 -> exists t', rnt l t' /\ yield t' = yield t
    end.

Lemma valid_right_nested t : norm_ok t.
Proof.
  induction t as [a|r ch IH] using tree_ind'; intros X Hval.
  - inversion Hval; subst. reflexivity.
  - inversion Hval as [|r' l rhs ch' Hrule Hch]; subst. intros Hl.
    apply regex_is_rule in Hrule. unfold regex_rules in Hrule. cbn [In] in Hrule.
    repeat (destruct Hrule as [Hrule|Hrule]); try contradiction; inversion Hrule; subst; clear Hrule;
      try lia; inv_forall2; inv_forall;
      repeat match goal with
             | HP : norm_ok ?c, HV : valid_tree _ (T _) ?c |- _ => apply HP in HV; subst c; clear HP
             | HP : norm_ok ?c, HV : valid_tree _ (NT _) ?c |- _ =>
                 apply HP in HV; clear HP; specialize (HV ltac:(lia)); destruct HV as (? & ? & ?)
             end.
    all: try solve [eexists; split; [econstructor; eassumption|cbn; congruence]].
    (* rule 13 *)
    match goal with
    | Ha : rnt 1 ?a, Hb : rnt 1 ?b |- _ =>
        first [ match goal with
                | Hya : yield a = yield ?x, Hyb : yield b = yield ?y |- exists _, _ /\ _ = yield (Node 13 [?x; _; ?y]) =>
                    destruct (graft_ex 1 a Ha eq_refl b Hb) as (t & Ht & Hy); exists t; split; [exact Ht|];
                    rewrite Hy, Hya, Hyb; cbn; rewrite app_nil_r; reflexivity
                end ]
    end.
Qed.

Theorem derives_right_nested ws : derives regex_g ws -> exists t, rnt 0 t /\ yield t = ws.
Proof.
  intros (t & X & Hroot & Hval & Hy). rewrite regex_root_symbol in Hroot. inversion Hroot; subst X.
  destruct (valid_right_nested t (NT 0) Hval ltac:(lia)) as (t' & Ht' & Hy'). exists t'. split; [assumption|congruence].
Qed.

Lemma rnt_tokens_ok l t : rnt l t -> tokens_ok regex_g (yield t).
Proof.
  unfold tokens_ok. rewrite regex_eof_idx.
  induction 1; cbn [yield flat_map]; rewrite ?app_nil_r;
    repeat (apply Forall_app; split); repeat constructor; try assumption; try lia.
Qed.

(* a right-nested tree never needs the reduction the table lacks *)
Definition rnt_follow (l : nat) (t : tree) (v : list nat) : Prop :=
  match l with
  | 0 => look regex_g v <> 5
  | 1 => look regex_g v <> 5 \/ exists c, t = Node 12 [c]
  | _ => True
  end.

Lemma regex_bad_other r t : r <> 13 -> regex_bad r t = false.
Proof. intros H. unfold regex_bad. apply Nat.eqb_neq in H. rewrite H. reflexivity. Qed.

Lemma rnt_tok l t : rnt l t -> forall v, rnt_follow l t v -> tok regex_bad regex_g t v.
Proof.
  induction 1; intros v Hf.
  14: { (* rule 13: the fourteenth constructor of rnt; the selector goes by position *)
    cbn in Hf. destruct Hf as [Hf|(c0 & Hc0)]; [|discriminate Hc0].
    apply tok_node; [unfold regex_bad; apply Nat.eqb_neq in Hf; rewrite Hf; reflexivity|].
    repeat constructor.
    + apply IHrnt1. exact I.
    + apply IHrnt2. cbn. left. exact Hf. }
  all: apply tok_node; [apply regex_bad_other; lia|]; repeat constructor.
  all: try (apply IHrnt; cbn; auto; fail).
  all: try (apply IHrnt1; exact I).
  all: try (apply IHrnt2; exact I).
  apply IHrnt. cbn. discriminate.
Qed.

(* At most 6 machine steps per token. [size_off l] is the number of unit reductions still to come above a tree of
   nonterminal l (primary -> q_expr -> concat -> alt -> expr): the slack with which the bound goes through by
   induction. *)
Definition size_off (l : nat) : nat := match l with 0 => 0 | 1 => 1 | 2 => 2 | 3 => 3 | _ => 4 end.

Lemma rnt_size l t : rnt l t -> tsize t + size_off l <= 6 * length (yield t).
Proof.
  induction 1; cbn [tsize yield flat_map map list_sum size_off] in *; rewrite ?app_length; cbn [length];
    unfold list_sum; cbn [fold_right]; lia.
Qed.

Theorem right_nested_accepted t : rnt 0 t ->
  exists s', msteps regex_g regex_tb (tsize t) ([0], [], yield t) ([s'; 0], [t], []) /\
             mstep regex_g regex_tb ([s'; 0], [t], []) = Acc t.
Proof.
  intros H. apply (lr_complete_except_steps regex_bad regex_g regex_sts regex_tb).
  - exact regex_table_validated_partial.
  - eapply rnt_tokens_ok; eassumption.
  - apply rnt_derives_tree; assumption.
  - eapply rnt_tok; [eassumption|]. vm_compute. discriminate.
Qed.

Corollary right_nested_mrun t : rnt 0 t -> mrun regex_g regex_tb (tsize t + 1) ([0], [], yield t) = Some t.
Proof.
  intros H. destruct (right_nested_accepted t H) as (s' & Hm & Ha).
  eapply msteps_mrun; [exact Hm|]. cbn [mrun]. rewrite Ha. reflexivity.
Qed.

(* the machine is a function: a sentence has exactly one right-nested derivation tree *)
Theorem right_nested_unique t1 t2 : rnt 0 t1 -> rnt 0 t2 -> yield t1 = yield t2 -> t1 = t2.
Proof.
  intros H1 H2 Hy. pose proof (right_nested_mrun t1 H1) as M1. pose proof (right_nested_mrun t2 H2) as M2.
  rewrite <- Hy in M2.
  apply (mrun_mono _ _ _ (tsize t2 + 1)) in M1. apply (mrun_mono _ _ _ (tsize t1 + 1)) in M2.
  rewrite (Nat.add_comm (tsize t2 + 1)) in M2. congruence.
Qed.

(* the grammar IS ambiguous: a|a|a has two derivation trees, so [lr_unique] cannot hold for it *)
Definition tree_a : tree := Node 12 [Node 10 [Node 5 [Node 3 [Leaf 1]]]].
Definition tree_left : tree := Node 14 [Node 13 [Node 13 [tree_a; Leaf 5; tree_a]; Leaf 5; tree_a]].
Definition tree_right : tree := Node 14 [Node 13 [tree_a; Leaf 5; Node 13 [tree_a; Leaf 5; tree_a]]].

Theorem pattern_grammar_ambiguous :
  derives_tree regex_g tree_left [1; 5; 1; 5; 1] /\ derives_tree regex_g tree_right [1; 5; 1; 5; 1] /\ tree_left <> tree_right.
Proof.
  split; [|split; [|discriminate]]; exists (NT 0); (split; [exact regex_root_symbol|]); (split; [|reflexivity]);
    unfold tree_left, tree_right, tree_a; repeat (eapply regex_node; [reflexivity|]; repeat constructor).
Qed.

Print Assumptions regex_table_validated_partial.
Print Assumptions derives_right_nested.
Print Assumptions right_nested_accepted.
Print Assumptions right_nested_unique.
Print Assumptions pattern_grammar_ambiguous.
