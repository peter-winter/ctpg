(* The generator theorem for grammars WITH shift/reduce conflicts (gen_validates_resolved): for every grammar whose
   generated table has no reduce/reduce mark (and no state hides the accept/reduce conflict D12), the generated item
   sets and table are the LR(1) automaton of the grammar in which every shift/reduce conflict is decided by the
   documented rule [sr_choice] (Spec/Conflict.v). Shift/reduce marks are allowed. With Proofs/Grouping.v: every tree
   the generated parser accepts is well grouped ([gen_groups]).

   The work is done in Proofs/GenCorrect.v ([cell_form], [gen_resolved_ok]); here its two hypotheses are the boolean
   checks [no_rr] and [accept_clean]. Section View states [cell_form] once more with the S/R flag forgotten
   ([cell_view]: a cell is empty / accept / shift / reduce) as a result of its own: no theorem below goes through it. *)
Require Import Ctpg.Base.Prelude Ctpg.Proofs.ListFacts Ctpg.Model.Grammar Ctpg.Model.LRGen Ctpg.Spec.Cfg
               Ctpg.Spec.LRSpec Ctpg.Spec.Conflict Ctpg.Spec.Grouping Ctpg.Valid.LRValid Ctpg.Valid.LRResolved
               Ctpg.Proofs.LRValidFacts Ctpg.Proofs.LRSound Ctpg.Proofs.GenWf Ctpg.Proofs.GenFirst
               Ctpg.Proofs.GenClosure Ctpg.Proofs.GenScan Ctpg.Proofs.GenTrans Ctpg.Proofs.GenCorrect
               Ctpg.Proofs.GenAnalyze Ctpg.Proofs.CellResolve Ctpg.Proofs.GroupingFacts Ctpg.Proofs.Grouping
               Ctpg.Proofs.GenResolvedInv.

(* no finished cell is a reduce/reduce cell (shift/reduce marks are allowed) *)
Definition no_rr (g : grammar) (nstates : nat) (tbl : table) : bool :=
  forallb (fun s => forallb (fun c => negb (kind_eqb (e_kind (nth c (nth s tbl []) entry_default)) KRR))
                            (seq 0 (symbol_count g))) (seq 0 nstates).

Lemma conflict_free_no_rr g n tbl : conflict_free g n tbl = true -> no_rr g n tbl = true.
Proof.
  unfold conflict_free, no_rr. rewrite !forallb_seq0. intros H s Hs. specialize (H s Hs).
  rewrite forallb_seq0 in H |- *. intros c Hc. specialize (H c Hc). cbn zeta in H.
  apply andb_true_iff in H. apply H.
Qed.

Lemma no_rr_cell g n tbl : no_rr g n tbl = true ->
  forall s c, s < n -> c < symbol_count g -> e_kind (cell_at tbl s c) <> KRR.
Proof.
  unfold no_rr. rewrite forallb_seq0. intros H s c Hs Hc. specialize (H s Hs). rewrite forallb_seq0 in H.
  specialize (H c Hc). apply negb_true_iff in H. intros E. unfold cell_at in E. rewrite E in H. discriminate.
Qed.

Section View.
  Variable g : grammar.
  Hypothesis WF : wf_facts g.
  Variable sts : list lrstate.
  Variable tbl : table.
  Hypothesis Hdisc : all_disc g sts.
  Hypothesis Hcells : forall s c, s < length sts -> c < symbol_count g -> cell_rec g sts tbl s c.
  Hypothesis Hnorr : forall s c, s < length sts -> c < symbol_count g -> e_kind (cell_at tbl s c) <> KRR.
  Hypothesis Hclean : forall s, s < length sts -> st_clean g (st_all (stn sts s)) = true.

  Definition noroot (B : list item) : Prop :=
    forall i, In i B -> is_complete g i = true -> it_r i <> root_rule_idx g.

  Definition shift_cell (c : nat) (B : list item) (e : entry) : Prop :=
    exists idx, e_kind e = kd g c /\ e_arg e = Some idx /\ idx < length sts /\ idx <> 0 /\
                forall j, In j (st_kernel (stn sts idx)) <-> exists i, In i B /\ is_complete g i = false /\ j = adv i.

  Inductive cell_view (c : nat) (B : list item) (e : entry) : Prop :=
  | CV_empty : B = [] -> e = entry_default -> cell_view c B e
  | CV_accept : B <> [] -> (forall i, In i B -> is_complete g i = true /\ it_r i = root_rule_idx g) ->
                e_kind e = KSuccess -> cell_view c B e
  | CV_shift : noroot B -> shift_items g B <> [] ->
               (reduce_items g B = [] \/
                exists i, reduce_items g B = [i] /\ sr_choice g (it_r i) (c - nterm_count g) = KShift) ->
               shift_cell c B e -> cell_view c B e
  | CV_reduce : noroot B -> forall i, reduce_items g B = [i] ->
                (shift_items g B = [] \/ sr_choice g (it_r i) (c - nterm_count g) = KReduce) ->
                e_kind e = KReduce -> e_arg e = Some (it_r i) -> cell_view c B e.

  Lemma view s c : s < length sts -> c < symbol_count g ->
    cell_view c (bucket g (st_all (stn sts s)) c) (cell_at tbl s c).
  Proof using WF Hdisc Hcells Hnorr Hclean.
    intros Hs Hc.
    destruct (cell_rec_form g WF sts tbl s c (Hdisc s Hs) (Hcells s c Hs Hc) (Hclean s Hs) (Hnorr s c Hs Hc))
      as [EB Ee|Hne Hall Ek|Hnr i ER HS Ee|Hnr HS HR idx Hsh _].
    - apply CV_empty; assumption.
    - apply CV_accept; assumption.
    - apply (CV_reduce c _ _ Hnr i ER HS); rewrite Ee; reflexivity.
    - apply CV_shift; [assumption|assumption|assumption|]. exists idx. exact Hsh.
  Qed.
End View.

Lemma In_nonempty {A} (l : list A) x : In x l -> l <> [].
Proof. intros H E. rewrite E in H. destruct H. Qed.

Theorem gen_validates_resolved : forall g lim sts tbl,
  grammar_wf g = true ->
  grammar_wf_extra g = true ->
  gen_with g lim = inl (sts, tbl) ->
  no_rr g (length sts) tbl = true ->
  accept_clean g sts = true ->
  validate_resolved g (map st_all sts) tbl = true.
Proof.
  intros g lim sts tbl Hwf Hwfx Hgen Hrr Hac.
  pose proof (gen_with_facts g lim sts tbl Hwf Hwfx Hgen) as GF.
  apply (gen_resolved_ok g lim sts tbl Hwf GF). apply (gen_cell_form g (wf_facts_of _ Hwf) lim sts tbl GF).
  - apply (no_rr_cell g _ tbl Hrr).
  - apply accept_clean_st. assumption.
Qed.

Print Assumptions gen_validates_resolved.

Corollary gen_validates_resolved_default : forall g sts tbl,
  grammar_wf g = true -> grammar_wf_extra g = true ->
  gen g = inl (sts, tbl) ->
  no_rr g (length sts) tbl = true -> accept_clean g sts = true ->
  validate_resolved g (map st_all sts) tbl = true.
Proof. intros g sts tbl. apply gen_validates_resolved. Qed.

(* for grammars coming from the DSL-level description the extra hypothesis is discharged (Proofs/GenAnalyze.v) *)
Corollary gen_validates_resolved_analyze : forall rg g lim sts tbl,
  analyze rg = Some g ->
  grammar_wf g = true ->
  gen_with g lim = inl (sts, tbl) ->
  no_rr g (length sts) tbl = true ->
  accept_clean g sts = true ->
  validate_resolved g (map st_all sts) tbl = true.
Proof.
  intros rg g lim sts tbl Ha Hwf. apply gen_validates_resolved; [assumption|]. eapply analyze_wf_extra; eassumption.
Qed.

Print Assumptions gen_validates_resolved_analyze.

(* gen_validates of Proofs/GenCorrect.v gives the stronger [validate]; its hypotheses imply those of
   gen_validates_resolved *)
Corollary gen_validates_resolved_of_conflict_free : forall g lim sts tbl,
  grammar_wf g = true -> grammar_wf_extra g = true -> gen_with g lim = inl (sts, tbl) ->
  conflict_free g (length sts) tbl = true -> accept_clean g sts = true ->
  validate_resolved g (map st_all sts) tbl = true.
Proof.
  intros g lim sts tbl Hwf Hwfx Hgen Hcf Hac. eapply gen_validates_resolved; try eassumption.
  apply conflict_free_no_rr. assumption.
Qed.

Corollary gen_groups_derivation : forall g lim sts tbl,
  grammar_wf g = true -> grammar_wf_extra g = true ->
  gen_with g lim = inl (sts, tbl) ->
  no_rr g (length sts) tbl = true -> accept_clean g sts = true ->
  forall w tr, tokens_ok g w -> no_error_symbol g tbl = true -> accepts g tbl w tr ->
               derives_tree g tr w /\ well_grouped g tr.
Proof.
  intros g lim sts tbl Hwf Hwfx Hgen Hrr Hac w tr Hw Hne Hacc.
  apply (grouping_derivation g (map st_all sts) tbl w tr); try assumption.
  eapply gen_validates_resolved; eassumption.
Qed.

Corollary gen_groups : forall g lim sts tbl,
  grammar_wf g = true -> grammar_wf_extra g = true ->
  gen_with g lim = inl (sts, tbl) ->
  no_rr g (length sts) tbl = true -> accept_clean g sts = true ->
  forall w tr, tokens_ok g w -> no_error_symbol g tbl = true -> accepts g tbl w tr -> well_grouped g tr.
Proof.
  intros g lim sts tbl Hwf Hwfx Hgen Hrr Hac w tr Hw Hne Hacc. eapply gen_groups_derivation; eassumption.
Qed.

Corollary gen_groups_analyze : forall rg g lim sts tbl,
  analyze rg = Some g -> grammar_wf g = true ->
  gen_with g lim = inl (sts, tbl) ->
  no_rr g (length sts) tbl = true -> accept_clean g sts = true ->
  forall w tr, tokens_ok g w -> no_error_symbol g tbl = true -> accepts g tbl w tr -> well_grouped g tr.
Proof.
  intros rg g lim sts tbl Ha Hwf. apply gen_groups; [assumption|]. eapply analyze_wf_extra; eassumption.
Qed.

Print Assumptions gen_groups.
Print Assumptions gen_groups_derivation.
