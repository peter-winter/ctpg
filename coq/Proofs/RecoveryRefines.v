(* C08 -- the driver model (Model/Driver.v) refines the documented error-recovery algorithm (Spec/Recovery.v),
   for all grammars, tables (no validity assumption), lexers, options, buffers and semantic algebras.
   The phases of the algorithm are taken one by one: the pop phase ([pop_phase_refines]; outside the domain
   [pop_defined] of the specification the driver crashes, [pop_phase_undefined_crashes]), the action on the error
   symbol ([recovering_step]), the consume phase ([consume_phase_refines]); then why a run ends with Reject
   ([C08_fails_iff]) and that every error is reported once ([C08_track_invariant]).
   For the whole run, [srun_steps]: what [spec_run] predicts with n phases of fuel is what the driver does; the
   prediction OutOfFuel means "still running after at least n iterations".  [C08_refines] / [C08_refines_run]
   are its finished runs; [C08_refines_converse] / [C08_run_predicted] (the driver finishes => [spec_run]
   predicts exactly that, or the table lacks a cell the algorithm must read) follow from it, the driver being
   deterministic.
   Multi-step statements use [steps n s] (n iterations of [step], lines concatenated), composed by [steps_app];
   [steps_run_from] ties it to [run_from].  One iteration is read through Proofs/DriverIter.v; [act_action] ties
   its moves on a non-error cell to [plain_action], the action as the statements here spell it. *)
Require Import Ctpg.Base.Prelude Ctpg.Model.Grammar Ctpg.Model.LRGen Ctpg.Model.Driver
               Ctpg.Proofs.DriverBasics Ctpg.Proofs.DriverIter Ctpg.Proofs.SafeBasics Ctpg.Spec.Recovery.

Lemma skipn_S_tl {A} (l : list A) k : skipn (S k) l = skipn k (tl l).
Proof. destruct l; cbn [tl skipn]; [now rewrite skipn_nil|reflexivity]. Qed.

Lemma hd_error_skipn {A} (l : list A) k : hd_error (skipn k l) = nth_error l k.
Proof. revert l; induction k as [|k IH]; intros [|a l]; cbn; auto. Qed.

Section Refines.
  Variables V C : Type.
  Variable g : grammar.
  Variable tbl : table.
  Variable opts : options.
  Variable buf : list nat.
  Variable cap : option nat.
  Variable lexer : bool -> spoint -> list nat -> list lex_event * option (nat * nat).
  Variable term_f : nat -> nat -> nat -> spoint -> V.
  Variable err_f : spoint -> V.
  Variable rule_f : nat -> C -> list V -> C * V.

  Notation pst := (pstate V C).
  Notation outcome := (pst + result V * pst)%type.
  Notation stepx := (step V C g tbl opts buf cap lexer term_f err_f rule_f).
  Notation actx := (act V C g tbl buf cap term_f err_f rule_f).
  Notation gctx := (get_current_term V C g opts buf lexer).
  Notation reducex := (do_reduce V C g tbl cap rule_f).
  Notation consumex := (consume_term V C buf).
  Notation run_fromx := (run_from V C g tbl opts buf cap lexer term_f err_f rule_f).
  Notation run_ghx := (run_gh V C g tbl opts buf cap lexer term_f err_f rule_f).
  Notation all_eventsx := (all_events V C g tbl opts buf cap lexer term_f err_f rule_f).
  Notation visiblex := (visible opts).
  Notation errcol := (err_col g).
  Notation tcol := (term_col g).
  Notation acc := (accepts_err g tbl).
  Notation rej := (rejects_err g tbl).
  Notation ckind := (cell_kind tbl).
  Notation dropc := (drop_count g tbl).
  Notation popdef := (pop_defined g tbl).
  Notation sdrop := (spec_drop V C g tbl).
  Notation spop := (spec_pop_phase V C g tbl).
  Notation sconsume := (spec_consume V C g tbl opts buf lexer).
  Notation fullx := (full cap).
  Notation step_eqx := (step_eq V C g tbl opts buf cap lexer term_f err_f rule_f).
  Notation step_movesx := (step_moves V C g tbl opts buf cap lexer term_f err_f rule_f).

  Fixpoint steps (n : nat) (s : pst) : outcome * list event :=
    match n with
    | 0 => (inl s, [])
    | S m => match stepx s with
             | (inl s', ev) => let '(r, ev') := steps m s' in (r, ev ++ ev')
             | (inr x, ev) => (inr x, ev)
             end
    end.

  Lemma steps_S_inl m s s' ev : stepx s = (inl s', ev) -> steps (S m) s = (fst (steps m s'), ev ++ snd (steps m s')).
  Proof. intros H. cbn [steps]. rewrite H. destruct (steps m s'); reflexivity. Qed.

  Lemma steps_S_inr m s x ev : stepx s = (inr x, ev) -> steps (S m) s = (inr x, ev).
  Proof. intros H. cbn [steps]. rewrite H. reflexivity. Qed.

  Lemma steps_1 s : steps 1 s = (fst (stepx s), snd (stepx s)).
  Proof. cbn [steps]. destruct (stepx s) as [[s'|x] ev]; cbn [fst snd]; [now rewrite app_nil_r|reflexivity]. Qed.

  Lemma steps_app n m s :
    steps (n + m) s = match steps n s with
                      | (inl s', ev) => (fst (steps m s'), ev ++ snd (steps m s'))
                      | (inr x, ev) => (inr x, ev)
                      end.
  Proof.
    revert s; induction n as [|n IH]; intros s; cbn [Nat.add steps].
    - now destruct (steps m s).
    - destruct (stepx s) as [[s1|x] ev1]; [|reflexivity].
      rewrite IH. destruct (steps n s1) as [[s2|x] ev2]; cbn [fst snd]; [now rewrite app_assoc|reflexivity].
  Qed.

  Lemma steps_final_unique a b s x y e1 e2 :
    steps a s = (inr x, e1) -> steps b s = (inr y, e2) -> x = y /\ e1 = e2.
  Proof.
    intros Ha Hb. pose proof (steps_app a b s) as H1. pose proof (steps_app b a s) as H2.
    rewrite Ha in H1. rewrite Hb, Nat.add_comm, H1 in H2. inversion H2; auto.
  Qed.

  (* [steps] against the real loop *)
  Lemma steps_run_from n f s out :
    run_fromx (n + f) s out =
      match steps n s with
      | (inl s', ev) => run_fromx f s' (out ++ filter visiblex ev)
      | (inr (r, s'), ev) => (r, s', out ++ filter visiblex ev)
      end.
  Proof.
    revert s out; induction n as [|n IH]; intros s out.
    - cbn [Nat.add steps filter]. now rewrite app_nil_r.
    - cbn [Nat.add steps run_from]. destruct (stepx s) as [[s1|[r s1]] ev1]; [|reflexivity].
      rewrite IH. destruct (steps n s1) as [[s2|[r s2]] ev2]; now rewrite filter_app, app_assoc.
  Qed.

  (* the action on a non-error cell, for a state that is not in consume mode *)
  Definition plain_action (s : pst) (t : nat) (e : entry) : outcome * list event :=
    match e_kind e with
    | KError => (inr (Reject, s), [])     (* not used: plain_action is only stated for non-error cells *)
    | KShift =>
        match e_arg e with
        | None => (inr (Crash CrGotoUninit, s), [])
        | Some nst =>
            let ev := [EvShift (ps_sp s) nst (ps_it s) (ps_end s - ps_it s)] in
            if fullx (length (ps_cursors s)) then (inr (Throw, s), ev) else
            if Nat.ltb (length buf) (ps_end s) then (inr (Crash CrBufferOverrun, s), ev) else
            (inl (consumex (set_stacks s (nst :: ps_cursors s)
                                       (term_f t (ps_it s) (ps_end s - ps_it s) (ps_sp s) :: ps_values s))), ev)
        end
    | KShiftErr =>
        match e_arg e with
        | None => (inr (Crash CrGotoUninit, s), [])
        | Some nst =>
            if fullx (length (ps_cursors s)) then (inr (Throw, s), [EvShiftErr (ps_sp s) nst]) else
            (inl (fst (spec_shift_err V C err_f s nst)), snd (spec_shift_err V C err_f s nst))
        end
    | KReduce =>
        match e_arg e with
        | None => (inr (Crash CrRRArg, s), [])
        | Some r => match reducex s r with
                    | inl (s3, ev) => (inl s3, ev)
                    | inr res => (inr (res, s), [])
                    end
        end
    | KRR =>
        match e_arg e with
        | None => (inr (Crash CrRRArg, s), [EvRR (ps_sp s)])
        | Some r => match reducex s r with
                    | inl (s3, ev) => (inl s3, EvRR (ps_sp s) :: ev)
                    | inr res => (inr (res, s), [EvRR (ps_sp s)])
                    end
        end
    | KSuccess =>
        match rev (ps_values s) with
        | [] => (inr (Crash CrNoValue, s), [EvSuccess (ps_sp s)])
        | v :: _ => (inr (Accept v, s), [EvSuccess (ps_sp s)])
        end
    end.

  (* a non-error cell: leave consume mode (one LeaveConsume line if it was on), then act as usual *)
  Lemma act_action s1 cursor t e :
    cell tbl cursor (nterm_count g + t) = inl e -> e_kind e <> KError ->
    actx s1 cursor t = (fst (plain_action (clr s1) t e), lc s1 ++ snd (plain_action (clr s1) t e)).
  Proof.
    intros H K. rewrite act_eq. unfold decide, plain_action, spec_shift_err. rewrite H, ?reduce_eq, ?clr_cursors, ?clr_values, ?clr_end.
    destruct (e_kind e); try congruence.
    - cbn [perform]. destruct (rev (ps_values s1)); cbn [fst snd]; now simp_ps.
    - destruct (e_arg e); [|reflexivity]. destruct (fullx _); [|destruct (Nat.ltb _ _)]; cbn [perform fst snd]; now simp_mv.
    - destruct (e_arg e); [|reflexivity]. destruct (fullx _); cbn [perform fst snd]; now simp_mv.
    - destruct (e_arg e) as [r|]; [|reflexivity]. rewrite reduce_eq, clr_cursors, clr_values.
      destruct (decide_reduce _ _ _ _ _ r) as [[ri nst]|x]; cbn [perform fst snd]; now simp_ps.
    - destruct (e_arg e) as [r|]; [|cbn [perform rr_line fst snd]; now simp_ps]. rewrite reduce_eq, clr_cursors, clr_values.
      destruct (decide_reduce _ _ _ _ _ r) as [[ri nst]|x]; cbn [perform rr_line fst snd app]; now simp_ps.
  Qed.

  Lemma act_plain s1 cursor t e :
    cell tbl cursor (nterm_count g + t) = inl e -> e_kind e <> KError -> ps_cons s1 = false ->
    actx s1 cursor t = plain_action s1 t e.
  Proof.
    intros H K Hc. rewrite (act_action _ _ _ _ H K). destruct (clr_id V C s1 Hc) as [-> ->]. now destruct (plain_action s1 t e).
  Qed.

  (* all the algorithm ever asks of a cell: is it absent, an error cell, or an action *)
  Inductive cell_view (st col : nat) : option kind -> Prop :=
  | CvAbsent c : cell tbl st col = inr c -> c = CrTableRow \/ c = CrTableCol -> cell_view st col None
  | CvError e : cell tbl st col = inl e -> e_kind e = KError -> cell_view st col (Some KError)
  | CvAction e : cell tbl st col = inl e -> e_kind e <> KError -> cell_view st col (Some (e_kind e)).

  Lemma cell_cases st col : cell_view st col (ckind st col).
  Proof.
    unfold cell_kind. destruct (cell tbl st col) as [e|c] eqn:Hc.
    - destruct (e_kind e) eqn:Hk; (rewrite <- Hk; apply (CvAction _ _ _ Hc); congruence) || now apply (CvError _ _ _ Hc).
    - exact (CvAbsent _ _ c Hc (cell_inr _ _ _ _ Hc)).
  Qed.

  Lemma is_error_cell_true st col :
    is_error_cell tbl st col = true -> exists e, cell tbl st col = inl e /\ e_kind e = KError.
  Proof.
    unfold is_error_cell. destruct (cell_cases st col) as [c|e|e]; [discriminate|eauto|].
    destruct (e_kind e); congruence.
  Qed.

  (* [rejects_err st] is [is_error_cell] at the error column *)
  Lemma rej_cell st : rej st = true -> exists e, cell tbl st errcol = inl e /\ e_kind e = KError.
  Proof. exact (is_error_cell_true st errcol). Qed.

  Lemma acc_cell st : acc st = true -> exists e, cell tbl st errcol = inl e /\ e_kind e <> KError.
  Proof. unfold accepts_err. destruct (cell_cases st errcol) as [c|e|e]; [discriminate|discriminate|eauto]. Qed.

  Lemma acc_rej_excl st : acc st = true -> rej st = true -> False.
  Proof.
    unfold accepts_err, rejects_err. destruct (ckind st errcol) as [[]|]; congruence.
  Qed.

  Lemma nocell_cell st : acc st = false -> rej st = false -> exists c, cell tbl st errcol = inr c /\ (c = CrTableRow \/ c = CrTableCol).
  Proof.
    unfold accepts_err, rejects_err. destruct (cell_cases st errcol) as [c|e|e]; [eauto|discriminate|].
    destruct (e_kind e); congruence.
  Qed.

  (* number of pops the driver performs: k, or the whole stack *)
  Definition pop_steps (cs : list nat) : nat := match dropc cs with Some k => k | None => length cs end.

  (* The states the pop phase removes are [firstn (pop_steps cs) cs], whether or not a state accepts: none of them
     accepts the error symbol, inside the domain all of them reject it, and [drop_count] answers [Some] exactly
     when an accepting state follows them. *)
  Lemma popped_prefix cs :
    Forall (fun st => acc st = false) (firstn (pop_steps cs) cs) /\
    (popdef cs = true -> Forall (fun st => rej st = true) (firstn (pop_steps cs) cs)) /\
    match dropc cs with
    | Some k => exists st, nth_error cs k = Some st /\ acc st = true
    | None => True
    end.
  Proof.
    induction cs as [|c cs (IH1 & IH2 & IH3)]; [cbn; auto|].
    unfold pop_steps in *. cbn [drop_count pop_defined]. destruct (acc c) eqn:Ha; [cbn; eauto|].
    assert (E : match option_map S (dropc cs) with Some k => k | None => length (c :: cs) end
                = S match dropc cs with Some k => k | None => length cs end) by (destruct (dropc cs); reflexivity).
    rewrite E. cbn [firstn orb]. split; [auto|]. split.
    - intros H. apply andb_true_iff in H as [H1 H2]. auto.
    - destruct (dropc cs); exact IH3.
  Qed.

  Lemma drop_count_none cs : dropc cs = None <-> Forall (fun st => acc st = false) cs.
  Proof.
    pose proof (popped_prefix cs) as P. unfold pop_steps in P. split.
    - intros Hd. rewrite Hd, firstn_all in P. apply P.
    - intros H. destruct (dropc cs) as [k|]; [|reflexivity]. destruct P as (_ & _ & st & P3 & P4).
      rewrite Forall_forall in H. rewrite (H st (nth_error_In _ _ P3)) in P4. discriminate.
  Qed.

  (* with nothing but error cells in the error column no state accepts the error symbol *)
  Lemma empty_col_acc st : (forall st e, cell tbl st errcol = inl e -> e_kind e = KError) -> acc st = false.
  Proof.
    intros Herr. unfold accepts_err, cell_kind. destruct (cell tbl st errcol) as [e|] eqn:E; [|reflexivity]. now rewrite (Herr _ _ E).
  Qed.

  Lemma empty_col_drop cs : (forall st e, cell tbl st errcol = inl e -> e_kind e = KError) -> dropc cs = None.
  Proof. intros Herr. apply drop_count_none, Forall_forall. intros st _. now apply empty_col_acc. Qed.

  Lemma drop_count_lt cs k : dropc cs = Some k -> k < length cs.
  Proof.
    intros Hd. pose proof (popped_prefix cs) as P. rewrite Hd in P. destruct P as (_ & _ & st & P3 & _).
    apply nth_error_Some. congruence.
  Qed.

  (* a specified phase outcome as an outcome of the loop: failure of recovery is the result Reject *)
  Definition as_outcome (x : (pst * list event) + (pst * list event)) : outcome * list event :=
    match x with
    | inl (s', ev) => (inl s', ev)
    | inr (s', ev) => (inr (Reject, s'), ev)
    end.

  (* one pop: recovery mode, the top rejects the error symbol *)
  Lemma step_pop s c0 below :
    ps_rec s = true -> ps_cons s = false -> ps_cursors s = c0 :: below -> rej c0 = true ->
    stepx s = match below with
              | [] => (inr (Reject, set_stacks s [] (tl (ps_values s))), [EvCouldNotRecover (ps_sp s)])
              | c1 :: _ => (inl (set_stacks s below (tl (ps_values s))), [EvRecoveringTo (ps_sp s) c1])
              end.
  Proof.
    intros Hr Hc Hcs Hrej. rewrite (step_rec Hr Hcs), act_eq.
    apply rej_cell in Hrej as (e & He & Hk). rewrite (decide_error _ He Hk), Hc, Hr, Hcs.
    cbn [tl]. destruct below; cbn [perform]; unfold pop1; now rewrite Hcs.
  Qed.

  Lemma pop_steps_cons c0 cs : acc c0 = false -> pop_steps (c0 :: cs) = S (pop_steps cs).
  Proof. unfold pop_steps. cbn [drop_count length]. intros ->. now destruct (dropc cs). Qed.

  (* Dropping, from any configuration in recovery mode: the driver pops while the top state rejects the error
     symbol. Inside the domain of the specification that is the specified outcome; outside it, the first stacked
     state without a cell in the error-symbol column ends the run with a crash. *)
  Lemma drop_steps s :
    ps_rec s = true -> ps_cons s = false -> ps_cursors s <> [] ->
    if popdef (ps_cursors s) then steps (pop_steps (ps_cursors s)) s = as_outcome (sdrop s)
    else exists n s' c ev, n < length (ps_cursors s) /\ steps (S n) s = (inr (Crash c, s'), ev) /\
                           (c = CrTableRow \/ c = CrTableCol).
  Proof.
    remember (ps_cursors s) as cs eqn:Hcs. revert s Hcs.
    induction cs as [|c0 below IH]; intros s Hcs Hr Hc Hne; [congruence|].
    cbn [pop_defined]. destruct (acc c0) eqn:Ha; cbn [orb].
    - (* the top accepts: nothing to do *)
      unfold spec_drop, pop_steps. rewrite <- Hcs. cbn [drop_count]. rewrite Ha.
      cbn [steps as_outcome skipn firstn map]. now rewrite Hcs, set_stacks_id.
    - destruct (rej c0) eqn:Hrej; cbn [andb].
      2:{ destruct (nocell_cell _ Ha Hrej) as (c & Hcell & Hcc). exists 0, s, c, [].
          split; [cbn [length]; lia|]. split; [|exact Hcc].
          rewrite steps_1, (step_rec Hr (eq_sym Hcs)), act_eq, (decide_nocell _ Hcell). reflexivity. }
      pose proof (step_pop s c0 below Hr Hc (eq_sym Hcs) Hrej) as Hstep.
      rewrite (pop_steps_cons _ _ Ha). unfold spec_drop. rewrite <- Hcs. cbn [drop_count]. rewrite Ha.
      destruct below as [|c1 b'].
      + (* the last state: could not recover *)
        now rewrite (steps_S_inr _ _ _ _ Hstep).
      + specialize (IH (set_stacks s (c1 :: b') (tl (ps_values s))) eq_refl Hr Hc ltac:(discriminate)).
        cbn [set_stacks ps_cursors] in IH. destruct (popdef (c1 :: b')).
        * rewrite (steps_S_inl _ _ _ _ Hstep), IH. unfold spec_drop. cbn [set_stacks ps_cursors ps_values ps_sp].
          destruct (dropc (c1 :: b')); cbn [option_map length]; rewrite (skipn_S_tl (ps_values s)); reflexivity.
        * destruct IH as (n & s' & c & ev & Hn & Hs & Hcc). exists (S n), s', c, (EvRecoveringTo (ps_sp s) c1 :: ev).
          split; [cbn [length] in *; lia|]. split; [|exact Hcc]. rewrite (steps_S_inl _ _ _ _ Hstep), Hs. reflexivity.
  Qed.

  Theorem drop_refines s :
    ps_rec s = true -> ps_cons s = false -> ps_cursors s <> [] -> popdef (ps_cursors s) = true ->
    steps (pop_steps (ps_cursors s)) s = as_outcome (sdrop s).
  Proof. intros Hr Hc Hne Hdef. pose proof (drop_steps s Hr Hc Hne) as D. now rewrite Hdef in D. Qed.

  (* the pop phase = the report, then dropping from the same configuration in recovery mode *)
  Lemma spop_sdrop s :
    spop s = match sdrop (set_modes s true (ps_cons s)) with
             | inl (s', ev) => inl (s', [EvSyntaxError (ps_sp s) (term_or0 s); EvEnterRecovery (ps_sp s)] ++ ev)
             | inr (s', ev) => inr (s', [EvSyntaxError (ps_sp s) (term_or0 s); EvEnterRecovery (ps_sp s)] ++ ev)
             end.
  Proof.
    unfold spec_pop_phase, spec_drop.
    cbn [ps_cursors ps_values ps_sp ps_it ps_end ps_term ps_rec ps_cons ps_ctx set_modes].
    destruct (dropc (ps_cursors s)); reflexivity.
  Qed.

  (* what [get_current_term] leaves alone, and the pending term it establishes *)
  Lemma gct_facts s s1 a ev1 :
    ps_rec s = false -> gctx s = (s1, Some a, ev1) ->
    ps_term s1 = Some a /\ ps_cursors s1 = ps_cursors s /\ ps_values s1 = ps_values s /\ ps_ctx s1 = ps_ctx s /\
    ps_rec s1 = false /\ ps_cons s1 = ps_cons s.
  Proof.
    intros Hr Hg. pose proof (gct_spec_holds V C g opts buf lexer s) as Hs. rewrite Hg in Hs.
    destruct (gct_stacks Hs) as (H1 & H2 & H3 & H4 & H5).
    destruct (gct_term Hs) as [[H6 _]|[_ H6]]; [congruence|].
    repeat split; congruence.
  Qed.

  (* the iteration that detects the error: report it, switch recovery mode on, touch nothing else *)
  Lemma step_enter s top cs s1 a ev1 e :
    ps_rec s = false -> ps_cons s = false -> ps_cursors s = top :: cs -> gctx s = (s1, Some a, ev1) ->
    cell tbl top (tcol a) = inl e -> e_kind e = KError ->
    stepx s = (inl (set_modes s1 true (ps_cons s1)),
               ev1 ++ [EvSyntaxError (ps_sp s1) (term_or0 s1); EvEnterRecovery (ps_sp s1)]).
  Proof.
    intros Hr Hc Hcs Hg He Hk. destruct (gct_facts _ _ _ _ Hr Hg) as (_ & _ & _ & _ & Hr1 & Hc1).
    rewrite (step_eqx _ _ _ _ _ _ Hcs Hg), (decide_error _ He Hk), Hc1, Hc, Hr1. reflexivity.
  Qed.

  (* one iteration in consume mode on an error cell: <eof> ends the run, any other term is discarded *)
  Lemma step_discard s top cs s1 t ev1 e :
    ps_rec s = false -> ps_cons s = true -> ps_cursors s = top :: cs -> gctx s = (s1, Some t, ev1) ->
    cell tbl top (tcol t) = inl e -> e_kind e = KError ->
    stepx s = if Nat.eqb t (eof_idx g) then (inr (Reject, s1), ev1)
              else (inl (consumex s1), ev1 ++ [EvConsuming (ps_sp s1) t]).
  Proof.
    intros Hr Hc Hcs Hg He Hk. destruct (gct_facts _ _ _ _ Hr Hg) as (Ht & _ & _ & _ & _ & Hc1).
    rewrite (step_eqx _ _ _ _ _ _ Hcs Hg), (decide_error _ He Hk), Hc1, Hc, Ht.
    destruct (Nat.eqb t (eof_idx g)); cbn [perform fst snd]; [now rewrite app_nil_r|unfold term_or0; now rewrite Ht].
  Qed.

  (* From a configuration s in normal mode whose next term a (already pending, or fetched from the lexer
     by this very iteration: s1 is s with that term pending, ev1 the lexer's lines) has an error cell in the
     top state, the driver's next  1 + k  iterations (k = drop_count; the whole stack if there is none) are
     exactly the specified pop phase of s1. *)
  Theorem pop_phase_refines s top cs s1 a ev1 e :
    ps_rec s = false -> ps_cons s = false -> ps_cursors s = top :: cs ->
    gctx s = (s1, Some a, ev1) ->
    cell tbl top (tcol a) = inl e -> e_kind e = KError ->
    popdef (ps_cursors s) = true ->
    steps (S (pop_steps (ps_cursors s))) s = (fst (as_outcome (spop s1)), ev1 ++ snd (as_outcome (spop s1)))
    /\ ps_term s1 = Some a /\ term_or0 s1 = a.
  Proof.
    intros Hr Hc Hcs Hg He Hk Hdef.
    destruct (gct_facts _ _ _ _ Hr Hg) as (Ht & Hcs1 & Hvs1 & _ & Hr1 & Hc1).
    split; [|split; [assumption|unfold term_or0; now rewrite Ht]].
    rewrite (steps_S_inl _ _ _ _ (step_enter _ _ _ _ _ _ _ Hr Hc Hcs Hg He Hk)).
    set (sr := set_modes s1 true (ps_cons s1)).
    assert (Hd : steps (pop_steps (ps_cursors sr)) sr = as_outcome (sdrop sr)).
    { apply drop_refines; subst sr; cbn [set_modes ps_rec ps_cons ps_cursors]; congruence. }
    change (ps_cursors sr) with (ps_cursors s1) in Hd. rewrite Hcs1 in Hd. rewrite Hd.
    rewrite spop_sdrop. fold sr. destruct (sdrop sr) as [[s' ev]|[s' ev]]; cbn [as_outcome fst snd];
      now rewrite <- app_assoc.
  Qed.

  (* the two outcomes apart, [pop_steps] and [as_outcome (spop s1)] resolved; when no state accepts, also: the
     cursor stack ends empty and the trace ends with CouldNotRecover *)
  Corollary pop_phase_refines_some s top cs s1 a ev1 e k :
    ps_rec s = false -> ps_cons s = false -> ps_cursors s = top :: cs ->
    gctx s = (s1, Some a, ev1) -> cell tbl top (tcol a) = inl e -> e_kind e = KError ->
    popdef (ps_cursors s) = true -> dropc (ps_cursors s) = Some k ->
    exists s' ev, spop s1 = inl (s', ev) /\ steps (k + 1) s = (inl s', ev1 ++ ev).
  Proof.
    intros Hr Hc Hcs Hg He Hk Hdef Hd.
    destruct (pop_phase_refines _ _ _ _ _ _ _ Hr Hc Hcs Hg He Hk Hdef) as [H _].
    destruct (gct_facts _ _ _ _ Hr Hg) as (_ & Hcs1 & _).
    unfold pop_steps in H. rewrite Hd in H. replace (k + 1) with (S k) by lia. rewrite H.
    unfold spec_pop_phase. rewrite Hcs1, Hd. eexists _, _. split; reflexivity.
  Qed.

  Corollary pop_phase_refines_none s top cs s1 a ev1 e :
    ps_rec s = false -> ps_cons s = false -> ps_cursors s = top :: cs ->
    gctx s = (s1, Some a, ev1) -> cell tbl top (tcol a) = inl e -> e_kind e = KError ->
    popdef (ps_cursors s) = true -> dropc (ps_cursors s) = None ->
    exists s' ev, spop s1 = inr (s', ev) /\ steps (length (ps_cursors s) + 1) s = (inr (Reject, s'), ev1 ++ ev) /\
                  ps_cursors s' = [] /\ exists ev0, ev = ev0 ++ [EvCouldNotRecover (ps_sp s1)].
  Proof.
    intros Hr Hc Hcs Hg He Hk Hdef Hd.
    destruct (pop_phase_refines _ _ _ _ _ _ _ Hr Hc Hcs Hg He Hk Hdef) as [H _].
    destruct (gct_facts _ _ _ _ Hr Hg) as (_ & Hcs1 & _).
    unfold pop_steps in H. rewrite Hd in H. replace (length (ps_cursors s) + 1) with (S (length (ps_cursors s))) by lia.
    rewrite H. unfold spec_pop_phase. rewrite Hcs1, Hd. eexists _, _. split; [reflexivity|]. split; [reflexivity|].
    split; [reflexivity|]. eexists. rewrite app_assoc. reflexivity.
  Qed.

  (* the term was already pending: no lexer involved, the driver's iterations ARE the specified phase *)
  Corollary pop_phase_refines_pending s top cs a e :
    ps_rec s = false -> ps_cons s = false -> ps_cursors s = top :: cs ->
    ps_it s <> ps_end s -> ps_term s = Some a ->
    cell tbl top (tcol a) = inl e -> e_kind e = KError ->
    popdef (ps_cursors s) = true ->
    steps (S (pop_steps (ps_cursors s))) s = as_outcome (spop s).
  Proof.
    intros Hr Hc Hcs Hne Ht He Hk Hdef.
    assert (Hg : gctx s = (s, Some a, [])) by (rewrite <- Ht; now apply gct_pending).
    destruct (pop_phase_refines _ _ _ _ _ _ _ Hr Hc Hcs Hg He Hk Hdef) as [H _].
    rewrite H. now destruct (as_outcome (spop s)).
  Qed.

  (* the values (and states) below the topmost accepting state survive the pop phase untouched, in order;
     [skipn k] is also right in the corner where the value stack is shorter than the cursor stack *)
  Theorem C08_keeps_lower_values s top cs s1 a ev1 e k :
    ps_rec s = false -> ps_cons s = false -> ps_cursors s = top :: cs ->
    gctx s = (s1, Some a, ev1) -> cell tbl top (tcol a) = inl e -> e_kind e = KError ->
    popdef (ps_cursors s) = true -> dropc (ps_cursors s) = Some k ->
    exists s' ev,
      steps (k + 1) s = (inl s', ev) /\
      ps_values s' = skipn k (ps_values s) /\ ps_cursors s' = skipn k (ps_cursors s) /\
      ps_ctx s' = ps_ctx s /\ ps_rec s' = true /\
      (* one value per surviving state above the bottom, if that held before *)
      (length (ps_values s) + 1 = length (ps_cursors s) -> length (ps_values s') + 1 = length (ps_cursors s')).
  Proof.
    intros Hr Hc Hcs Hg He Hk Hdef Hd.
    destruct (pop_phase_refines_some _ _ _ _ _ _ _ _ Hr Hc Hcs Hg He Hk Hdef Hd) as (s' & ev & Hsp & Hst).
    destruct (gct_facts _ _ _ _ Hr Hg) as (_ & Hcs1 & Hvs1 & Hctx & _).
    exists s', (ev1 ++ ev). split; [exact Hst|].
    unfold spec_pop_phase in Hsp. rewrite Hcs1, Hd in Hsp. inversion Hsp; subst s'.
    cbn [ps_values ps_cursors ps_ctx ps_rec]. rewrite Hvs1. repeat split; try assumption.
    intros Hlen. pose proof (drop_count_lt _ _ Hd). rewrite !skipn_length. lia.
  Qed.

  (* every discarded state rejects the error symbol, the state that becomes the top accepts it: [popped_prefix]
     when the scan finds a state (the next theorem: when it finds none); the last conjunct names the new top twice *)
  Theorem C08_pops_only_rejecting_states cursors k :
    dropc cursors = Some k ->
    Forall (fun st => acc st = false) (firstn k cursors) /\
    (popdef cursors = true -> Forall (fun st => rej st = true) (firstn k cursors)) /\
    exists st, nth_error cursors k = Some st /\ hd_error (skipn k cursors) = Some st /\ acc st = true.
  Proof.
    intros Hd. pose proof (popped_prefix cursors) as P. unfold pop_steps in P. rewrite Hd in P.
    destruct P as (P1 & P2 & st & P3 & P4). rewrite hd_error_skipn. eauto 6.
  Qed.

  (* when recovery fails in the pop phase, every state of the stack rejected the error symbol *)
  Theorem C08_pop_fails_only_if_all_reject cursors :
    dropc cursors = None -> popdef cursors = true -> Forall (fun st => rej st = true) cursors.
  Proof.
    intros Hd. pose proof (popped_prefix cursors) as P. unfold pop_steps in P. rewrite Hd, firstn_all in P. apply P.
  Qed.

  (* outside the domain: a stacked state without a cell in the error-symbol column *)
  Theorem pop_phase_undefined_crashes s top cs s1 a ev1 e :
    ps_rec s = false -> ps_cons s = false -> ps_cursors s = top :: cs ->
    gctx s = (s1, Some a, ev1) -> cell tbl top (tcol a) = inl e -> e_kind e = KError ->
    popdef (ps_cursors s) = false ->
    exists n s' c ev, n < length (ps_cursors s) /\ steps (S (S n)) s = (inr (Crash c, s'), ev) /\
                      (c = CrTableRow \/ c = CrTableCol).
  Proof.
    intros Hr Hc Hcs Hg He Hk Hdef.
    destruct (gct_facts _ _ _ _ Hr Hg) as (_ & Hcs1 & _ & _ & Hr1 & Hc1).
    pose proof (step_enter _ _ _ _ _ _ _ Hr Hc Hcs Hg He Hk) as Hs.
    pose proof (drop_steps (set_modes s1 true (ps_cons s1)) eq_refl (eq_trans Hc1 Hc)) as D.
    cbn [set_modes ps_cursors] in D. rewrite Hcs1, Hdef in D.
    destruct (D ltac:(congruence)) as (n & s' & c & ev & Hn & Hst & Hcc).
    exists n, s', c, ((ev1 ++ [EvSyntaxError (ps_sp s1) (term_or0 s1); EvEnterRecovery (ps_sp s1)]) ++ ev).
    split; [exact Hn|]. split; [|exact Hcc]. rewrite (steps_S_inl _ _ _ _ Hs), Hst. reflexivity.
  Qed.

  (* In recovery mode the error symbol is presented instead of the pending term. If the top state accepts it,
     the iteration is exactly the table's action of the cell (top, error column); [plain_action] spells the
     action out for every kind, the corollaries below instantiate it. *)
  Theorem recovering_step s st cs e :
    ps_rec s = true -> ps_cons s = false -> ps_cursors s = st :: cs ->
    cell tbl st errcol = inl e -> e_kind e <> KError ->
    stepx s = plain_action s (err_idx g) e.
  Proof.
    intros Hr Hc Hcs He Hk. rewrite (step_rec Hr Hcs). now apply act_plain.
  Qed.

  (* KShiftErr n: the error symbol is shifted -- recovery mode off, consume mode on, nothing popped *)
  Corollary recovering_step_shift_err s st cs e n :
    ps_rec s = true -> ps_cons s = false -> ps_cursors s = st :: cs ->
    cell tbl st errcol = inl e -> e_kind e = KShiftErr -> e_arg e = Some n ->
    fullx (length (ps_cursors s)) = false ->
    stepx s = (inl (mkPS (n :: ps_cursors s) (err_f (ps_sp s) :: ps_values s)
                         (ps_sp s) (ps_it s) (ps_end s) (ps_term s) false true (ps_ctx s)),
               [EvShiftErr (ps_sp s) n; EvLeaveRecovery (ps_sp s); EvEnterConsume (ps_sp s)]).
  Proof.
    intros Hr Hc Hcs He Hk Ha Hf. rewrite (recovering_step s st cs e Hr Hc Hcs He) by congruence.
    unfold plain_action. rewrite Hk, Ha, Hf. reflexivity.
  Qed.

  (* ... unless the fixed-capacity stack is full: Throw, after the ShiftErr line *)
  Corollary recovering_step_shift_err_full s st cs e n :
    ps_rec s = true -> ps_cons s = false -> ps_cursors s = st :: cs ->
    cell tbl st errcol = inl e -> e_kind e = KShiftErr -> e_arg e = Some n ->
    fullx (length (ps_cursors s)) = true ->
    stepx s = (inr (Throw, s), [EvShiftErr (ps_sp s) n]).
  Proof.
    intros Hr Hc Hcs He Hk Ha Hf. rewrite (recovering_step s st cs e Hr Hc Hcs He) by congruence.
    unfold plain_action. rewrite Hk, Ha, Hf. reflexivity.
  Qed.

  (* KReduce r (KRR r: the same after an RR line): the ordinary reduction on the error-symbol lookahead. The
     parser is STILL RECOVERING, with the goto state on top; position, pending term and modes are untouched,
     so the next iteration presents the error symbol to the new top ([recovering_step] or a pop, [drop_refines]). *)
  Corollary recovering_step_reduce s st cs e r :
    ps_rec s = true -> ps_cons s = false -> ps_cursors s = st :: cs ->
    cell tbl st errcol = inl e -> e_kind e = KReduce -> e_arg e = Some r ->
    stepx s = match reducex s r with
              | inl (s3, ev) => (inl s3, ev)
              | inr res => (inr (res, s), [])
              end.
  Proof.
    intros Hr Hc Hcs He Hk Ha. rewrite (recovering_step s st cs e Hr Hc Hcs He) by congruence.
    unfold plain_action. rewrite Hk, Ha. reflexivity.
  Qed.

  Corollary recovering_step_rr s st cs e r :
    ps_rec s = true -> ps_cons s = false -> ps_cursors s = st :: cs ->
    cell tbl st errcol = inl e -> e_kind e = KRR -> e_arg e = Some r ->
    stepx s = match reducex s r with
              | inl (s3, ev) => (inl s3, EvRR (ps_sp s) :: ev)
              | inr res => (inr (res, s), [EvRR (ps_sp s)])
              end.
  Proof.
    intros Hr Hc Hcs He Hk Ha. rewrite (recovering_step s st cs e Hr Hc Hcs He) by congruence.
    unfold plain_action. rewrite Hk, Ha. reflexivity.
  Qed.

  Lemma reduce_keeps_recovering s r s3 ev :
    reducex s r = inl (s3, ev) ->
    ps_rec s3 = ps_rec s /\ ps_cons s3 = ps_cons s /\ ps_sp s3 = ps_sp s /\ ps_it s3 = ps_it s /\
    ps_end s3 = ps_end s /\ ps_term s3 = ps_term s /\
    exists ri nst, nth_error (rule_infos g) r = Some ri /\
                   ps_cursors s3 = nst :: skipn (ri_n ri) (ps_cursors s) /\
                   tl (ps_values s3) = skipn (ri_n ri) (ps_values s).
  Proof.
    intros H. destruct (do_reduce_inl H) as (ri & nst & c' & v & H1 & _ & _ & _ & H5 & _). subst s3.
    cbn [set_ctx set_stacks ps_rec ps_cons ps_sp ps_it ps_end ps_term ps_cursors ps_values tl].
    repeat split. eauto.
  Qed.

  (* KShift in the error-symbol column is never produced by the generator (it writes
     KShiftErr there); the model then behaves like an ordinary shift of the PENDING lexeme labelled with the
     error term, and -- the oddity -- stays in recovery mode. *)
  Corollary recovering_step_plain_shift s st cs e n :
    ps_rec s = true -> ps_cons s = false -> ps_cursors s = st :: cs ->
    cell tbl st errcol = inl e -> e_kind e = KShift -> e_arg e = Some n ->
    fullx (length (ps_cursors s)) = false -> ps_end s <= length buf ->
    stepx s = (inl (consumex (set_stacks s (n :: ps_cursors s)
                       (term_f (err_idx g) (ps_it s) (ps_end s - ps_it s) (ps_sp s) :: ps_values s))),
               [EvShift (ps_sp s) n (ps_it s) (ps_end s - ps_it s)])
    /\ ps_rec (consumex (set_stacks s (n :: ps_cursors s)
                       (term_f (err_idx g) (ps_it s) (ps_end s - ps_it s) (ps_sp s) :: ps_values s))) = true.
  Proof.
    intros Hr Hc Hcs He Hk Ha Hf Hb. rewrite (recovering_step s st cs e Hr Hc Hcs He) by congruence.
    unfold plain_action. rewrite Hk, Ha, Hf. apply Nat.ltb_ge in Hb. rewrite Hb. split; [reflexivity|exact Hr].
  Qed.

  (* KSuccess in the error-symbol column: the run ends, accepting the bottom value *)
  Corollary recovering_step_success s st cs e :
    ps_rec s = true -> ps_cons s = false -> ps_cursors s = st :: cs ->
    cell tbl st errcol = inl e -> e_kind e = KSuccess ->
    stepx s = match rev (ps_values s) with
              | [] => (inr (Crash CrNoValue, s), [EvSuccess (ps_sp s)])
              | v :: _ => (inr (Accept v, s), [EvSuccess (ps_sp s)])
              end.
  Proof.
    intros Hr Hc Hcs He Hk. rewrite (recovering_step s st cs e Hr Hc Hcs He) by congruence.
    unfold plain_action. rewrite Hk. reflexivity.
  Qed.

  (* ... and a top state that rejects the error symbol is popped ([step_pop]); a missing cell is a crash.
     So in recovery mode every iteration is: error action | pop | crash, decided by the top state alone. *)
  Theorem recovering_step_trichotomy s st cs :
    ps_rec s = true -> ps_cons s = false -> ps_cursors s = st :: cs ->
    (acc st = true /\ exists e, cell tbl st errcol = inl e /\ e_kind e <> KError /\ stepx s = plain_action s (err_idx g) e) \/
    (rej st = true /\ stepx s = as_outcome (match cs with
                                             | [] => inr (set_stacks s [] (tl (ps_values s)), [EvCouldNotRecover (ps_sp s)])
                                             | c1 :: _ => inl (set_stacks s cs (tl (ps_values s)), [EvRecoveringTo (ps_sp s) c1])
                                             end)) \/
    (acc st = false /\ rej st = false /\ exists c, stepx s = (inr (Crash c, s), []) /\ (c = CrTableRow \/ c = CrTableCol)).
  Proof.
    intros Hr Hc Hcs. destruct (acc st) eqn:Ha; [left|right; destruct (rej st) eqn:Hj; [left|right]].
    - split; [reflexivity|]. destruct (acc_cell _ Ha) as (e & He & Hk). exists e. repeat split; auto.
      now apply (recovering_step s st cs e).
    - split; [reflexivity|]. rewrite (step_pop s st cs Hr Hc Hcs Hj). destruct cs; reflexivity.
    - repeat split. destruct (nocell_cell _ Ha Hj) as (c & Hcell & Hcc). exists c. split; [|exact Hcc].
      rewrite (step_rec Hr Hcs), act_eq, (decide_nocell _ Hcell). reflexivity.
  Qed.

  (* k = 0: the state in which the error is detected accepts the error symbol itself. Nothing is popped: after
     the reporting iteration both stacks are those of s, and the following iteration is the table's action
     of that same state on the error symbol (not a pop). *)
  Theorem C08_no_pop_when_top_accepts s top cs s1 a ev1 e :
    ps_rec s = false -> ps_cons s = false -> ps_cursors s = top :: cs ->
    gctx s = (s1, Some a, ev1) -> cell tbl top (tcol a) = inl e -> e_kind e = KError ->
    acc top = true ->
    exists s' e',
      stepx s = (inl s', ev1 ++ [EvSyntaxError (ps_sp s1) a; EvEnterRecovery (ps_sp s1)]) /\
      ps_cursors s' = ps_cursors s /\ ps_values s' = ps_values s /\ ps_ctx s' = ps_ctx s /\
      ps_rec s' = true /\ ps_cons s' = false /\
      cell tbl top errcol = inl e' /\ e_kind e' <> KError /\
      stepx s' = plain_action s' (err_idx g) e'.
  Proof.
    intros Hr Hc Hcs Hg He Hk Ha.
    destruct (gct_facts _ _ _ _ Hr Hg) as (Ht & Hcs1 & Hvs1 & Hctx & Hr1 & Hc1).
    pose proof (step_enter _ _ _ _ _ _ _ Hr Hc Hcs Hg He Hk) as Hs.
    assert (Hto : term_or0 s1 = a) by (unfold term_or0; now rewrite Ht). rewrite Hto in Hs.
    destruct (acc_cell _ Ha) as (e' & He' & Hk').
    exists (set_modes s1 true (ps_cons s1)), e'. split; [exact Hs|].
    cbn [set_modes ps_cursors ps_values ps_ctx ps_rec ps_cons]. repeat split; try congruence.
    apply (recovering_step _ top cs); [reflexivity|cbn; congruence..|exact He'|exact Hk'].
  Qed.

  Lemma discarded_app a b : discarded_terms (a ++ b) = discarded_terms a ++ discarded_terms b.
  Proof. induction a as [|x a IH]; cbn [app discarded_terms]; [reflexivity|]. destruct x; cbn [app]; congruence. Qed.

  Lemma discarded_lex lx : discarded_terms (map EvLex lx) = [].
  Proof. induction lx; cbn [map discarded_terms]; auto. Qed.

  Lemma gct_no_discard s s1 ot ev1 : gct_spec V C g opts buf lexer s (s1, ot, ev1) -> discarded_terms ev1 = [].
  Proof. intros H; inversion H; subst; try reflexivity; now rewrite discarded_app, discarded_lex. Qed.

  (* what "consume mode was left by acting on t" means for the driver: after m discarding iterations, iteration
     m+1 is LeaveConsume followed by the ordinary action (plain_action) of the resumed configuration s' on its
     pending term t, whose cell e in the (unchanged) top state is not an error cell. n only bounds m (the fuel of
     [consume_phase_refines]); top is the head of [ps_cursors s]. *)
  Definition resumes (n : nat) (s : pst) (top : nat) (s' : pst) (ev : list event) : Prop :=
    exists m t e,
      m < n /\ length (discarded_terms ev) = m /\
      ps_term s' = Some t /\ cell tbl top (tcol t) = inl e /\ e_kind e <> KError /\
      ps_rec s' = false /\ ps_cons s' = false /\
      ps_cursors s' = ps_cursors s /\ ps_values s' = ps_values s /\ ps_ctx s' = ps_ctx s /\
      steps (S m) s = (fst (plain_action s' t e), ev ++ snd (plain_action s' t e)).

  Theorem consume_phase_refines n : forall s top cs,
    ps_rec s = false -> ps_cons s = true -> ps_cursors s = top :: cs ->
    match sconsume n s with
    | (CoResume s', ev) => resumes n s top s' ev
    | (CoFail s', ev) => exists m, 1 <= m <= n /\ steps m s = (inr (Reject, s'), ev)
    | (CoNoCell s', ev) => exists m c, 1 <= m <= n /\ steps m s = (inr (Crash c, s'), ev) /\ (c = CrTableRow \/ c = CrTableCol)
    | (CoMore s', ev) =>
        steps n s = (inl s', ev) /\ length (discarded_terms ev) = n /\
        ps_rec s' = false /\ ps_cons s' = true /\
        ps_cursors s' = ps_cursors s /\ ps_values s' = ps_values s /\ ps_ctx s' = ps_ctx s
    end.
  Proof.
    induction n as [|n IH]; intros s top cs Hr Hc Hcs.
    { cbn [spec_consume steps discarded_terms length]. repeat split; assumption. }
    cbn [spec_consume].
    pose proof (gct_spec_holds V C g opts buf lexer s) as Hsp.
    destruct (gctx s) as [[s1 ot] ev1] eqn:Hg.
    destruct (gct_stacks Hsp) as (Hcs1 & Hvs1 & Hctx1 & Hr1 & Hc1).
    pose proof (gct_no_discard _ _ _ _ Hsp) as Hnd.
    destruct ot as [t|].
    2:{ exists 1. split; [lia|]. rewrite steps_1, (step_lexfail Hcs Hg). reflexivity. }
    unfold top_state. rewrite Hcs. cbn [hd].
    destruct (cell_cases top (tcol t)) as [c Hcell Hcc|e Hcell Hk|e Hcell Hk].
    - exists 1, c. split; [lia|]. split; [|exact Hcc].
      rewrite steps_1, (step_eqx _ _ _ _ _ _ Hcs Hg), (decide_nocell _ Hcell). cbn [perform fst snd]. now rewrite app_nil_r.
    - pose proof (step_discard _ _ _ _ _ _ _ Hr Hc Hcs Hg Hcell Hk) as Hstep.
      destruct (Nat.eqb t (eof_idx g)).
      { exists 1. split; [lia|]. now rewrite steps_1, Hstep. }
      (* t is discarded; the rest of the phase is the phase from [consumex s1], one iteration later *)
      specialize (IH (consumex s1) top cs (eq_trans Hr1 Hr) (eq_trans Hc1 Hc) (eq_trans Hcs1 Hcs)).
      assert (Hd : forall x, length (discarded_terms (ev1 ++ EvConsuming (ps_sp s1) t :: x)) = S (length (discarded_terms x))).
      { intros x. rewrite discarded_app, Hnd. reflexivity. }
      destruct (sconsume n (consumex s1)) as [[s'|s'|s'|s'] ev'].
      + destruct IH as (m & t' & e' & Hm & Hl & Ht' & He' & Hk' & Hr' & Hc' & Hcs' & Hvs' & Hctx' & Hst).
        exists (S m), t', e'. rewrite Hd, Hl, Hcs', Hvs', Hctx'. cbn [consume_term set_pos ps_cursors ps_values ps_ctx].
        repeat split; try assumption; try congruence; try lia.
        rewrite (steps_S_inl _ _ _ _ Hstep), Hst. cbn [fst snd]. now rewrite <- !app_assoc.
      + destruct IH as (m & Hm & Hst).
        exists (S m). split; [lia|]. rewrite (steps_S_inl _ _ _ _ Hstep), Hst. cbn [fst snd]. now rewrite <- app_assoc.
      + destruct IH as (m & c & Hm & Hst & Hcc).
        exists (S m), c. split; [lia|]. split; [|exact Hcc].
        rewrite (steps_S_inl _ _ _ _ Hstep), Hst. cbn [fst snd]. now rewrite <- app_assoc.
      + destruct IH as (Hst & Hl & Hr' & Hc' & Hcs' & Hvs' & Hctx').
        rewrite Hd, Hl, Hcs', Hvs', Hctx'. cbn [consume_term set_pos ps_cursors ps_values ps_ctx].
        repeat split; try assumption; try congruence.
        rewrite (steps_S_inl _ _ _ _ Hstep), Hst. cbn [fst snd]. now rewrite <- app_assoc.
    - (* the first term the top state can act on *)
      destruct (gct_facts _ _ _ _ Hr Hg) as (Ht & _).
      assert (Hres : resumes (S n) s top (set_modes s1 (ps_rec s1) false) (ev1 ++ [EvLeaveConsume (ps_sp s1)])).
      { exists 0, t, e. rewrite discarded_app, Hnd. cbn [set_modes ps_term ps_rec ps_cons ps_cursors ps_values ps_ctx].
        repeat split; try assumption; try congruence; try lia.
        rewrite steps_1, (step_gct Hcs Hg), (act_action _ _ _ _ Hcell Hk). unfold clr, lc. rewrite Hc1, Hc.
        cbn [fst snd]. now rewrite <- app_assoc. }
      destruct (e_kind e); try exact Hres. congruence.
  Qed.

  (* the specification's own guarantee: everything it discards has an error cell in the top state and is not <eof> *)
  Lemma spec_consume_discards n : forall s top cs,
    ps_cursors s = top :: cs ->
    Forall (fun t => ckind top (tcol t) = Some KError /\ t <> eof_idx g) (discarded_terms (snd (sconsume n s))).
  Proof.
    induction n as [|n IH]; intros s top cs Hcs; cbn [spec_consume]; [constructor|].
    pose proof (gct_spec_holds V C g opts buf lexer s) as Hsp.
    destruct (gctx s) as [[s1 ot] ev1].
    pose proof (gct_no_discard _ _ _ _ Hsp) as Hnd. destruct (gct_stacks Hsp) as (Hcs1 & _).
    destruct ot as [t|]; [|cbn [snd]; rewrite Hnd; constructor].
    unfold top_state. rewrite Hcs. cbn [hd].
    destruct (ckind top (tcol t)) as [[]|] eqn:Hck; cbn [snd]; rewrite ?discarded_app, ?Hnd; try constructor.
    destruct (Nat.eqb t (eof_idx g)) eqn:Heof; [cbn [snd]; rewrite Hnd; constructor|].
    specialize (IH (consumex s1) top cs (eq_trans Hcs1 Hcs)). destruct (sconsume n (consumex s1)) as [o' ev'].
    cbn [snd] in *. rewrite discarded_app, Hnd. constructor; [|exact IH]. split; [exact Hck|now apply Nat.eqb_neq].
  Qed.

  (* consume mode ends at the FIRST term the top state can act on: the m terms discarded before it all had
     error cells there; that term is not discarded but acted on, by the ordinary action, in the same iteration
     that leaves consume mode; stacks and context are those at the start of the phase *)
  Theorem C08_consume_stops_at_first_actionable_term n s top cs s' ev :
    ps_rec s = false -> ps_cons s = true -> ps_cursors s = top :: cs ->
    sconsume n s = (CoResume s', ev) ->
    resumes n s top s' ev /\
    Forall (fun t => ckind top (tcol t) = Some KError /\ t <> eof_idx g) (discarded_terms ev).
  Proof.
    intros Hr Hc Hcs H. split.
    - pose proof (consume_phase_refines n s top cs Hr Hc Hcs) as R. now rewrite H in R.
    - pose proof (spec_consume_discards n s top cs Hcs) as D. now rewrite H in D.
  Qed.

  (* <eof> with an error cell while discarding: the run ends at once with Reject *)
  Theorem C08_eof_while_discarding_fails s top cs s1 ev1 :
    ps_rec s = false -> ps_cons s = true -> ps_cursors s = top :: cs ->
    gctx s = (s1, Some (eof_idx g), ev1) -> ckind top (tcol (eof_idx g)) = Some KError ->
    stepx s = (inr (Reject, s1), ev1) /\
    (forall n, sconsume (S n) s = (CoFail s1, ev1)) /\
    (forall f out, run_fromx (S f) s out = (Reject, s1, out ++ filter visiblex ev1)).
  Proof.
    intros Hr Hc Hcs Hg Hk.
    assert (Hstep : stepx s = (inr (Reject, s1), ev1)).
    { revert Hk. destruct (cell_cases top (tcol (eof_idx g))) as [c|e He Hke|e He Hke]; [discriminate| |congruence]. intros _.
      rewrite (step_discard _ _ _ _ _ _ _ Hr Hc Hcs Hg He Hke), Nat.eqb_refl. reflexivity. }
    split; [exact Hstep|]. split.
    - intros n. cbn [spec_consume]. rewrite Hg. unfold top_state. rewrite Hcs. cbn [hd]. rewrite Hk, Nat.eqb_refl. reflexivity.
    - intros f out. cbn [run_from]. rewrite Hstep. reflexivity.
  Qed.

  (* a lexical failure while discarding: likewise *)
  Theorem C08_lexfail_while_discarding_fails s top cs s1 ev1 :
    ps_cursors s = top :: cs -> gctx s = (s1, None, ev1) ->
    stepx s = (inr (Reject, s1), ev1) /\
    (forall n, sconsume (S n) s = (CoFail s1, ev1)) /\
    (forall f out, run_fromx (S f) s out = (Reject, s1, out ++ filter visiblex ev1)).
  Proof.
    intros Hcs Hg. pose proof (step_lexfail Hcs Hg : stepx s = _) as Hstep.
    split; [exact Hstep|]. split.
    - intros n. cbn [spec_consume]. rewrite Hg. reflexivity.
    - intros f out. cbn [run_from]. rewrite Hstep. reflexivity.
  Qed.

  (* recovery mode and consume mode are never on together: [modes_inv] of Proofs/SafeBasics.v *)
  Definition modes_ok (s : pst) : Prop := ps_rec s = false \/ ps_cons s = false.

  (* a configuration has a pending lexeme (it <> end) only with a pending term: [term_inv] of Proofs/DriverBasics.v *)
  Definition pending_ok (s : pst) : Prop := ps_it s = ps_end s \/ ps_term s <> None.

  Notation track := err_track.

  Lemma track_app b l1 l2 :
    track b (l1 ++ l2) = match track b l1 with Some b' => track b' l2 | None => None end.
  Proof.
    revert b; induction l1 as [|x l1 IH]; intros b; cbn [app err_track]; [reflexivity|].
    destruct x; try apply IH. destruct b; [reflexivity|apply IH].
  Qed.

  Lemma track_lex b lx : track b (map EvLex lx) = Some b.
  Proof. induction lx; cbn [map err_track]; auto. Qed.

  (* fetching the term and leaving consume mode write neither of the two lines [err_track] reads *)
  Lemma gct_track b s s1 ot ev1 : gct_spec V C g opts buf lexer s (s1, ot, ev1) -> track b ev1 = Some b.
  Proof. intros H; inversion H; subst; try reflexivity; rewrite track_app, track_lex; reflexivity. Qed.

  Lemma track_lc b (s1 : pst) : track b (lc s1) = Some b.
  Proof. unfold lc. destruct (ps_cons s1); reflexivity. Qed.

  (* one iteration: the bit "an error is open" is the recovery-mode flag, before and after. An iteration that ends
     the run may leave the bit either way: of it only "no second report while one is open" is needed. *)
  Lemma step_track s :
    match fst (stepx s) with
    | inl s' => track (ps_rec s) (snd (stepx s)) = Some (ps_rec s')
    | inr (r, s') => exists b, track (ps_rec s) (snd (stepx s)) = Some b
    end.
  Proof.
    apply step_movesx; cbn [fst snd].
    - intros _. cbn [err_track]. eauto.
    - intros s1 ev1 _ _ Hg. rewrite (gct_track _ _ _ _ _ Hg). eauto.
    - intros cursor cs s1 t ev1 m _ _ Hg Hd. destruct (gct_stacks Hg) as (_ & _ & _ & Hr1 & _).
      rewrite track_app, (gct_track _ _ _ _ _ Hg), <- Hr1. clear Hr1.
      (* the lines of each move are concrete: the bit is computed *)
      destruct Hd; cbn [perform fst snd]; rewrite ?track_app, ?track_lc;
        try match goal with |- context [rr_line ?rr _] => destruct rr end;
        cbn [rr_line app err_track shift_line]; simp_mv;
        try match goal with H : ps_rec s1 = _ |- _ => rewrite H end; eauto.
  Qed.

  (* what holds at every loop head of a run from the initial configuration: the two mode flags are not both on,
     a pending lexeme has a term, and "an error is open" is the recovery-mode flag *)
  Definition run_inv (vis : list pst) (s : pst) : Prop :=
    modes_ok s /\ pending_ok s /\ track false (all_eventsx vis) = Some (ps_rec s).

  Lemma run_inv_holds fuel c :
    let '(r, s', _, vis) := run_ghx fuel (init c) [] [] in
    (exists b, track false (all_eventsx vis) = Some b) /\ (r = OutOfFuel -> run_inv vis s').
  Proof.
    apply (run_gh_inv V C g tbl opts buf cap lexer term_f err_f rule_f run_inv
             (fun vis r s' => (exists b, track false (all_eventsx vis) = Some b) /\ (r = OutOfFuel -> run_inv vis s'))).
    - intros vis s H. split; [destruct H as (_ & _ & H); eauto|auto].
    - intros vis s (Hm & Hp & Ht). unfold run_inv. rewrite all_events_snoc, track_app, Ht.
      pose proof (step_modes V C g tbl opts buf cap lexer term_f err_f rule_f s Hm) as M. pose proof (step_track s) as T.
      pose proof (step_term_inv V C g tbl opts buf cap lexer term_f err_f rule_f s Hp) as P.
      destruct (fst (stepx s)) as [s'|[r s']] eqn:E; [exact (conj M (conj P T))|].
      destruct T as [b T]. split; [eauto|]. intros ->. destruct (step_final E).
    - exact (conj (or_introl eq_refl) (conj (or_introl eq_refl) eq_refl)).
  Qed.

  (* Reading all lines of a run (the ghost [all_events], which is the output itself when verbose is on):
     a SyntaxError line never occurs while an earlier one is unanswered by a ShiftErr line; and at every loop
     head "an error is open" is exactly "recovery mode is on" -- so recovery mode is entered only by a report
     and left only by shifting the error symbol. *)
  Theorem C08_track_invariant fuel c :
    let '(r, s', _, vis) := run_ghx fuel (init c) [] [] in
    exists b, track false (all_eventsx vis) = Some b /\ (r = OutOfFuel -> b = ps_rec s').
  Proof.
    pose proof (run_inv_holds fuel c) as X. destruct (run_ghx fuel (init c) [] []) as [[[r s'] out] vis].
    destruct X as [[b Hb] X]. exists b. split; [exact Hb|]. intros E. destruct (X E) as (_ & _ & T). congruence.
  Qed.

  (* the list form: between two SyntaxError lines there is a ShiftErr line *)
  Lemma track_open_closed mid : track true mid = Some false -> exists q n, In (EvShiftErr q n) mid.
  Proof.
    induction mid as [|x mid IH]; cbn [err_track]; [discriminate|].
    destruct x; try (intros H; destruct (IH H) as (q & n & Hin); exists q, n; right; exact Hin).
    - intros _. eexists _, _. left. reflexivity.
    - discriminate.
  Qed.

  Lemma track_between b b' evs e1 p a mid p' a' e2 :
    track b evs = Some b' ->
    evs = e1 ++ [EvSyntaxError p a] ++ mid ++ [EvSyntaxError p' a'] ++ e2 ->
    exists q n, In (EvShiftErr q n) mid.
  Proof.
    intros H E. subst evs. rewrite track_app in H.
    destruct (track b e1) as [b1|]; [|discriminate].
    cbn [app err_track] in H. destruct b1; [discriminate|].
    rewrite track_app in H. destruct (track true mid) as [b2|] eqn:Hm; [|discriminate].
    cbn [app err_track] in H. destruct b2; [discriminate|]. now apply track_open_closed.
  Qed.

  Theorem C08_one_report_per_error fuel c r s' out vis e1 p a mid p' a' e2 :
    run_ghx fuel (init c) [] [] = (r, s', out, vis) ->
    all_eventsx vis = e1 ++ [EvSyntaxError p a] ++ mid ++ [EvSyntaxError p' a'] ++ e2 ->
    exists q n, In (EvShiftErr q n) mid.
  Proof.
    intros H E. pose proof (C08_track_invariant fuel c) as T. rewrite H in T. destruct T as (b & T & _).
    eapply track_between; eassumption.
  Qed.

  Corollary C08_one_report_per_error_output fuel c r s' out e1 p a mid p' a' e2 :
    o_verbose opts = true ->
    run V C g tbl opts buf cap lexer term_f err_f rule_f fuel c = (r, s', out) ->
    out = e1 ++ [EvSyntaxError p a] ++ mid ++ [EvSyntaxError p' a'] ++ e2 ->
    exists q n, In (EvShiftErr q n) mid.
  Proof.
    intros Hv H E. rewrite run_of_gh in H.
    pose proof (run_gh_out_verbose V C g tbl opts buf cap lexer term_f err_f rule_f fuel (init c) Hv) as X.
    destruct (run_ghx fuel (init c) [] []) as [[[r0 s0] out0] vis] eqn:G. injection H as -> -> ->.
    rewrite X in E. eapply C08_one_report_per_error; eassumption.
  Qed.

  Notation exhausted := (stack_exhausted V C g tbl).
  Notation eof_discarding := (eof_while_discarding V C g tbl opts buf lexer).
  Notation lexfail := (lexical_failure V C g opts buf lexer).

  (* one iteration: Reject has exactly the three documented causes, each with the lines it writes. On an error cell
     the iteration is a pop, a discard or the report, by the mode; no other cell answers Reject. *)
  Theorem step_reject_cases s s' ev :
    modes_ok s -> pending_ok s -> stepx s = (inr (Reject, s'), ev) ->
    (exhausted s /\ ev = [EvCouldNotRecover (ps_sp s)] /\ s' = set_stacks s [] (tl (ps_values s))) \/
    (eof_discarding s /\ gctx s = (s', Some (eof_idx g), ev)) \/
    (lexfail s /\ gctx s = (s', None, ev) /\ exists ev0 p ch, ev = ev0 ++ [EvUnexpectedChar p ch]).
  Proof.
    intros Hm Hp. apply step_movesx.
    - intros _ [=].
    - intros s1 ev1 Hcs Hg Hsp [= <- <-]. right; right.
      split; [split; [exact Hcs|eauto]|]. split; [exact Hg|].
      inversion Hsp; subst; [destruct Hp; congruence|]. do 3 eexists; reflexivity.
    - intros cursor cs s1 t ev1 m Hcs Hg Hsp Hd E.
      destruct (gct_stacks Hsp) as (Hcs1 & Hvs1 & _ & Hr1 & Hc1).
      assert (Hck : forall e, cell tbl cursor (nterm_count g + t) = inl e -> e_kind e = KError -> ckind cursor (tcol t) = Some KError)
        by (intros e He Hk; unfold cell_kind, term_col; now rewrite He, Hk).
      (* Reject is answered by two moves only, both on an error cell. [case_move] names the premises of each move
         (Hcell, Hkind, Hcons, Htl); x is the verdict of the failed reduce in DRedFail. *)
      case_move Hd; cbn [perform fst snd] in E; try discriminate E; try (destruct (rev (ps_values s1)); discriminate E);
        try (destruct x; discriminate E).
      + (* <eof> while discarding *)
        injection E as <- <-. rewrite app_nil_r in *. right; left.
        assert (Hrs : ps_rec s = false) by (destruct Hm; congruence).
        destruct (gct_facts _ _ _ _ Hrs Hg) as (Ht & _). assert (t = eof_idx g) as -> by congruence.
        split; [|exact Hg]. split; [exact Hrs|]. split; [congruence|]. split; [congruence|]. exists s1, ev1. split; [exact Hg|].
        unfold top_state. rewrite Hcs. exact (Hck _ Hcell Hkind).
      + (* the stack is exhausted *)
        assert (Hrs : ps_rec s = true) by congruence. rewrite (gct_rec Hrs) in Hg. injection Hg as <- <- <-.
        injection E as <- <-. left. rewrite Hcs in Htl. cbn [tl] in Htl. subst cs.
        split; [|split; [reflexivity|unfold pop1; now rewrite Hcs]].
        split; [exact Hrs|]. split; [exact Hcons|]. exists cursor. split; [exact Hcs|].
        unfold rejects_err, err_col. now rewrite (Hck _ Hcell Hkind).
  Qed.

  (* conversely, each cause ends the run with Reject in that very iteration *)
  Theorem step_reject_intro s :
    exhausted s \/ eof_discarding s \/ lexfail s -> exists s' ev, stepx s = (inr (Reject, s'), ev).
  Proof.
    intros [(Hr & Hc & st & Hcs & Hj)|[(Hr & Hc & Hne & s1 & ev1 & Hg & Hk)|(Hne & s1 & ev1 & Hg)]].
    - eexists _, _. rewrite (step_pop s st [] Hr Hc Hcs Hj). reflexivity.
    - destruct (ps_cursors s) as [|top cs] eqn:Hcs; [congruence|].
      unfold top_state in Hk. rewrite Hcs in Hk. cbn [hd] in Hk.
      eexists _, _. apply (C08_eof_while_discarding_fails s top cs s1 ev1 Hr Hc Hcs Hg Hk).
    - destruct (ps_cursors s) as [|top cs] eqn:Hcs; [congruence|].
      eexists _, _. apply (step_lexfail Hcs Hg).
  Qed.

  Theorem step_reject_iff s :
    modes_ok s -> pending_ok s ->
    ((exists s' ev, stepx s = (inr (Reject, s'), ev)) <-> (exhausted s \/ eof_discarding s \/ lexfail s)).
  Proof.
    intros Hm Hp. split; [|apply step_reject_intro].
    intros (s' & ev & H). destruct (step_reject_cases _ _ _ Hm Hp H) as [(X & _)|[(X & _)|(X & _)]]; auto.
  Qed.

  (* the three causes exclude each other *)
  Lemma reject_reasons_exclusive s :
    (exhausted s -> ~ eof_discarding s /\ ~ lexfail s) /\ (eof_discarding s -> ~ lexfail s).
  Proof.
    split.
    - intros (Hr & Hc & _). split.
      + intros (Hr' & _). congruence.
      + intros (_ & s1 & ev1 & Hg). rewrite (gct_rec Hr) in Hg. discriminate.
    - intros (_ & _ & _ & s1 & ev1 & Hg & _) (_ & s2 & ev2 & Hg'). congruence.
  Qed.

  (* A run (from the initial configuration, any fuel) that ends with Reject ended, at the configuration sl
     at the head of its last iteration, for one of exactly three reasons:
       (A) pop phase, stack exhausted: sl is recovering, its only stacked state rejects the error symbol; the
           trace ends with CouldNotRecover, the reported error is still open, the final cursor stack is empty;
       (B) <eof> is the pending term while discarding and the top state has an error cell for it;
       (C) the lexer failed (the trace ends with UnexpectedChar) -- while discarding if sl is in consume mode,
           otherwise in normal mode, where every error reported earlier has been answered by a shift of the
           error symbol ("after recovery"); never in recovery mode. *)
  Theorem C08_fails_iff fuel c s' out vis :
    run_ghx fuel (init c) [] [] = (Reject, s', out, vis) ->
    exists vis0 sl,
      vis = vis0 ++ [sl] /\ modes_ok sl /\
      track false (all_eventsx vis0) = Some (ps_rec sl) /\
      ( (exhausted sl /\ ps_cursors s' = [] /\
         exists ev0, all_eventsx vis = ev0 ++ [EvCouldNotRecover (ps_sp sl)])
        \/ (eof_discarding sl /\ exists ev1, gctx sl = (s', Some (eof_idx g), ev1))
        \/ (lexfail sl /\ ps_rec sl = false /\
            exists ev0 p ch, all_eventsx vis = ev0 ++ [EvUnexpectedChar p ch]) ).
  Proof.
    intros H.
    destruct (run_gh_last _ _ _ _ _ _ _ _ H ltac:(discriminate)) as (vis0 & sl & ev & n & o & Hv & Hs & _ & Hn).
    pose proof (run_inv_holds n c) as I. rewrite Hn in I. destruct I as [_ I]. destruct (I eq_refl) as (M & P & T).
    exists vis0, sl. split; [exact Hv|]. split; [exact M|]. split; [exact T|].
    assert (E : all_eventsx vis = all_eventsx vis0 ++ ev) by (subst vis; now rewrite all_events_snoc, Hs).
    destruct (step_reject_cases _ _ _ M P Hs) as [(X & -> & ->)|[(X & Hg)|(X & Hg & ev0 & p & ch & ->)]].
    - left. split; [exact X|]. split; [reflexivity|]. exists (all_eventsx vis0). exact E.
    - right; left. split; [exact X|]. eauto.
    - right; right. split; [exact X|]. split.
      + destruct (ps_rec sl) eqn:Hr; [|reflexivity]. rewrite (gct_rec Hr) in Hg. discriminate.
      + exists (all_eventsx vis0 ++ ev0), p, ch. now rewrite E, app_assoc.
  Qed.

  (* ... and conversely: a run that reaches a configuration with one of the three causes ends with Reject *)
  Theorem C08_fails_iff_converse s f out :
    exhausted s \/ eof_discarding s \/ lexfail s ->
    exists s' ev, run_fromx (S f) s out = (Reject, s', out ++ filter visiblex ev).
  Proof.
    intros H. destruct (step_reject_intro s H) as (s' & ev & Hs). exists s', ev. cbn [run_from]. now rewrite Hs.
  Qed.

  Notation srun := (spec_run V C g tbl opts buf cap lexer term_f err_f rule_f).
  Notation ordinaryx := (ordinary V C g tbl buf cap term_f err_f rule_f).

  Definition continue_with (f : nat) (x : outcome * list event) : option (result V * pst * list event) :=
    match x with
    | (inl s', ev) => prepend ev (srun f s')
    | (inr (r, s'), ev) => Some (r, s', ev)
    end.

  Lemma prepend_prepend a b (x : option (result V * pst * list event)) : prepend a (prepend b x) = prepend (a ++ b) x.
  Proof. destruct x as [[[r s] ev]|]; cbn [prepend]; [now rewrite app_assoc|reflexivity]. Qed.

  Lemma prepend_some a (x : option (result V * pst * list event)) r s ev :
    prepend a x = Some (r, s, ev) -> exists ev', x = Some (r, s, ev') /\ ev = a ++ ev'.
  Proof. destruct x as [[[r0 s0] ev0]|]; cbn [prepend]; [|discriminate]. intros H; inversion H; subst. eauto. Qed.

  Lemma steps_modes_ok k : forall s s' ev, modes_ok s -> steps k s = (inl s', ev) -> modes_ok s'.
  Proof.
    induction k as [|k IH]; intros s s' ev Hm H; cbn [steps] in H.
    - inversion H; subst; assumption.
    - pose proof (step_modes V C g tbl opts buf cap lexer term_f err_f rule_f s Hm) as Y. destruct (stepx s) as [[s1|x] ev1]; [|discriminate]. cbn [fst] in Y.
      destruct (steps k s1) as [r ev2] eqn:E. inversion H; subst. eapply IH; eassumption.
  Qed.

  Lemma steps_not_oof k : forall s r s' ev, steps k s = (inr (r, s'), ev) -> r <> OutOfFuel.
  Proof.
    induction k as [|k IH]; intros s r s' ev H; cbn [steps] in H; [discriminate|].
    destruct (stepx s) as [[s1|[r1 s1']] ev1] eqn:Y.
    - destruct (steps k s1) as [x ev2] eqn:E. inversion H; subst. eapply IH; eassumption.
    - inversion H; subst. intros ->. exact (step_not_oof Y).
  Qed.

  (* OutOfFuel is not an answer of the driver: a prediction with that result says where the driver stands, still
     running, after at least as many iterations as the specification had phases *)
  Definition reached (r : result V) (s' : pst) : outcome :=
    match r with OutOfFuel => inl s' | _ => inr (r, s') end.

  Lemma steps_final k n s r s' ev :
    steps k s = (inr (r, s'), ev) -> exists m, steps m s = (reached r s', ev) /\ (r = OutOfFuel -> n <= m).
  Proof.
    intros H. pose proof (steps_not_oof _ _ _ _ _ H) as Hr. exists k. split; [|congruence].
    rewrite H. destruct r; (reflexivity || congruence).
  Qed.

  Section WholeRun.
    Variable f : nat.
    (* the induction hypothesis of [srun_steps], whose step case the lemmas of this section make up *)
    Hypothesis IH : forall s r s' ev, modes_ok s -> srun f s = Some (r, s', ev) ->
                                       exists m, steps m s = (reached r s', ev) /\ (r = OutOfFuel -> f <= m).

    (* after k iterations the driver has performed x, preceded by the lines evA; the specification goes on from x *)
    Lemma continue_steps s k evA x r s' ev :
      modes_ok s -> 1 <= k -> steps k s = (fst x, evA ++ snd x) ->
      prepend evA (continue_with f x) = Some (r, s', ev) ->
      exists m, steps m s = (reached r s', ev) /\ (r = OutOfFuel -> S f <= m).
    Proof.
      intros Hm Hk1 Hk H. destruct x as [[s2|[r0 s0]] ev2]; cbn [fst snd continue_with] in *.
      - rewrite prepend_prepend in H. apply prepend_some in H as (ev3 & H & ->).
        destruct (IH s2 r s' ev3 (steps_modes_ok _ _ _ _ Hm Hk) H) as (m & Hs & Hn).
        exists (k + m). split; [|intros E; specialize (Hn E); lia].
        rewrite steps_app, Hk, Hs. reflexivity.
      - cbn [prepend] in H. inversion H; subst. eapply steps_final, Hk.
    Qed.

    Lemma srun_step s r s' ev :
      modes_ok s -> srun (S f) s = Some (r, s', ev) ->
      exists m, steps m s = (reached r s', ev) /\ (r = OutOfFuel -> S f <= m).
    Proof.
      intros Hm H. cbn [spec_run] in H.
      destruct (ps_cursors s) as [|top cs] eqn:Hcs.
      { inversion H; subst. apply (steps_final 1). rewrite steps_1, (step_empty Hcs). reflexivity. }
      destruct (ps_cons s) eqn:Hc.
      - (* consume phase, then the ordinary action *)
        assert (Hrec : ps_rec s = false) by (destruct Hm; congruence).
        pose proof (consume_phase_refines (S f) s top cs Hrec Hc Hcs) as R.
        destruct (sconsume (S f) s) as [[s1|s1|s1|s1] evc].
        + destruct R as (m & t & e & _ & _ & Ht & He & Hk & _ & Hc1 & Hcs1 & _ & _ & Hst).
          assert (E : ordinaryx s1 (term_or0 s1) = plain_action s1 t e).
          { unfold ordinary, top_state, term_or0. rewrite Hcs1, Hcs, Ht. cbn [hd]. now apply act_plain. }
          rewrite E in H. apply (continue_steps s (S m) evc (plain_action s1 t e)); auto. lia.
        + inversion H; subst. destruct R as (m & _ & Hst). eapply steps_final, Hst.
        + discriminate.
        + inversion H; subst. destruct R as (Hst & _). exists (S f). rewrite Hst. split; [reflexivity|lia].
      - destruct (ps_rec s) eqn:Hrec.
        + (* recovering: drop to an accepting state, then its action on the error symbol *)
          rewrite <- Hcs in H.
          destruct (popdef (ps_cursors s)) eqn:Hdef; [|discriminate].
          pose proof (drop_refines s Hrec Hc ltac:(congruence) Hdef) as D.
          unfold spec_drop in *. destruct (dropc (ps_cursors s)) as [k|] eqn:Hd; cbn [as_outcome] in D.
          * destruct (C08_pops_only_rejecting_states _ _ Hd) as (_ & _ & st & _ & Hhd & Ha).
            set (s1 := set_stacks s (skipn k (ps_cursors s)) (skipn k (ps_values s))) in *.
            destruct (skipn k (ps_cursors s)) as [|st' below] eqn:Hsk; [discriminate|].
            assert (Hs1 : stepx s1 = ordinaryx s1 (err_idx g)).
            { unfold ordinary, top_state. exact (step_rec (s := s1) (cs := below) Hrec eq_refl). }
            rewrite <- Hs1 in H.
            eapply (continue_steps s (pop_steps (ps_cursors s) + 1) _ (stepx s1)); [exact Hm|lia| |exact H].
            rewrite steps_app, D, steps_1. reflexivity.
          * inversion H; subst. eapply steps_final, D.
        + (* normal mode: the next term; an error cell starts the pop phase *)
          destruct (gctx s) as [[s1 ot] ev1] eqn:Hg.
          destruct ot as [a|].
          2:{ inversion H; subst. apply (steps_final 1). rewrite steps_1, (step_lexfail Hcs Hg). reflexivity. }
          destruct (gct_facts _ _ _ _ Hrec Hg) as (_ & Hcs1 & _).
          destruct (is_error_cell tbl top (tcol a)) eqn:Hie.
          * apply is_error_cell_true in Hie as (e & He & Hk). rewrite <- Hcs in H.
            destruct (popdef (ps_cursors s)) eqn:Hdef; [|discriminate].
            destruct (pop_phase_refines _ _ _ _ _ _ _ Hrec Hc Hcs Hg He Hk Hdef) as [P _].
            destruct (spop s1) as [[s2 ev2]|[s2 ev2]]; cbn [as_outcome fst snd] in P.
            -- apply (continue_steps s (S (pop_steps (ps_cursors s))) (ev1 ++ ev2) (inl s2, [])); auto; [lia| |].
               ++ cbn [fst snd]. now rewrite app_nil_r.
               ++ cbn [continue_with]. now rewrite prepend_prepend, app_nil_r.
            -- inversion H; subst. eapply steps_final, P.
          * apply (continue_steps s 1 ev1 (ordinaryx s1 a)); auto.
            unfold ordinary, top_state. rewrite Hcs1, Hcs. cbn [hd].
            rewrite steps_1, (step_gct Hcs Hg). reflexivity.
    Qed.
  End WholeRun.

  (* Whatever the specification predicts with n phases of fuel, the driver does: it reaches exactly that result,
     in exactly that final configuration, having written exactly those lines -- or, where the prediction is
     OutOfFuel, it is in exactly that configuration after at least n iterations, still running. *)
  Theorem srun_steps n : forall s r s' ev,
    modes_ok s -> srun n s = Some (r, s', ev) ->
    exists m, steps m s = (reached r s', ev) /\ (r = OutOfFuel -> n <= m).
  Proof.
    induction n as [|n IH]; intros s r s' ev Hm H.
    - cbn [spec_run] in H. inversion H; subst. exists 0. split; [reflexivity|lia].
    - eapply srun_step; eassumption.
  Qed.

  (* Whenever the big-step specification predicts a result (i.e. it stays in its domain and the
     fuel suffices), the driver reaches exactly that result, in exactly that final configuration, having
     written exactly those lines. No assumption on grammar, table, lexer, options, buffer, algebra; s is any
     configuration in which recovery mode and consume mode are not both on (the initial one, in particular). *)
  Theorem C08_refines n : forall s r s' ev,
    modes_ok s -> srun n s = Some (r, s', ev) -> r <> OutOfFuel ->
    exists m, steps m s = (inr (r, s'), ev).
  Proof.
    intros s r s' ev Hm H Hr. destruct (srun_steps n s r s' ev Hm H) as (m & Hs & _).
    exists m. rewrite Hs. destruct r; (reflexivity || congruence).
  Qed.

  Corollary C08_refines_run n c r s' ev :
    srun n (init c) = Some (r, s', ev) -> r <> OutOfFuel ->
    exists m, forall fuel, m <= fuel ->
      run V C g tbl opts buf cap lexer term_f err_f rule_f fuel c = (r, s', filter visiblex ev).
  Proof.
    intros H Hr. destruct (C08_refines n (init c) r s' ev (or_introl eq_refl) H Hr) as (m & Hs).
    exists m. intros fuel Hf. unfold run. replace fuel with (m + (fuel - m)) by lia.
    now rewrite steps_run_from, Hs.
  Qed.

  (* The converse: the prediction is what the driver does, and the driver does one thing.
     If the driver finishes within m iterations, the specification run with at least m fuel either leaves its
     domain (None: some cell it must look at does not exist; that the driver then crashes is not part of this
     statement, see [pop_phase_undefined_crashes] and the CoNoCell case of [consume_phase_refines]) or predicts
     exactly the driver's result, final configuration and lines. *)
  Theorem C08_refines_converse m : forall s n r s' ev,
    modes_ok s -> steps m s = (inr (r, s'), ev) -> m <= n ->
    srun n s = None \/ srun n s = Some (r, s', ev).
  Proof.
    intros s n r s' ev Hm Hs Hle. destruct (srun n s) as [[[r2 s2] ev2]|] eqn:E; [right|left; reflexivity].
    destruct (srun_steps n s r2 s2 ev2 Hm E) as (m2 & H2 & Hn).
    destruct r2; cbn [reached] in H2;
      try (destruct (steps_final_unique _ _ _ _ _ _ _ H2 Hs) as [E1 E2]; inversion E1; subst; reflexivity).
    (* OutOfFuel after m2 >= n >= m iterations, but the driver stopped at the m-th *)
    specialize (Hn eq_refl). pose proof (steps_app m (m2 - m) s) as X.
    rewrite Hs in X. replace (m + (m2 - m)) with m2 in X by lia. congruence.
  Qed.

  (* both directions, for the real entry point: a finished run (any result but OutOfFuel) is the run the
     specification predicts with the same fuel, unless the specification's domain was left *)
  Corollary C08_run_predicted fuel c r s' out :
    run V C g tbl opts buf cap lexer term_f err_f rule_f fuel c = (r, s', out) -> r <> OutOfFuel ->
    srun fuel (init c) = None \/
    exists ev, srun fuel (init c) = Some (r, s', ev) /\ out = filter visiblex ev.
  Proof.
    intros H Hr. unfold run in H. rewrite <- (Nat.add_0_r fuel), steps_run_from in H.
    destruct (steps fuel (init c)) as [[s2|[r2 s2]] ev] eqn:Hst; cbn [run_from] in H; inversion H; subst; [congruence|].
    destruct (C08_refines_converse fuel (init c) fuel r s' ev (or_introl eq_refl) Hst (le_n _)) as [E|E]; eauto.
  Qed.
End Refines.

Print Assumptions drop_refines.
Print Assumptions pop_phase_refines.
Print Assumptions pop_phase_refines_some.
Print Assumptions pop_phase_refines_none.
Print Assumptions pop_phase_undefined_crashes.
Print Assumptions C08_no_pop_when_top_accepts.
Print Assumptions C08_keeps_lower_values.
Print Assumptions C08_pops_only_rejecting_states.
Print Assumptions recovering_step.
Print Assumptions recovering_step_shift_err.
Print Assumptions recovering_step_reduce.
Print Assumptions recovering_step_trichotomy.
Print Assumptions consume_phase_refines.
Print Assumptions C08_consume_stops_at_first_actionable_term.
Print Assumptions C08_eof_while_discarding_fails.
Print Assumptions step_reject_iff.
Print Assumptions C08_fails_iff.
Print Assumptions C08_fails_iff_converse.
Print Assumptions C08_track_invariant.
Print Assumptions C08_one_report_per_error.
Print Assumptions C08_one_report_per_error_output.
Print Assumptions C08_refines.
Print Assumptions C08_refines_run.
Print Assumptions C08_refines_converse.
Print Assumptions C08_run_predicted.
