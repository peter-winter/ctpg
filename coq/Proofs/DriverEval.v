(* C02: the run with an arbitrary semantic algebra is the run that builds the derivation trees, followed by the
   bottom-up evaluation of those trees; functors are called in post-order, once per node. *)
Require Import Ctpg.Base.Prelude Ctpg.Model.Grammar Ctpg.Model.LRGen Ctpg.Model.Driver Ctpg.Spec.Eval.
Require Import Ctpg.Proofs.DriverBasics Ctpg.Proofs.DriverIter.

Lemma tl_map {A B} (f : A -> B) l : tl (map f l) = map f (tl l).
Proof. destruct l; reflexivity. Qed.

(* The run commutes with homomorphisms of semantic algebras. *)
Section Hom.
  Variables V1 C1 V2 C2 : Type.
  Variable g : grammar.
  Variable tbl : table.
  Variable opts : options.
  Variable buf : list nat.
  Variable cap : option nat.
  Variable lexer : bool -> spoint -> list nat -> list lex_event * option (nat * nat).
  Variable term1 : nat -> nat -> nat -> spoint -> V1.
  Variable err1 : spoint -> V1.
  Variable rule1 : nat -> C1 -> list V1 -> C1 * V1.
  Variable term2 : nat -> nat -> nat -> spoint -> V2.
  Variable err2 : spoint -> V2.
  Variable rule2 : nat -> C2 -> list V2 -> C2 * V2.
  Variable h : V1 -> V2.
  Variable hc : C1 -> C2.
  Hypothesis h_term : forall t a l p, h (term1 t a l p) = term2 t a l p.
  Hypothesis h_err : forall p, h (err1 p) = err2 p.
  Hypothesis h_rule : forall r c args,
    rule2 r (hc c) (map h args) = (hc (fst (rule1 r c args)), h (snd (rule1 r c args))).

  Definition map_st (s : pstate V1 C1) : pstate V2 C2 :=
    mkPS (ps_cursors s) (map h (ps_values s)) (ps_sp s) (ps_it s) (ps_end s) (ps_term s) (ps_rec s) (ps_cons s)
         (hc (ps_ctx s)).
  Definition map_res (r : result V1) : result V2 :=
    match r with
    | Accept v => Accept (h v) | Reject => Reject | Crash c => Crash c | Throw => Throw | OutOfFuel => OutOfFuel
    end.
  Definition map_out (o : pstate V1 C1 + result V1 * pstate V1 C1) : pstate V2 C2 + result V2 * pstate V2 C2 :=
    match o with inl s => inl (map_st s) | inr (r, s) => inr (map_res r, map_st s) end.

  Notation step1 := (step V1 C1 g tbl opts buf cap lexer term1 err1 rule1).
  Notation step2 := (step V2 C2 g tbl opts buf cap lexer term2 err2 rule2).
  Notation run_gh1 := (run_gh V1 C1 g tbl opts buf cap lexer term1 err1 rule1).
  Notation run_gh2 := (run_gh V2 C2 g tbl opts buf cap lexer term2 err2 rule2).

  Lemma gct_hom s :
    get_current_term V2 C2 g opts buf lexer (map_st s) =
    let '(s1, ot, ev) := get_current_term V1 C1 g opts buf lexer s in (map_st s1, ot, ev).
  Proof.
    destruct s as [cs vs sp it en tm rc cn cx]. unfold get_current_term, map_st. cbn [ps_rec ps_it ps_end ps_sp ps_term].
    destruct rc; [reflexivity|]. destruct (negb (Nat.eqb it en)); [reflexivity|].
    match goal with |- context [skipn ?k (skipn it buf)] => destruct (skipn k (skipn it buf)) as [|c rest] end; [reflexivity|].
    match goal with |- context [lexer ?a ?b ?c] => destruct (lexer a b c) as [lx [[t len]|]] end; reflexivity.
  Qed.

  (* the move is chosen without looking at a value or the context *)
  Lemma decide_hom s cursor t : decide V2 C2 g tbl buf cap (map_st s) cursor t = decide V1 C1 g tbl buf cap s cursor t.
  Proof. unfold decide, shift_line, rr_line, map_st. cbn [ps_cursors ps_values ps_sp ps_it ps_end ps_term ps_rec ps_cons]. now rewrite map_length. Qed.

  Lemma clr_hom s : clr (map_st s) = map_st (clr s).
  Proof. unfold clr. change (ps_cons (map_st s)) with (ps_cons s). destruct (ps_cons s); reflexivity. Qed.

  Lemma perform_hom m s :
    perform buf term2 err2 rule2 m (map_st s) = let '(o, ev) := perform buf term1 err1 rule1 m s in (map_out o, ev).
  Proof.
    destruct m as [| |x ev| | | | | | | |]; cbn [perform]; rewrite ?clr_hom; change (lc (map_st s)) with (lc s); try reflexivity.
    - now destruct x.
    - change (ps_values (map_st s)) with (map h (ps_values s)). rewrite <- map_rev. destruct (rev (ps_values s)); reflexivity.
    - unfold pop1, map_st. cbn. now rewrite tl_map.
    - unfold pop1, map_st. cbn. now rewrite tl_map.
    - unfold push, map_st. cbn. now rewrite <- h_term.
    - unfold push, map_st. cbn. now rewrite <- h_err.
    - unfold reduced, map_st. cbn. now rewrite firstn_map, <- map_rev, h_rule, skipn_map.
  Qed.

  Lemma act_hom s cursor t :
    act V2 C2 g tbl buf cap term2 err2 rule2 (map_st s) cursor t =
    let '(o, ev) := act V1 C1 g tbl buf cap term1 err1 rule1 s cursor t in (map_out o, ev).
  Proof. now rewrite !act_eq, decide_hom, perform_hom. Qed.

  Lemma step_hom s : step2 (map_st s) = let '(o, ev) := step1 s in (map_out o, ev).
  Proof.
    unfold step. change (ps_cursors (map_st s)) with (ps_cursors s).
    destruct (ps_cursors s) as [|cursor cs]; [reflexivity|].
    rewrite gct_hom. destruct (get_current_term V1 C1 g opts buf lexer s) as [[s1 ot] ev1].
    destruct ot as [t|]; [|reflexivity].
    rewrite act_hom. destruct (act V1 C1 g tbl buf cap term1 err1 rule1 s1 cursor t) as [o ev2]. reflexivity.
  Qed.

  Lemma run_gh_hom fuel : forall s out vis,
    run_gh2 fuel (map_st s) out (map map_st vis) =
    let '(r, s', out', vis') := run_gh1 fuel s out vis in (map_res r, map_st s', out', map map_st vis').
  Proof.
    induction fuel as [|f IH]; intros s out vis; cbn [run_gh]; [reflexivity|].
    rewrite step_hom. destruct (step1 s) as [[s'|[r s']] ev]; cbn [map_out].
    - replace (map map_st vis ++ [map_st s]) with (map map_st (vis ++ [s])) by (now rewrite map_app). apply IH.
    - now rewrite map_app.
  Qed.

  Lemma all_events_hom vis :
    all_events V2 C2 g tbl opts buf cap lexer term2 err2 rule2 (map map_st vis) =
    all_events V1 C1 g tbl opts buf cap lexer term1 err1 rule1 vis.
  Proof.
    unfold all_events. induction vis as [|s vis IH]; cbn; [reflexivity|].
    rewrite IH, step_hom. destruct (step1 s). reflexivity.
  Qed.
End Hom.

Arguments map_st {V1 C1 V2 C2}. Arguments map_res {V1 V2}.

Section EvalFacts.
  Variables V C : Type.
  Variable term_f : nat -> nat -> nat -> spoint -> V.
  Variable err_f : spoint -> V.
  Variable rule_f : nat -> C -> list V -> C * V.
  Notation evalx := (eval V C term_f err_f rule_f).
  Notation eval_listx := (eval_list V C term_f err_f rule_f).

  Lemma eval_node r ch c : evalx (PNode r ch) c = let '(c1, vs) := eval_listx ch c in rule_f r c1 vs.
  Proof.
    cbn [eval].
    match goal with |- (let '(_, _) := ?F ch c in _) = _ => assert (H : forall l c, F l c = eval_listx l c) end.
    { induction l as [|x l IH]; intros c'; [reflexivity|].
      cbn [eval_list]. destruct (evalx x c') as [c1 v]. rewrite IH. reflexivity. }
    rewrite H. reflexivity.
  Qed.

  Lemma eval_list_app l1 l2 c :
    eval_listx (l1 ++ l2) c =
    let '(c1, vs1) := eval_listx l1 c in let '(c2, vs2) := eval_listx l2 c1 in (c2, vs1 ++ vs2).
  Proof.
    revert c; induction l1 as [|x l1 IH]; intros c; cbn [app eval_list].
    - destruct (eval_listx l2 c); reflexivity.
    - destruct (evalx x c) as [c1 v]. rewrite IH. destruct (eval_listx l1 c1) as [c2 vs1].
      destruct (eval_listx l2 c2); reflexivity.
  Qed.

End EvalFacts.

(* Both projections of the product of two algebras are homomorphisms: the runs with the two algebras are images
   of the one run with their product. *)
Section Prod.
  Variables V1 C1 V2 C2 : Type.
  Variable term1 : nat -> nat -> nat -> spoint -> V1.
  Variable err1 : spoint -> V1.
  Variable rule1 : nat -> C1 -> list V1 -> C1 * V1.
  Variable term2 : nat -> nat -> nat -> spoint -> V2.
  Variable err2 : spoint -> V2.
  Variable rule2 : nat -> C2 -> list V2 -> C2 * V2.

  Definition pterm (t a l : nat) (p : spoint) : V1 * V2 := (term1 t a l p, term2 t a l p).
  Definition perr (p : spoint) : V1 * V2 := (err1 p, err2 p).
  Definition prule (r : nat) (c : C1 * C2) (args : list (V1 * V2)) : (C1 * C2) * (V1 * V2) :=
    let '(c1, v1) := rule1 r (fst c) (map fst args) in
    let '(c2, v2) := rule2 r (snd c) (map snd args) in ((c1, c2), (v1, v2)).

  Lemma prule_fst r c args : rule1 r (fst c) (map fst args) = (fst (fst (prule r c args)), fst (snd (prule r c args))).
  Proof. unfold prule. destruct (rule1 r (fst c) (map fst args)), (rule2 r (snd c) (map snd args)); reflexivity. Qed.
  Lemma prule_snd r c args : rule2 r (snd c) (map snd args) = (snd (fst (prule r c args)), snd (snd (prule r c args))).
  Proof. unfold prule. destruct (rule1 r (fst c) (map fst args)), (rule2 r (snd c) (map snd args)); reflexivity. Qed.
End Prod.

(* what two runs with different algebras can have in common *)
Definition res_shape {V} (r : result V) : result unit := map_res (fun _ => tt) r.
Definition st_shape {V C} (s : pstate V C) :=
  (ps_cursors s, length (ps_values s), ps_sp s, ps_it s, ps_end s, ps_term s, ps_rec s, ps_cons s).

Lemma shape_map_st {V1 C1 V2 C2} (h : V1 -> V2) (hc : C1 -> C2) (s : pstate V1 C1) :
  st_shape (map_st h hc s) = st_shape s.
Proof. unfold st_shape, map_st. cbn. now rewrite map_length. Qed.

Section Eval.
  Variables V C : Type.
  Variable g : grammar.
  Variable tbl : table.
  Variable opts : options.
  Variable buf : list nat.
  Variable cap : option nat.
  Variable lexer : bool -> spoint -> list nat -> list lex_event * option (nat * nat).
  Variable term_f : nat -> nat -> nat -> spoint -> V.
  Variable err_f : spoint -> V.
  Variable rule_f : nat -> C -> list V -> C * V.
  Variable c0 : C.

  Notation TC := (list (nat * list ptree)).
  Notation PV := (ptree * V)%type.
  Notation PC := (TC * C)%type.
  Notation pt := (pterm ptree V tree_term_f term_f).
  Notation pe := (perr ptree V tree_err_f err_f).
  Notation pr := (prule ptree TC V C tree_rule_f rule_f).
  Notation pst := (pstate PV PC).
  Notation stepP := (step PV PC g tbl opts buf cap lexer pt pe pr).
  Notation run_ghP := (run_gh PV PC g tbl opts buf cap lexer pt pe pr).
  Notation run_ghT := (run_gh ptree TC g tbl opts buf cap lexer tree_term_f tree_err_f tree_rule_f).
  Notation run_ghA := (run_gh V C g tbl opts buf cap lexer term_f err_f rule_f).
  Notation runT := (run ptree TC g tbl opts buf cap lexer tree_term_f tree_err_f tree_rule_f).
  Notation runA := (run V C g tbl opts buf cap lexer term_f err_f rule_f).
  Notation no_popT := (no_pop ptree TC g tbl opts buf cap lexer tree_term_f tree_err_f tree_rule_f).
  Notation no_popP := (no_pop PV PC g tbl opts buf cap lexer pt pe pr).
  Notation evalx := (eval V C term_f err_f rule_f).
  Notation eval_listx := (eval_list V C term_f err_f rule_f).

  (* the stack (top first) holds the evaluations of its trees, bottom first, from c0; c is the context reached *)
  Fixpoint evs (vs : list PV) (c : C) : Prop :=
    match vs with
    | [] => c = c0
    | (t, v) :: vs' => exists c1, evs vs' c1 /\ evalx t c1 = (c, v)
    end.

  (* the top n values are the evaluations of their trees, in the order a rule takes them *)
  Lemma evs_args n : forall vs c, evs vs c ->
    exists c1, evs (skipn n vs) c1 /\
               eval_listx (map fst (rev (firstn n vs))) c1 = (c, map snd (rev (firstn n vs))).
  Proof.
    induction n as [|n IH]; intros vs c H; [exists c; auto|].
    destruct vs as [|[t v] vs]; [exists c; auto|]. destruct H as (c2 & H1 & H2).
    destruct (IH vs c2 H1) as (c1 & H3 & H4). exists c1. split; [exact H3|].
    cbn [firstn rev]. rewrite !map_app, eval_list_app, H4. cbn [map eval_list fst snd]. now rewrite H2.
  Qed.

  Lemma evs_eval vs c : evs vs c -> eval_listx (rev (map fst vs)) c0 = (c, rev (map snd vs)).
  Proof.
    intros H. destruct (evs_args (length vs) vs c H) as (c1 & H1 & H2).
    rewrite skipn_all in H1. rewrite firstn_all, !map_rev in H2. now rewrite <- H1.
  Qed.

  (* the invariant of the product run while nothing has been popped: the calls made for a popped value stay in the
     context, which after a pop is not the post-order of the trees still on the stack *)
  Definition ev_inv (s : pst) : Prop :=
    evs (ps_values s) (snd (ps_ctx s)) /\ fst (ps_ctx s) = flat_map post_calls (rev (map fst (ps_values s))).

  Lemma ev_inv_stacks (s s' : pst) : ps_values s' = ps_values s -> ps_ctx s' = ps_ctx s -> ev_inv s -> ev_inv s'.
  Proof. unfold ev_inv. intros -> ->. auto. Qed.

  Lemma ev_inv_push (s : pst) (x : ptree) (v : V) (s' : pst) :
    ps_values s' = (x, v) :: ps_values s -> ps_ctx s' = ps_ctx s ->
    (forall c, evalx x c = (c, v)) -> post_calls x = [] ->
    ev_inv s -> ev_inv s'.
  Proof.
    unfold ev_inv. intros -> -> Hx Hp [H1 H2]. cbn [map rev fst snd evs]. split; [eauto|].
    now rewrite flat_map_snoc, <- H2, Hp, app_nil_r.
  Qed.

  Lemma ev_inv_reduce (s : pst) n r c' v :
    pr r (ps_ctx s) (rev (firstn n (ps_values s))) = (c', v) ->
    ev_inv s ->
    evs (v :: skipn n (ps_values s)) (snd c') /\
    fst c' = flat_map post_calls (rev (map fst (v :: skipn n (ps_values s)))).
  Proof.
    intros Hf [H1 H2]. destruct (evs_args n _ _ H1) as (c1 & H3 & H4).
    rewrite <- (firstn_skipn n (ps_values s)), map_app, rev_app_distr, <- !map_rev in H2.
    unfold prule, tree_rule_f in Hf. cbn [fst snd] in Hf.
    destruct (rule_f r (snd (ps_ctx s)) (map snd (rev (firstn n (ps_values s))))) as [cA vA] eqn:Hr.
    inversion Hf; subst c' v. cbn [map rev fst snd evs]. split.
    - exists c1. split; [exact H3|]. now rewrite eval_node, H4.
    - rewrite H2, <- map_rev, !flat_map_app. cbn [flat_map post_calls]. now rewrite app_nil_r, app_assoc.
  Qed.

  Lemma step_ev s : ev_inv s ->
    (forall e, In e (snd (stepP s)) -> is_pop_ev e = false) ->
    match fst (stepP s) with inl s' => ev_inv s' | inr (_, s') => ev_inv s' end.
  Proof.
    intros Hinv. apply step_moves.
    - intros _ _. assumption.
    - intros s1 ev1 _ _ Hg _. cbn [fst]. apply gct_stacks in Hg as (_ & Hv & Hc & _). eapply ev_inv_stacks; eauto.
    - intros cursor cs s1 t ev1 m _ _ Hg _ Hnp. cbn [fst snd] in *.
      apply gct_stacks in Hg as (_ & Hv & Hc & _).
      assert (H1 : ev_inv s1) by (eapply ev_inv_stacks; eauto). clear Hinv Hv Hc.
      assert (Hnp2 : forall e, In e (snd (perform buf pt pe pr m s1)) -> is_pop_ev e = false) by (intros e He; apply Hnp, in_or_app; auto).
      clear Hnp.
      destruct m; cbn [perform fst snd] in *; try (eapply ev_inv_stacks; [..|exact H1]; simp_mv; reflexivity).
      + specialize (Hnp2 _ (or_introl eq_refl)). discriminate.
      + specialize (Hnp2 _ (or_introl eq_refl)). discriminate.
      + eapply ev_inv_push; [..|exact H1]; simp_mv; reflexivity.
      + eapply ev_inv_push; [..|exact H1]; simp_mv; reflexivity.
      + unfold ev_inv. simp_mv. eapply ev_inv_reduce; eauto using surjective_pairing.
  Qed.

  (* the product run: invariant under the ghost "nothing popped so far", and Accept returns the bottom value *)
  Lemma run_ghP_inv fuel :
    let '(r, s, _, vis) := run_ghP fuel (init ([], c0)) [] [] in
    (no_popP vis -> ev_inv s) /\
    (forall v, r = Accept v -> exists rest, rev (ps_values s) = v :: rest).
  Proof.
    apply (run_gh_inv PV PC g tbl opts buf cap lexer pt pe pr
             (fun vis s => no_popP vis -> ev_inv s)
             (fun vis r s => (no_popP vis -> ev_inv s) /\
                             (forall v, r = Accept v -> exists rest, rev (ps_values s) = v :: rest))).
    - intros vis s H. split; [assumption|discriminate].
    - intros vis s H.
      assert (Hev : no_popP (vis ++ [s]) -> match fst (stepP s) with inl s' => ev_inv s' | inr (_, s') => ev_inv s' end).
      { intros Hnp. apply no_pop_snoc in Hnp as [Hnp1 Hnp2]. apply step_ev; auto. }
      destruct (fst (stepP s)) as [s'|[r s']] eqn:E; [assumption|]. split; [assumption|].
      intros v ->. exact (step_final E).
    - intros _. unfold ev_inv. cbn. auto.
  Qed.

  Lemma runT_of_P fuel :
    run_ghT fuel (init []) [] [] =
    let '(r, s, out, vis) := run_ghP fuel (init ([], c0)) [] [] in
    (map_res fst r, map_st fst fst s, out, map (map_st fst fst) vis).
  Proof.
    apply (run_gh_hom PV PC ptree TC g tbl opts buf cap lexer pt pe pr tree_term_f tree_err_f tree_rule_f fst fst
             (fun _ _ _ _ => eq_refl) (fun _ => eq_refl) (prule_fst _ _ _ _ _ _) fuel (init ([], c0)) [] []).
  Qed.

  Lemma runA_of_P fuel :
    run_ghA fuel (init c0) [] [] =
    let '(r, s, out, vis) := run_ghP fuel (init ([], c0)) [] [] in
    (map_res snd r, map_st snd snd s, out, map (map_st snd snd) vis).
  Proof.
    apply (run_gh_hom PV PC V C g tbl opts buf cap lexer pt pe pr term_f err_f rule_f snd snd
             (fun _ _ _ _ => eq_refl) (fun _ => eq_refl) (prule_snd _ _ _ _ _ _) fuel (init ([], c0)) [] []).
  Qed.

  Notation all_eventsT := (all_events ptree TC g tbl opts buf cap lexer tree_term_f tree_err_f tree_rule_f).
  Notation all_eventsA := (all_events V C g tbl opts buf cap lexer term_f err_f rule_f).
  Notation all_eventsP := (all_events PV PC g tbl opts buf cap lexer pt pe pr).

  Lemma eventsT_of_P vis : all_eventsT (map (map_st fst fst) vis) = all_eventsP vis.
  Proof. apply all_events_hom; [reflexivity..|apply prule_fst]. Qed.

  Lemma eventsA_of_P vis : all_eventsA (map (map_st snd snd) vis) = all_eventsP vis.
  Proof. apply all_events_hom; [reflexivity..|apply prule_snd]. Qed.

  (* C02 on the instrumented runs, both halves: the value is the evaluation of the tree, the calls are its post-order. The ghost [vis] is the list of loop-head states; [no_pop vis] says that
     error recovery removed nothing from the stacks (no "Recovering to"/"Could not recover" line among ALL lines of
     the iterations, printed or not). *)
  Theorem run_tree_eval_gh fuel :
    let '(rT, sT, outT, visT) := run_ghT fuel (init []) [] [] in
    let '(rA, sA, outA, visA) := run_ghA fuel (init c0) [] [] in
    (* same path *)
    res_shape rT = res_shape rA /\ st_shape sT = st_shape sA /\ outT = outA /\
    map st_shape visT = map st_shape visA /\ all_eventsT visT = all_eventsA visA /\
    (* Accept returns the bottom of the value stack, in both runs *)
    (forall t, rT = Accept t -> exists v restT restA,
         rA = Accept v /\ rev (ps_values sT) = t :: restT /\ rev (ps_values sA) = v :: restA) /\
    (* values = evaluation of the trees; calls = post-order *)
    (no_popT visT ->
       eval_listx (rev (ps_values sT)) c0 = (ps_ctx sA, rev (ps_values sA)) /\
       ps_ctx sT = flat_map post_calls (rev (ps_values sT))).
  Proof.
    rewrite runT_of_P, runA_of_P. pose proof (run_ghP_inv fuel) as H.
    destruct (run_ghP fuel (init ([], c0)) [] []) as [[[r s] out] vis]. destruct H as [Hinv Hacc].
    split; [destruct r; reflexivity|].
    split; [now rewrite !shape_map_st|].
    split; [reflexivity|].
    split; [rewrite !map_map; apply map_ext; intros a; now rewrite !shape_map_st|].
    split; [now rewrite eventsT_of_P, eventsA_of_P|].
    split.
    { intros t Ht. destruct r as [[t' v]| | | |]; try discriminate. cbn in Ht. inversion Ht; subst t'.
      destruct (Hacc _ eq_refl) as [rest Hrest]. exists v, (map fst rest), (map snd rest).
      unfold map_st. cbn [ps_values map_res]. rewrite <- !map_rev, Hrest. auto. }
    unfold no_pop. rewrite eventsT_of_P. intros Hnp.
    destruct (Hinv Hnp) as [H1 H2]. unfold map_st. cbn [ps_values ps_ctx]. split; [exact (evs_eval _ _ H1)|exact H2].
  Qed.

  Theorem run_accept_eval_gh fuel :
    let '(rT, sT, outT, visT) := run_ghT fuel (init []) [] [] in
    let '(rA, sA, outA, visA) := run_ghA fuel (init c0) [] [] in
    no_popT visT ->
    forall t, rT = Accept t ->
      exists v, rA = Accept v /\ snd (evalx t c0) = v /\
                (ps_values sT = [t] -> evalx t c0 = (ps_ctx sA, v) /\ ps_ctx sT = post_calls t).
  Proof.
    pose proof (run_tree_eval_gh fuel) as H.
    destruct (run_ghT fuel (init []) [] []) as [[[rT sT] outT] visT].
    destruct (run_ghA fuel (init c0) [] []) as [[[rA sA] outA] visA].
    destruct H as (_ & _ & _ & _ & _ & Hacc & Hev). intros Hnp t Ht. destruct (Hev Hnp) as [H1 H2].
    destruct (Hacc t Ht) as (v & restT & restA & -> & HrT & HrA). exists v. split; [reflexivity|].
    rewrite HrT, HrA in H1. cbn [eval_list] in H1. destruct (evalx t c0) as [c1 v'] eqn:Et.
    destruct (eval_listx restT c1) as [c2 vs] eqn:Er. inversion H1; subst. split; [reflexivity|].
    intros Hsing. rewrite Hsing in HrT. cbn in HrT. inversion HrT; subst restT. cbn in Er. inversion Er; subst.
    split; [reflexivity|]. rewrite H2, Hsing. cbn. now rewrite app_nil_r.
  Qed.

  (* without the ghost: both runs take the same path *)
  Theorem run_same_path fuel :
    let '(rT, sT, outT) := runT fuel [] in
    let '(rA, sA, outA) := runA fuel c0 in
    res_shape rT = res_shape rA /\ st_shape sT = st_shape sA /\ outT = outA.
  Proof.
    rewrite !run_of_gh. pose proof (run_tree_eval_gh fuel) as H.
    destruct (run_ghT fuel (init []) [] []) as [[[rT sT] outT] visT].
    destruct (run_ghA fuel (init c0) [] []) as [[[rA sA] outA] visA]. tauto.
  Qed.

  (* with verbose on every line reaches the stream, so "nothing popped" can be read off the output *)
  Theorem run_tree_eval fuel :
    o_verbose opts = true ->
    let '(rT, sT, outT) := runT fuel [] in
    let '(rA, sA, outA) := runA fuel c0 in
    (forall e, In e outT -> is_pop_ev e = false) ->
    eval_listx (rev (ps_values sT)) c0 = (ps_ctx sA, rev (ps_values sA)) /\
    ps_ctx sT = flat_map post_calls (rev (ps_values sT)) /\
    forall t, rT = Accept t ->
      exists v, rA = Accept v /\ snd (evalx t c0) = v /\
                (ps_values sT = [t] -> evalx t c0 = (ps_ctx sA, v) /\ ps_ctx sT = post_calls t).
  Proof.
    intros Hverb. rewrite !run_of_gh. pose proof (run_tree_eval_gh fuel) as H. pose proof (run_accept_eval_gh fuel) as Ha.
    pose proof (run_gh_out_verbose ptree TC g tbl opts buf cap lexer tree_term_f tree_err_f tree_rule_f fuel (init []) Hverb) as Ho.
    destruct (run_ghT fuel (init []) [] []) as [[[rT sT] outT] visT].
    destruct (run_ghA fuel (init c0) [] []) as [[[rA sA] outA] visA].
    destruct H as (_ & _ & _ & _ & _ & _ & Hev). intros Hnp.
    rewrite Ho in Hnp. destruct (Hev Hnp) as [H1 H2]. auto.
  Qed.
End Eval.

(* the post-order half for the tree run alone *)
Theorem calls_postorder g tbl opts buf cap lexer fuel :
  let '(rT, sT, outT, visT) := run_gh ptree _ g tbl opts buf cap lexer tree_term_f tree_err_f tree_rule_f fuel (init []) [] [] in
  no_pop ptree _ g tbl opts buf cap lexer tree_term_f tree_err_f tree_rule_f visT ->
  ps_ctx sT = flat_map post_calls (rev (ps_values sT)) /\
  forall t, rT = Accept t -> ps_values sT = [t] -> ps_ctx sT = post_calls t.
Proof.
  pose proof (run_tree_eval_gh unit unit g tbl opts buf cap lexer (fun _ _ _ _ => tt) (fun _ => tt) (fun _ _ _ => (tt, tt)) tt fuel) as H.
  destruct (run_gh ptree _ g tbl opts buf cap lexer tree_term_f tree_err_f tree_rule_f fuel (init []) [] []) as [[[rT sT] outT] visT].
  destruct (run_gh unit unit g tbl opts buf cap lexer (fun _ _ _ _ => tt) (fun _ => tt) (fun _ _ _ => (tt, tt)) fuel (init tt) [] []) as [[[rA sA] outA] visA].
  destruct H as (_ & _ & _ & _ & _ & _ & Hev). intros Hnp. destruct (Hev Hnp) as [_ H2]. split; [assumption|].
  intros t _ Hs. rewrite H2, Hs. cbn. now rewrite app_nil_r.
Qed.

Theorem calls_postorder_verbose g tbl opts buf cap lexer fuel :
  o_verbose opts = true ->
  let '(rT, sT, outT) := run ptree _ g tbl opts buf cap lexer tree_term_f tree_err_f tree_rule_f fuel [] in
  (forall e, In e outT -> is_pop_ev e = false) ->
  ps_ctx sT = flat_map post_calls (rev (ps_values sT)) /\
  forall t, rT = Accept t -> ps_values sT = [t] -> ps_ctx sT = post_calls t.
Proof.
  intros Hverb. rewrite run_of_gh. pose proof (calls_postorder g tbl opts buf cap lexer fuel) as H.
  pose proof (run_gh_out_verbose ptree _ g tbl opts buf cap lexer tree_term_f tree_err_f tree_rule_f fuel (init []) Hverb) as Ho.
  destruct (run_gh ptree _ g tbl opts buf cap lexer tree_term_f tree_err_f tree_rule_f fuel (init []) [] []) as [[[rT sT] outT] visT].
  intros Hnp. apply H. now rewrite Ho in Hnp.
Qed.

(* induction over [ptree] with the hypothesis for every child of a node *)
Section PtreeInd.
  Variable P : ptree -> Prop.
  Hypothesis Hl : forall t a l p, P (PLeaf t a l p).
  Hypothesis He : forall p, P (PErr p).
  Hypothesis Hn : forall r ch, Forall P ch -> P (PNode r ch).
  Fixpoint ptree_ind2 (t : ptree) : P t :=
    match t with
    | PLeaf t a l p => Hl t a l p
    | PErr p => He p
    | PNode r ch =>
        Hn r ch ((fix go (l : list ptree) : Forall P l :=
                    match l with [] => Forall_nil P | x :: l' => Forall_cons x (ptree_ind2 x) (go l') end) ch)
    end.
End PtreeInd.

(* With functors that ignore the context, evaluation commutes with the run even across error recovery. *)
Section CtxFree.
  Variables V C : Type.
  Variable g : grammar.
  Variable tbl : table.
  Variable opts : options.
  Variable buf : list nat.
  Variable cap : option nat.
  Variable lexer : bool -> spoint -> list nat -> list lex_event * option (nat * nat).
  Variable term_f : nat -> nat -> nat -> spoint -> V.
  Variable err_f : spoint -> V.
  Variable rule_f : nat -> C -> list V -> C * V.
  Variable f : nat -> list V -> V.
  Hypothesis rule_ctx_free : forall r c args, rule_f r c args = (c, f r args).
  Variable c0 : C.

  Notation evalx := (eval V C term_f err_f rule_f).
  Notation eval_listx := (eval_list V C term_f err_f rule_f).
  Definition value_of (t : ptree) : V := snd (evalx t c0).

  Lemma cf_eval_list l c : Forall (fun t => forall c, fst (evalx t c) = c) l -> fst (eval_listx l c) = c.
  Proof.
    intros H; revert c; induction H as [|x l Hx _ IH]; intros c; cbn [eval_list]; [reflexivity|].
    specialize (Hx c). destruct (evalx x c) as [c1 v]. cbn in Hx; subst c1.
    specialize (IH c). destruct (eval_listx l c). assumption.
  Qed.

  Lemma cf_eval t : forall c, fst (evalx t c) = c.
  Proof.
    induction t as [| |r ch IH] using ptree_ind2; intros c; [reflexivity..|].
    rewrite eval_node. pose proof (cf_eval_list ch c IH) as H. destruct (eval_listx ch c) as [c1 vs].
    cbn in H; subst c1. now rewrite rule_ctx_free.
  Qed.

  Lemma cf_eval_list_eq l : eval_listx l c0 = (c0, map value_of l).
  Proof.
    induction l as [|x l IH]; cbn [eval_list map]; [reflexivity|].
    unfold value_of at 1. pose proof (cf_eval x c0) as H. destruct (evalx x c0) as [c1 v]. cbn in H; subst c1.
    now rewrite IH.
  Qed.

  Theorem run_tree_eval_ctx_free fuel :
    let '(rT, sT, outT) := run ptree _ g tbl opts buf cap lexer tree_term_f tree_err_f tree_rule_f fuel [] in
    let '(rA, sA, outA) := run V C g tbl opts buf cap lexer term_f err_f rule_f fuel c0 in
    rA = map_res value_of rT /\ ps_values sA = map value_of (ps_values sT) /\ ps_ctx sA = c0 /\
    st_shape sA = st_shape sT /\ outA = outT.
  Proof.
    rewrite !run_of_gh.
    pose proof (run_gh_hom ptree (list (nat * list ptree)) V C g tbl opts buf cap lexer tree_term_f tree_err_f tree_rule_f
                  term_f err_f rule_f value_of (fun _ => c0)) as H.
    specialize (H ltac:(reflexivity) ltac:(reflexivity)).
    assert (Hr : forall r (c : list (nat * list ptree)) args,
               rule_f r c0 (map value_of args) = (c0, value_of (snd (tree_rule_f r c args)))).
    { intros r c args. unfold tree_rule_f, value_of at 2. cbn [snd]. rewrite eval_node, cf_eval_list_eq.
      now rewrite !rule_ctx_free. }
    specialize (H Hr fuel (init []) [] []). change (map_st value_of (fun _ => c0) (init [])) with (@init V C c0) in H.
    cbn [map] in H. rewrite H.
    destruct (run_gh ptree _ g tbl opts buf cap lexer tree_term_f tree_err_f tree_rule_f fuel (init []) [] []) as [[[rT sT] outT] visT].
    repeat split. apply shape_map_st.
  Qed.
End CtxFree.
