(* Soundness of the lexer-automaton validator of Valid/DfaValid.v: an automaton accepted by [lexer_ok] computes,
   with [dfa_match], the longest-match / first-listed-term tokenisation of Spec/Lang.v, and never indexes the
   automaton out of range. Nothing is assumed about how the automaton was built.
   A vector of derivatives, one per term, denotes the residual languages after the input read so far ([vec_ok]); [best]
   is the loop invariant of the reference decider [spec_longest]; one row of the closed table simulates one derivative
   step ([check_row]), so an accepted automaton runs as the reference decider ([run_spec], [lexer_ok_run]). *)
Require Import Ctpg.Base.Prelude Ctpg.Proofs.ListFacts Ctpg.Model.Driver Ctpg.Model.Dfa Ctpg.Spec.Lang Ctpg.Valid.DfaValid
               Ctpg.Valid.SpecMatch Ctpg.Proofs.DfaRe.

(* what a visit to state d does to the last recognition and to the trace *)
Definition rec_step (d : dstate) (len : nat) (rt : option (nat * nat)) : option (nat * nat) :=
  match d_rec d with t :: _ => Some (t, len) | [] => rt end.
Definition rec_ev (vb : bool) (p : spoint) (d : dstate) (ev : list lex_event) : list lex_event :=
  match d_rec d with t :: _ => if vb then LxRecognized p t :: ev else ev | [] => ev end.

Lemma dfa_match_aux_eq : forall sm vb st p len inp rt ev,
  dfa_match_aux sm vb st p len inp rt ev =
  match nth_error sm st with
  | None => (rev ev, rt, true)
  | Some d =>
      match inp with
      | [] => (rev (rec_ev vb p d ev), rec_step d len rt, false)
      | c :: rest =>
          match nth c (d_trans d) None with
          | None => (rev (rec_ev vb p d ev), rec_step d len rt, false)
          | Some nx =>
              dfa_match_aux sm vb nx (sp_update p [c]) (S len) rest (rec_step d len rt)
                (if vb then LxNewState p nx :: LxChar p c :: rec_ev vb p d ev else rec_ev vb p d ev)
          end
      end
  end.
Proof.
  intros. unfold rec_step, rec_ev.
  destruct inp; cbn [dfa_match_aux]; destruct (nth_error sm st) as [d|]; try reflexivity; destruct (d_rec d); reflexivity.
Qed.

(* the verdict and the out-of-range flag *)
Definition res (x : list lex_event * option (nat * nat) * bool) : option (nat * nat) * bool :=
  (snd (fst x), snd x).

Lemma dfa_match_aux_res_indep : forall inp sm v1 v2 p1 p2 st len rt e1 e2,
  res (dfa_match_aux sm v1 st p1 len inp rt e1) = res (dfa_match_aux sm v2 st p2 len inp rt e2).
Proof.
  induction inp as [|c inp IH]; intros;
    rewrite (dfa_match_aux_eq sm v1), (dfa_match_aux_eq sm v2);
    destruct (nth_error sm st) as [d|]; try reflexivity;
    destruct (nth c (d_trans d) None) as [nx|]; try reflexivity; apply IH.
Qed.

(* the matcher from state st, reduced to verdict and flag; not [Driver.run], which this name hides for a file
   that imports both *)
Definition run (sm : dfa) (st len : nat) (inp : list nat) (rt : option (nat * nat)) : option (nat * nat) * bool :=
  res (dfa_match_aux sm false st sp0 len inp rt []).

Lemma run_eq : forall sm st len inp rt,
  run sm st len inp rt =
  match nth_error sm st with
  | None => (rt, true)
  | Some d =>
      match inp with
      | [] => (rec_step d len rt, false)
      | c :: rest =>
          match nth c (d_trans d) None with
          | None => (rec_step d len rt, false)
          | Some nx => run sm nx (S len) rest (rec_step d len rt)
          end
      end
  end.
Proof.
  intros. unfold run. rewrite dfa_match_aux_eq.
  destruct (nth_error sm st) as [d|]; try reflexivity.
  destruct inp as [|c rest]; try reflexivity.
  destruct (nth c (d_trans d) None) as [nx|]; try reflexivity. apply dfa_match_aux_res_indep.
Qed.

Lemma dfa_match_run : forall sm vb p s, snd (dfa_match sm vb p s) = fst (run sm 0 0 s None).
Proof.
  intros. unfold run. rewrite (dfa_match_aux_res_indep s sm false vb sp0 p 0 0 None [] []).
  unfold dfa_match, res. destruct (dfa_match_aux sm vb 0 p 0 s None []) as [[ev rt] oob]. reflexivity.
Qed.

Lemma dfa_match_oob_run : forall sm s, dfa_match_oob sm s = snd (run sm 0 0 s None).
Proof.
  intros. unfold run, dfa_match_oob, res.
  destruct (dfa_match_aux sm false 0 sp0 0 s None []) as [[ev rt] oob]. reflexivity.
Qed.

Theorem dfa_match_verdict_independent : forall sm v1 v2 p1 p2 s,
  snd (dfa_match sm v1 p1 s) = snd (dfa_match sm v2 p2 s).
Proof. intros. rewrite !dfa_match_run. reflexivity. Qed.

Lemma dfa_match_aux_quiet : forall inp sm st p len rt ev,
  fst (fst (dfa_match_aux sm false st p len inp rt ev)) = rev ev.
Proof.
  assert (Q : forall p d ev, rec_ev false p d ev = ev) by (intros; unfold rec_ev; destruct (d_rec d); reflexivity).
  induction inp as [|c inp IH]; intros; rewrite dfa_match_aux_eq; destruct (nth_error sm st) as [d|]; rewrite ?Q; try reflexivity.
  destruct (nth c (d_trans d) None) as [nx|]; rewrite ?Q; try reflexivity. apply IH.
Qed.

Theorem dfa_match_quiet_silent : forall sm p s, fst (dfa_match sm false p s) = [].
Proof.
  intros. pose proof (dfa_match_aux_quiet s sm 0 p 0 None []) as H. unfold dfa_match.
  destruct (dfa_match_aux sm false 0 p 0 s None []) as [[ev rt] oob]. exact H.
Qed.

Lemma opt_nat_eqb_eq : forall a b, opt_nat_eqb a b = true -> a = b.
Proof.
  intros [x|] [y|]; cbn; intros H; try discriminate; auto.
  apply Nat.eqb_eq in H. subst. reflexivity.
Qed.

Lemma first_nullable_some : forall v k i, first_nullable k v = Some i ->
  k <= i /\ i - k < length v /\ nullable (nth (i - k) v Emp) = true /\
  forall j, j < i - k -> nullable (nth j v Emp) = false.
Proof.
  induction v as [|r v IH]; cbn [first_nullable]; intros k i H; try discriminate.
  destruct (nullable r) eqn:E.
  - inversion H; subst. rewrite Nat.sub_diag. cbn. repeat split; auto; try lia.
  - apply IH in H. destruct H as (H1 & H2 & H3 & H4).
    replace (i - k) with (S (i - S k)) by lia. cbn [nth length]. repeat split; auto; try lia.
    intros j Hj. destruct j; auto. apply H4. lia.
Qed.

Lemma first_nullable_none : forall v k, first_nullable k v = None -> forall j, nullable (nth j v Emp) = false.
Proof.
  induction v as [|r v IH]; cbn [first_nullable]; intros k H j.
  - destruct j; reflexivity.
  - destruct (nullable r) eqn:E; try discriminate. destruct j; cbn [nth]; eauto.
Qed.

(* the update of the last recognition when the least nullable component of v is the first filled slot *)
Definition null_step (v : vec) (len : nat) (rt : option (nat * nat)) : option (nat * nat) :=
  match first_nullable 0 v with Some i => Some (i, len) | None => rt end.

Lemma rec_step_null : forall d v len rt,
  hd_error (d_rec d) = first_nullable 0 v -> rec_step d len rt = null_step v len rt.
Proof. unfold rec_step, null_step. intros d v len rt <-. destruct (d_rec d); reflexivity. Qed.

Lemma spec_aux_eq : forall D v len s b,
  spec_aux D v len s b =
  match s with
  | [] => null_step v len b
  | c :: t => spec_aux D (map (deriv D c) v) (S len) t (null_step v len b)
  end.
Proof. intros. destruct s; reflexivity. Qed.

Section Sound.
Variable terms : list term_data.
Let D := dict_of terms.

Lemma dict_incl : forall i t, nth_error terms i = Some t -> incl (charsets_of (regex_of_term t)) D.
Proof.
  intros i t H s Hs. unfold D, dict_of. apply in_flat_map. exists t. split; auto.
  eapply nth_error_In; eauto.
Qed.

(* v is the vector of the residual languages of the terms after the prefix pre *)
Definition vec_ok (pre : list nat) (v : vec) : Prop :=
  length v = length terms /\
  forall i t, nth_error terms i = Some t -> forall u, lang D (nth i v Emp) u <-> term_matches t (pre ++ u).

Lemma v0_ok : vec_ok [] (v0_of D terms).
Proof.
  split.
  - unfold v0_of. apply map_length.
  - intros i t Hi u. unfold v0_of.
    rewrite (nth_error_nth _ _ Emp (map_nth_error (fun t => norm (re_of D (regex_of_term t))) _ _ Hi)).
    cbn [app]. unfold term_matches. symmetry. apply re_of_ok. eapply dict_incl; eauto.
Qed.

Lemma step_ok : forall pre v c, vec_ok pre v -> vec_ok (pre ++ [c]) (map (deriv D c) v).
Proof.
  intros pre v c [Hl Hv]. split.
  - rewrite map_length. assumption.
  - intros i t Hi u.
    pose proof (map_nth (deriv D c) v Emp i) as E. cbn [deriv] in E. rewrite E.
    rewrite deriv_ok, (Hv i t Hi), <- app_assoc. reflexivity.
Qed.

(* r is the best recognition among the prefixes of s that are shorter than n *)
Definition best (s : list nat) (n : nat) (r : option (nat * nat)) : Prop :=
  match r with
  | Some (i, len) =>
      len < n /\
      (exists t, nth_error terms i = Some t /\ term_matches t (firstn len s)) /\
      (forall j t, j < i -> nth_error terms j = Some t -> ~ term_matches t (firstn len s)) /\
      (forall len' j t, len < len' -> len' < n -> nth_error terms j = Some t -> ~ term_matches t (firstn len' s))
  | None =>
      forall len' j t, len' < n -> nth_error terms j = Some t -> ~ term_matches t (firstn len' s)
  end.

Lemma best_final : forall s r, best s (S (length s)) r -> is_longest_match terms s r.
Proof.
  intros s [[i len]|]; cbn [best is_longest_match].
  - intros (H1 & H2 & H3 & H4). repeat split; auto; try lia.
    intros len' j t Ha Hb. apply H4; lia.
  - intros H len' j t Ha. apply H. lia.
Qed.

Lemma best_extend : forall s n m r, best s n r -> n <= m ->
  (forall len' j t, n <= len' -> len' < m -> nth_error terms j = Some t -> ~ term_matches t (firstn len' s)) ->
  best s m r.
Proof.
  intros s n m [[i len]|]; cbn [best].
  - intros (H1 & H2 & H3 & H4) Hnm Hnew. repeat split; auto; try lia.
    intros len' j t Ha Hb. destruct (Nat.lt_ge_cases len' n); eauto.
  - intros H Hnm Hnew len' j t Ha. destruct (Nat.lt_ge_cases len' n); eauto.
Qed.

(* what the nullable components say about the consumed prefix *)
Lemma null_step_best : forall pre rest v rt,
  vec_ok pre v ->
  best (pre ++ rest) (length pre) rt ->
  best (pre ++ rest) (S (length pre)) (null_step v (length pre) rt).
Proof.
  intros pre rest v rt [Hl Hv] Hb.
  assert (Hnull : forall i t, nth_error terms i = Some t ->
                    (nullable (nth i v Emp) = true <-> term_matches t (firstn (length pre) (pre ++ rest)))).
  { intros i t Hi. rewrite firstn_app_exact, nullable_ok, (Hv i t Hi), app_nil_r. reflexivity. }
  unfold null_step. destruct (first_nullable 0 v) as [t0|] eqn:Hhd.
  - apply first_nullable_some in Hhd. rewrite Nat.sub_0_r in Hhd.
    destruct Hhd as (_ & Hlt & Hn & Hless).
    cbn [best]. split; [lia|]. split; [|split].
    + rewrite Hl in Hlt. apply nth_error_Some in Hlt.
      destruct (nth_error terms t0) as [t|] eqn:Ht; [|congruence].
      exists t. split; auto. apply (Hnull t0 t Ht). assumption.
    + intros j t Hj Ht Hm. apply (Hnull j t Ht) in Hm. rewrite (Hless j Hj) in Hm. discriminate.
    + intros; lia.
  - pose proof (first_nullable_none _ _ Hhd) as Hnone.
    eapply best_extend; eauto.
    intros len' j t Ha Hb' Hj. assert (len' = length pre) by lia. subst len'.
    intros Hm. apply (Hnull j t Hj) in Hm. rewrite Hnone in Hm. discriminate.
Qed.

Lemma spec_aux_ok : forall rest pre v rt,
  vec_ok pre v -> best (pre ++ rest) (length pre) rt ->
  is_longest_match terms (pre ++ rest) (spec_aux D v (length pre) rest rt).
Proof.
  induction rest as [|c rest IH]; intros pre v rt Hv Hbest; rewrite spec_aux_eq;
    pose proof (null_step_best pre _ v rt Hv Hbest) as Hb1.
  - apply best_final. rewrite app_nil_r in *. exact Hb1.
  - rewrite (app_assoc pre [c] rest : pre ++ c :: rest = _) in *. rewrite <- (last_length pre c) in *.
    apply IH; [apply step_ok|]; assumption.
Qed.

(* _any: of every string, not only of strings of bytes (Proofs/SpecMatchCorrect.v has the forms with [bytes_ok]) *)
Theorem spec_longest_correct_any : forall s, is_longest_match terms s (spec_longest terms s).
Proof. intros s. apply (spec_aux_ok s [] _ None v0_ok). cbn. intros; lia. Qed.

(* once every component denotes the empty language, nothing more is recognised *)
Lemma null_step_empty : forall v len rt, (forall r, In r v -> ~ lang D r []) -> null_step v len rt = rt.
Proof.
  intros v len rt He. unfold null_step. destruct (first_nullable 0 v) as [i|] eqn:E; auto.
  apply first_nullable_some in E as (_ & Hlt & Hn & _).
  apply (nullable_ok D) in Hn. apply He in Hn; [contradiction | apply nth_In, Hlt].
Qed.

Lemma spec_aux_empty : forall s v len rt,
  (forall r, In r v -> forall u, ~ lang D r u) -> spec_aux D v len s rt = rt.
Proof.
  induction s as [|c s IH]; intros v len rt He; rewrite spec_aux_eq, null_step_empty by auto; auto.
  apply IH. intros r Hr u. apply in_map_iff in Hr as (r0 & <- & Hr). rewrite deriv_ok. auto.
Qed.

(* an automaton with a closed table of (state, vector) pairs runs as the reference decider *)
Variable sm : dfa.
Variable tab : table.
Hypothesis Hclosed : check_closed D sm tab (v0_of D terms) = true.

Lemma check_row : forall q v, In v (row tab q) ->
  exists d, nth_error sm q = Some d /\ hd_error (d_rec d) = first_nullable 0 v /\
    forall c, c < 256 ->
      match nth c (d_trans d) None with
      | Some q' => In (map (deriv D c) v) (row tab q')
      | None => forall r, In r (map (deriv D c) v) -> is_empty D r = true
      end.
Proof.
  intros q v Hin. unfold check_closed in Hclosed.
  apply andb_true_iff in Hclosed. destruct Hclosed as [_ Hall].
  assert (Hq : q < length tab).
  { destruct (Nat.lt_ge_cases q (length tab)) as [|Hge]; auto.
    unfold row in Hin. rewrite nth_overflow in Hin by assumption. contradiction. }
  rewrite forallb_seq0 in Hall. specialize (Hall q Hq).
  destruct (nth_error sm q) as [d|]; [|destruct (row tab q); [contradiction | discriminate]].
  exists d. apply andb_true_iff in Hall. destruct Hall as [_ Hall].
  apply (proj1 (forallb_forall _ _) Hall), andb_true_iff in Hin. destruct Hin as [Hrec Htr].
  split; [reflexivity|]. split; [apply opt_nat_eqb_eq, Hrec|]. intros c Hc.
  rewrite forallb_seq0 in Htr. specialize (Htr c Hc). cbv beta zeta in Htr.
  destruct (nth c (d_trans d) None); [apply vec_mem_In | apply forallb_forall]; exact Htr.
Qed.

Lemma run_spec : forall rest q v rt len, In v (row tab q) -> bytes_ok rest ->
  run sm q len rest rt = (spec_aux D v len rest rt, false).
Proof.
  induction rest as [|c rest IH]; intros q v rt len Hin Hbytes;
    destruct (check_row q v Hin) as (d & Hd & Hrec & Htr);
    rewrite run_eq, Hd, (rec_step_null d v len rt Hrec), spec_aux_eq; auto.
  specialize (Htr c (Forall_inv Hbytes)). apply Forall_inv_tail in Hbytes.
  destruct (nth c (d_trans d) None) as [q'|]; auto.
  rewrite spec_aux_empty; auto. intros r Hr u. apply is_empty_ok, Htr, Hr.
Qed.

Lemma run_start : forall s, bytes_ok s -> run sm 0 0 s None = (spec_longest terms s, false).
Proof.
  intros s. apply run_spec. unfold check_closed in Hclosed.
  apply andb_true_iff in Hclosed. destruct Hclosed as [H _]. apply vec_mem_In, H.
Qed.

End Sound.

Theorem lexer_ok_run : forall sm terms s, lexer_ok sm terms = true -> bytes_ok s ->
  run sm 0 0 s None = (spec_longest terms s, false).
Proof.
  intros sm terms s H. unfold lexer_ok in H. cbv zeta in H.
  destruct (collect _ _ _ _ _) as [tab|]; [|discriminate].
  eapply run_start; eauto.
Qed.

Theorem lexer_ok_sound : forall sm terms s,
  lexer_ok sm terms = true -> bytes_ok s ->
  is_longest_match terms s (snd (dfa_match sm false sp0 s)).
Proof.
  intros sm terms s H Hs. rewrite dfa_match_run, (lexer_ok_run sm terms s H Hs). apply spec_longest_correct_any.
Qed.

Theorem lexer_ok_no_oob : forall sm terms s,
  lexer_ok sm terms = true -> bytes_ok s -> dfa_match_oob sm s = false.
Proof.
  intros sm terms s H Hs. rewrite dfa_match_oob_run, (lexer_ok_run sm terms s H Hs). reflexivity.
Qed.

(* a one-pattern term list: the longest match is the whole string exactly when the pattern matches it *)
Lemma single_longest_match : forall r s m, is_longest_match [TRegex r] s m ->
  (match m with Some (0, len) => Nat.eqb len (length s) | _ => false end = true <-> matches r s).
Proof.
  intros r s [[i len]|]; cbn [is_longest_match]; intros L.
  - destruct L as (Hle & (t & Ht & Hm) & _ & Hlong).
    destruct i as [|i]; [|destruct i; discriminate]. inversion Ht; subst t.
    rewrite Nat.eqb_eq. split.
    + intros ->. rewrite firstn_all in Hm. exact Hm.
    + intros Hr. destruct (Nat.eq_dec len (length s)) as [|Hne]; auto.
      exfalso. apply (Hlong (length s) 0 (TRegex r)); try lia; auto.
      unfold term_matches. rewrite firstn_all. exact Hr.
  - split; [discriminate|]. intros Hr. exfalso.
    apply (L (length s) 0 (TRegex r)); auto. unfold term_matches. rewrite firstn_all. exact Hr.
Qed.

Theorem expr_ok_sound : forall sm r s,
  lexer_ok sm [TRegex r] = true -> bytes_ok s -> (expr_match sm s = true <-> matches r s).
Proof. intros sm r s H Hs. apply single_longest_match, lexer_ok_sound; assumption. Qed.

(* the same: [expr_ok sm r] unfolds to [lexer_ok sm [TRegex r]] *)
Theorem expr_ok_sound' : forall sm r s,
  expr_ok sm r = true -> bytes_ok s -> (expr_match sm s = true <-> matches r s).
Proof. exact expr_ok_sound. Qed.

Print Assumptions lexer_ok_sound.
Print Assumptions lexer_ok_no_oob.
Print Assumptions dfa_match_verdict_independent.
Print Assumptions dfa_match_quiet_silent.
Print Assumptions expr_ok_sound.
