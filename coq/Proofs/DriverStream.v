(* Where a loop-head state of the driver stands in the token stream of its buffer.
   The driver lexes lazily, so the input still to come is no field of its state: [stream sp pos toks fl] is the
   sequence of tokens (term, start, length) that get_current_term / consume_term will meet from the token
   boundary [pos] on when the source point tracked there is [sp]; [fl] tells how it ends (true: end of input,
   false: the lexer fails).  A token of the stream has positive length and lies inside the buffer, so nothing
   below asks anything of the lexer; [stream_exists] is where a lexer is asked to answer in range.
   [stands s toks fl] places a state of any mode before [toks]: on the boundary, or with the head of [toks]
   fetched ([fetched]: consume_term leads to the boundary before the tail).  get_current_term fetches the head
   of [toks] ([gct_stands]); what leaves the cursor fields alone keeps the place ([stands_same]); consume_term,
   after a shift or when the token is discarded in consume mode, moves to the tail ([fetched_consume]).
   From a true position, or with a lexer that ignores the point, the stream is what [tokenize] of Spec/Eval.v
   computes ([stream_tokenize]); Proofs/DriverTokens.v keeps the place of a state against [tokenize] itself ([tok_at]). *)
Require Import Ctpg.Base.Prelude Ctpg.Proofs.ListFacts Ctpg.Model.Grammar Ctpg.Model.LRGen Ctpg.Model.Driver
               Ctpg.Spec.Eval Ctpg.Proofs.DriverBasics Ctpg.Proofs.DriverPos.

Definition tok := (nat * nat * nat)%type.
Definition terms (toks : list tok) : list nat := map (fun tk => fst (fst tk)) toks.

Lemma terms_tl toks : terms (tl toks) = tl (terms toks).
Proof. destruct toks; reflexivity. Qed.

Section Stream.
  Variable opts : options.
  Variable buf : list nat.
  Variable lexer : bool -> spoint -> list nat -> list lex_event * option (nat * nat).
  Notation kw := (wsk opts buf).

  (* the source point behind the whitespace that follows the boundary *)
  Definition after_ws (sp : spoint) (pos : nat) : spoint := sp_update sp (slice_of buf pos (pos + kw pos)).

  Inductive stream : spoint -> nat -> list tok -> bool -> Prop :=
  (* [pos <= length buf] holds of every stream; the other two constructors have it from [skipn .. = c :: rest] *)
  | StEof sp pos : pos <= length buf -> skipn (pos + kw pos) buf = [] -> stream sp pos [] true
  | StFail sp pos c rest :
      skipn (pos + kw pos) buf = c :: rest ->
      snd (lexer (o_verbose opts) (after_ws sp pos) (c :: rest)) = None ->
      stream sp pos [] false
  | StTok sp pos c rest t len toks fl :
      skipn (pos + kw pos) buf = c :: rest ->
      snd (lexer (o_verbose opts) (after_ws sp pos) (c :: rest)) = Some (t, len) ->
      0 < len -> pos + kw pos + len <= length buf ->
      stream (sp_update (after_ws sp pos) (slice_of buf (pos + kw pos) (pos + kw pos + len))) (pos + kw pos + len) toks fl ->
      stream sp pos ((t, pos + kw pos, len) :: toks) fl.

  (* the stream read off the buffer and the lexer's answer *)
  Lemma stream_inv sp pos toks fl : stream sp pos toks fl ->
    pos <= length buf /\
    match skipn (pos + kw pos) buf with
    | [] => toks = [] /\ fl = true
    | c :: rest =>
        match snd (lexer (o_verbose opts) (after_ws sp pos) (c :: rest)) with
        | None => toks = [] /\ fl = false
        | Some (t, len) =>
            0 < len /\ pos + kw pos + len <= length buf /\
            exists toks', toks = (t, pos + kw pos, len) :: toks' /\
              stream (sp_update (after_ws sp pos) (slice_of buf (pos + kw pos) (pos + kw pos + len)))
                     (pos + kw pos + len) toks' fl
        end
    end.
  Proof.
    destruct 1 as [sp pos Hle Hsk|sp pos c rest Hsk Hl|sp pos c rest t len toks fl Hsk Hl Hp Hlen Hst]; rewrite Hsk.
    - auto.
    - rewrite Hl. apply skipn_cons_lt in Hsk. split; [lia|auto].
    - rewrite Hl. split; [lia|eauto 6].
  Qed.

  Lemma stream_length sp pos toks fl : stream sp pos toks fl -> pos + length toks <= length buf.
  Proof.
    induction 1 as [|sp pos c rest Hsk _|]; cbn [length]; [lia| |lia]. apply skipn_cons_lt in Hsk. lia.
  Qed.

  (* a lexer that answers, on the suffixes of the buffer at hand, with terms in P and lexemes of positive length
     inside the remaining input defines a stream from every boundary *)
  Lemma stream_exists (P : nat -> Prop) :
    (forall v p k t len, snd (lexer v p (skipn k buf)) = Some (t, len) -> P t /\ 0 < len /\ len <= length (skipn k buf)) ->
    forall m sp pos, length buf - pos <= m -> pos <= length buf ->
    exists toks fl, stream sp pos toks fl /\ Forall P (terms toks).
  Proof.
    intros Htok. induction m as [|m IH]; intros sp pos Hm Hle.
    - exists [], true. split; [|constructor]. apply StEof; [assumption|]. apply skipn_all2. lia.
    - destruct (skipn (pos + kw pos) buf) as [|c rest] eqn:Hsk.
      { exists [], true. split; [now apply StEof|constructor]. }
      destruct (snd (lexer (o_verbose opts) (after_ws sp pos) (c :: rest))) as [[t len]|] eqn:Hl.
      + pose proof Hl as Hl'. rewrite <- Hsk in Hl'. destruct (Htok _ _ _ _ _ Hl') as (Ht & Hp & Hlen).
        rewrite skipn_length in Hlen.
        destruct (IH (sp_update (after_ws sp pos) (slice_of buf (pos + kw pos) (pos + kw pos + len)))
                     (pos + kw pos + len)) as (toks & fl & Hs & Hw); [lia..|].
        exists ((t, pos + kw pos, len) :: toks), fl. split; [eapply StTok; eauto; lia|constructor; assumption].
      + exists [], false. split; [eapply StFail; eassumption|constructor].
  Qed.
End Stream.

Arguments stream_inv {opts buf lexer sp pos toks fl}.

Section StreamTokenize.
  Variable opts : options.
  Variable buf : list nat.
  Variable lexer : bool -> spoint -> list nat -> list lex_event * option (nat * nat).

  (* [tokenize] hands the lexer the true position, the driver the point it tracks: hence the second premise.
     F is the fuel of [tokenize], e the offset of the lexical failure. *)
  Lemma stream_tokenize sp pos toks fl : stream opts buf lexer sp pos toks fl ->
    (forall v p q rest, snd (lexer v p rest) = snd (lexer v q rest)) \/ sp = true_pos buf pos ->
    forall F, length toks < F ->
      exists e, tokenize F opts lexer buf pos = (toks, if fl then TokEof (length buf) else TokFail e).
  Proof.
    assert (Hv : forall sp pos rest, (forall v p q rest, snd (lexer v p rest) = snd (lexer v q rest)) \/ sp = true_pos buf pos ->
              snd (lexer (o_verbose opts) (true_pos buf (pos + wsk opts buf pos)) rest) =
              snd (lexer (o_verbose opts) (after_ws opts buf sp pos) rest)).
    { intros sp1 pos1 rest [Hi| ->]; [apply Hi|]. unfold after_ws. now rewrite true_pos_slice by lia. }
    induction 1 as [sp pos Hle Hsk|sp pos c rest Hsk Hl|sp pos c rest t len toks fl Hsk Hl _ _ _ IH]; intros Hsp [|F] HF;
      try (cbn in HF; lia); rewrite tokenize_S, Hsk.
    - exists 0. do 2 f_equal. apply skipn_nil_ge in Hsk. pose proof (wsk_le opts buf pos). lia.
    - rewrite (Hv sp pos _ Hsp), Hl. eauto.
    - rewrite (Hv sp pos _ Hsp), Hl.
      (* behind the token the point is true again *)
      destruct (IH ltac:(destruct Hsp as [Hi| ->]; [auto|right; unfold after_ws; now rewrite !true_pos_slice by lia])
                   F ltac:(cbn in HF; lia)) as (e & ->).
      eauto.
  Qed.
End StreamTokenize.

Section Stands.
  Variables V C : Type.
  Variable g : grammar.
  Variable opts : options.
  Variable buf : list nat.
  Variable lexer : bool -> spoint -> list nat -> list lex_event * option (nat * nat).

  Notation pst := (pstate V C).
  Notation strm := (stream opts buf lexer).
  Notation aws := (after_ws opts buf).
  Notation consumex := (consume_term V C buf).

  (* the head of [toks] fetched (<eof> if there is none): consume_term leads to the boundary before the rest.
     Behind trailing whitespace <eof> is fetched with [ps_end s] left before [ps_it s]: the slice between them is empty. *)
  Definition fetched (s : pst) (toks : list tok) (fl : bool) : Prop :=
    ps_term s = Some (hd (eof_idx g) (terms toks)) /\
    strm (sp_update (ps_sp s) (slice_of buf (ps_it s) (ps_end s))) (ps_end s) (tl toks) fl /\
    match toks with
    | [] => fl = true
    | (_, start, len) :: _ => start = ps_it s /\ 0 < len /\ ps_end s = ps_it s + len
    end.

  Inductive stands (s : pst) (toks : list tok) (fl : bool) : Prop :=
  | SBoundary : ps_it s = ps_end s -> strm (ps_sp s) (ps_it s) toks fl -> stands s toks fl
  | SFetched : fetched s toks fl -> stands s toks fl.

  Lemma stands_init c toks fl : strm sp0 0 toks fl -> stands (init c) toks fl.
  Proof. intros H. now apply SBoundary. Qed.

  Lemma stands_end_le s toks fl : stands s toks fl -> ps_end s <= length buf.
  Proof. intros [He Hst|(_ & Hst & _)]; [rewrite <- He|]; apply (stream_inv Hst). Qed.

  (* with nothing between cursor and lexeme end the state is on the boundary, whatever it fetched before *)
  Lemma stands_boundary s toks fl : stands s toks fl -> ps_it s = ps_end s -> strm (ps_sp s) (ps_it s) toks fl.
  Proof.
    intros [_ Hst|(_ & Hst & Hk)] E; [assumption|]. destruct toks as [|[[t a] len] toks]; [|lia].
    now rewrite slice_of_nil, <- E in Hst by lia.
  Qed.

  Lemma stands_same s s' toks fl : same_cur s s' -> stands s toks fl -> stands s' toks fl.
  Proof.
    intros (Hsp & Hit & Hen & Htm) [He Hst|Hf]; [apply SBoundary|apply SFetched; unfold fetched];
      rewrite ?Hsp, ?Hit, ?Hen, ?Htm; assumption.
  Qed.

  (* moving past the fetched lexeme (a shift, or discarding in consume mode) *)
  Lemma fetched_consume s s' toks fl : fetched s toks fl -> same_cur (consumex s) s' -> stands s' (tl toks) fl.
  Proof.
    intros (_ & Hst & _) (Hsp & Hit & Hen & _). simp_ps_in Hsp. simp_ps_in Hit. simp_ps_in Hen.
    apply SBoundary; [congruence|]. now rewrite Hsp, Hit.
  Qed.

  Lemma gct_stands s toks fl s1 ot ev :
    ps_rec s = false -> stands s toks fl -> gct_spec V C g opts buf lexer s (s1, ot, ev) ->
    match ot with
    | None => toks = [] /\ fl = false
    | Some t => t = hd (eof_idx g) (terms toks) /\ fetched s1 toks fl
    end.
  Proof.
    intros Hr Hs H.
    inversion H as [Hr'|_ Hne|sp1 it1 _ He Hit1 Hsp1 Hsk|sp1 it1 c rest lx _ He Hit1 Hsp1 Hsk Hlx|sp1 it1 c rest lx t len _ He Hit1 Hsp1 Hsk Hlx];
      subst s1 ot ev; [congruence| |pose proof (stands_boundary s toks fl Hs He) as Hst; apply stream_inv in Hst as [Hle Hst];
                                     rewrite <- Hit1, Hsk in Hst; subst it1 sp1..].
    - (* something is pending *)
      destruct Hs as [He _|Hf]; [contradiction|]. rewrite (proj1 Hf). auto.
    - destruct Hst as [-> ->]. split; [reflexivity|]. unfold fetched. simp_ps. repeat split.
      rewrite (slice_of_nil buf _ (ps_end s)), <- He by lia. now apply StEof.
    - fold (aws (ps_sp s) (ps_it s)) in Hlx. apply (f_equal snd) in Hlx. cbn [snd] in Hlx. rewrite Hlx in Hst. exact Hst.
    - fold (aws (ps_sp s) (ps_it s)) in Hlx. apply (f_equal snd) in Hlx. cbn [snd] in Hlx. rewrite Hlx in Hst.
      destruct Hst as (Hp & Hlen & toks' & -> & Hst). split; [reflexivity|]. unfold fetched. simp_ps. auto.
  Qed.
End Stands.

Arguments stands_end_le {V C g opts buf lexer s toks fl}.
Arguments stands_boundary {V C g opts buf lexer s toks fl}.
Arguments stands_same {V C g opts buf lexer s s' toks fl}.
Arguments SFetched {V C g opts buf lexer s toks fl}.
Arguments gct_stands {V C g opts buf lexer s toks fl s1 ot ev}.
Arguments fetched_consume {V C g opts buf lexer s s' toks fl}.
