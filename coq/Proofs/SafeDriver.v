(* Memory safety of the table-driven driver (Model/Driver.v), for the generic driver: any semantic algebra, any
   options, any buffer, any stack capacity, any fuel.
   With a table that passes [safe_ok] (implied by [validate_safe]) and a lexer whose answers are in range, the run
   never ends in [Crash]: no unchecked access of the C++ is out of range, also during error recovery
   ([no_crash_safe_ok], [no_crash_validated]).
   With the purely dimensional [table_wfb] (which holds also of tables with conflicts) the three index crashes
   CrTableRow / CrTableCol / CrRuleInfo never occur ([no_crash_table_wf]). *)
Require Import Ctpg.Base.Prelude Ctpg.Proofs.ListFacts Ctpg.Model.Grammar Ctpg.Model.LRGen Ctpg.Model.Driver
               Ctpg.Spec.LRSpec Ctpg.Valid.LRValid Ctpg.Valid.LRSafe Ctpg.Proofs.LRReflect Ctpg.Proofs.LRValidFacts
               Ctpg.Proofs.LRSound Ctpg.Proofs.DriverBasics Ctpg.Proofs.DriverIter Ctpg.Proofs.SafeBasics.

(* the lexer's answers are in range for the grammar (a real term, not <eof>/<error>) and for the buffer.
   [lexer_in_range] of Spec/Eval.v says nothing of t and bounds len from below as well, [0 < len <= length rest];
   [TermRecAll.lexer_tokenises] asks all three, on the suffixes of the buffer. *)
Definition lexer_ok_for (g : grammar)
  (lexer : bool -> spoint -> list nat -> list lex_event * option (nat * nat)) : Prop :=
  forall v p rest t len, snd (lexer v p rest) = Some (t, len) -> t < eof_idx g /\ len <= length rest.

(* the same, required only of the suffixes of the buffer at hand (all the driver ever passes to the lexer) *)
Definition lexer_ok_on (g : grammar) (buf : list nat)
  (lexer : bool -> spoint -> list nat -> list lex_event * option (nat * nat)) : Prop :=
  forall v p k t len, snd (lexer v p (skipn k buf)) = Some (t, len) -> t < eof_idx g /\ len <= length (skipn k buf).

Lemma lexer_ok_for_on g lexer : lexer_ok_for g lexer -> forall buf, lexer_ok_on g buf lexer.
Proof. intros H buf v p k t len E. exact (H v p _ t len E). Qed.

(* what [safe_ok] adds to [sound_facts]: a state that holds a dot-0 item of a rule other than the root rule has a goto
   with a target on the rule's left side (the item has a parent, [closure_min_ok]; the parent's nonterminal a goto,
   [goto_nt_ok]) *)
Record safe_facts (g : grammar) (sts : list items) (tbl : table) : Prop := {
  sa_sound : sound_facts g sts tbl;
  sa_call : forall s i, s < length sts -> In i (state_items sts s) -> it_d i = 0 -> it_r i <> root_rule_idx g ->
            exists s', goto_target g tbl s (NT (ri_l (get_ri g (it_r i)))) = Some s'
}.

Lemma safe_facts_of g sts tbl : safe_ok g sts tbl = true -> safe_facts g sts tbl.
Proof.
  unfold safe_ok. intros H. apply andb_true_iff in H as [H Hcm]. apply andb_true_iff in H as [Hs Hg].
  rewrite forallb_seq0 in Hg. unfold closure_min_ok in Hcm. rewrite forallb_seq0 in Hcm.
  pose proof (sound_facts_of _ _ _ Hs) as SF. constructor; [exact SF|].
  intros s i Hlt Hi Hd Hnr. specialize (Hcm s Hlt). unfold closure_min_state in Hcm.
  rewrite forallb_forall in Hcm. specialize (Hcm i Hi). rewrite Hd in Hcm. cbn [Nat.eqb negb orb] in Hcm.
  apply orb_true_iff in Hcm as [Hcm|Hcm].
  - apply andb_true_iff in Hcm as [_ Hr]. apply item_eqb_eq in Hr. subst i. destruct Hnr. reflexivity.
  - unfold has_parent in Hcm. apply existsb_exists in Hcm as (j & Hj & Hc).
    unfold calls in Hc. destruct (next_sym g j) as [[a|b]|] eqn:Hnx; try discriminate. apply Nat.eqb_eq in Hc. subst b.
    specialize (Hg s Hlt). unfold goto_nt_ok in Hg. rewrite forallb_forall in Hg. specialize (Hg j Hj).
    rewrite (next_sym_incomplete _ _ _ SF _ _ _ Hlt Hj Hnx), Hnx in Hg.
    destruct (goto_target g tbl s (NT _)) as [s'|]; [eauto|discriminate].
Qed.

Lemma goto_ok_nt g sts tbl s : goto_ok g sts tbl s = true -> goto_nt_ok g sts tbl s = true.
Proof.
  unfold goto_ok, goto_nt_ok. rewrite !forallb_forall. intros H i Hi. specialize (H i Hi).
  destruct (is_complete g i); [reflexivity|].
  destruct (next_sym g i) as [[a|b]|]; try reflexivity.
  destruct (goto_target g tbl s (NT b)); [reflexivity|discriminate].
Qed.

Lemma validate_safe_safe_ok g sts tbl : validate_safe g sts tbl = true -> safe_ok g sts tbl = true.
Proof.
  unfold validate_safe, validate, table_ok, safe_ok. intros H.
  apply andb_true_iff in H as [H Hcm]. apply andb_true_iff in H as [H Hst]. apply andb_true_iff in H as [Hs _].
  rewrite Hs, Hcm, andb_true_r. cbn [andb].
  rewrite forallb_forall in Hst |- *. intros s Hin. specialize (Hst s Hin).
  apply andb_true_iff in Hst as [Hst _]. apply andb_true_iff in Hst as [_ Hgo]. apply goto_ok_nt. exact Hgo.
Qed.

Lemma safe_ok_closure_min g sts tbl : safe_ok g sts tbl = true -> closure_min_ok g sts = true.
Proof. unfold safe_ok. intros H. apply andb_true_iff in H. apply H. Qed.

Lemma skipn_length_le {A} (l : list A) n : length (skipn n l) = length l - n.
Proof. apply skipn_length. Qed.

(* what [get_current_term] leaves in range: the end of the pending lexeme, the pending term, the term handed out *)
Lemma gct_ranges V C g opts buf lexer (s s1 : pstate V C) t ev :
  0 < term_count g -> lexer_ok_on g buf lexer -> gct_spec V C g opts buf lexer s (s1, Some t, ev) ->
  (forall x, ps_term s = Some x -> x < term_count g) ->
  (ps_end s <= length buf -> ps_end s1 <= length buf) /\
  (forall x, ps_term s1 = Some x -> x < term_count g) /\ t < term_count g.
Proof.
  intros Htc HLX H Hterm. remember (s1, Some t, ev) as x eqn:E.
  destruct H as [Hr|Hr Hne|sp1 it1 Hr He Hit1 Hsp1 Hsk|sp1 it1 c rest lx Hr He Hit1 Hsp1 Hsk Hl
                |sp1 it1 c rest lx t0 len Hr He Hit1 Hsp1 Hsk Hl]; try discriminate E; injection E as <- Et _; simp_ps.
  - subst t. repeat split; auto. unfold err_idx; lia.
  - auto.
  - subst t. repeat split; auto; try intros x [= <-]; unfold eof_idx; lia.
  - subst t0. rewrite <- Hsk in Hl. apply (f_equal snd) in Hl. cbn [snd] in Hl. apply HLX in Hl as [Ht Hlen]. unfold eof_idx in Ht.
    repeat split; try (intros x [= <-]); try lia.
    intros _. rewrite skipn_length in Hlen. apply skipn_cons_lt in Hsk as [Hl1 _]. lia.
Qed.

Section Safe.
  Variables V C : Type.
  Variable g : grammar.
  Variable sts : list items.
  Variable tbl : table.
  Variable opts : options.
  Variable buf : list nat.
  Variable cap : option nat.
  Variable lexer : bool -> spoint -> list nat -> list lex_event * option (nat * nat).
  Variable term_f : nat -> nat -> nat -> spoint -> V.
  Variable err_f : spoint -> V.
  Variable rule_f : nat -> C -> list V -> C * V.
  Hypothesis SA : safe_facts g sts tbl.
  Hypothesis HLX : lexer_ok_on g buf lexer.

  Let SF : sound_facts g sts tbl := sa_sound _ _ _ SA.

  Notation pst := (pstate V C).
  Notation stepx := (step V C g tbl opts buf cap lexer term_f err_f rule_f).
  Notation run_ghx := (run_gh V C g tbl opts buf cap lexer term_f err_f rule_f).
  Notation runx := (run V C g tbl opts buf cap lexer term_f err_f rule_f).

  (* the stack discipline of Proofs/LRSound.v on the cursor stack, value stack one shorter than the cursor stack,
     the pending lexeme inside the buffer, the pending term a term of the grammar *)
  Definition sinv (s : pst) : Prop :=
    (exists syms, stk_ok g sts (ps_cursors s) syms /\ length (ps_values s) = length syms) /\
    ps_end s <= length buf /\
    (forall x, ps_term s = Some x -> x < term_count g).

  Definition no_crash (r : result V) : Prop := forall c, r <> Crash c.

  Lemma sinv_init c : sinv (init c).
  Proof.
    unfold sinv; cbn. split; [|split; [lia|discriminate]].
    exists []. split; [constructor|reflexivity].
  Qed.

  (* what the invariant gives at once: a non-empty stack of valid rows, heights in step *)
  Lemma sinv_facts s : sinv s ->
    ps_cursors s <> [] /\ Forall (fun c => c < length sts) (ps_cursors s) /\
    length (ps_cursors s) = S (length (ps_values s)).
  Proof.
    intros ((syms & Hst & Hl) & _ & _). split; [|split].
    - intros E. rewrite E in Hst. inversion Hst.
    - eapply stk_all_lt; eassumption.
    - rewrite Hl. eapply stk_len; eassumption.
  Qed.

  Lemma term_count_pos : 0 < term_count g.
  Proof. pose proof (sf_tc _ _ _ SF). lia. Qed.

  (* A reduce cell of the top state ([reduce_cell] of Proofs/LRSound.v): the handle lies on the stack and the state [top]
     below it holds the rule's dot-0 item; [sa_call] then gives [top] a goto with a target on the rule's
     left side: every failing leaf of [decided_reduce] but the two capacity tests is excluded. *)
  Lemma red_sinv cur cs syms la rr r res :
    stk_ok g sts (cur :: cs) syms -> la < term_count g ->
    e_kind (cell_at tbl cur (nterm_count g + la)) = reduce_kind rr -> e_arg (cell_at tbl cur (nterm_count g + la)) = Some r ->
    decided_reduce g tbl cap (cur :: cs) (length syms) r res ->
    match res with
    | inl (ri, nst) => ri_n ri <= length syms /\
                       stk_ok g sts (nst :: skipn (ri_n ri) (cur :: cs)) (NT (ri_l ri) :: skipn (ri_n ri) syms)
    | inr x => no_crash (to_result V x)
    end.
  Proof.
    intros Hst Hla Ek Ea Hred.
    destruct rr; [destruct (cj_rr _ _ _ _ _ (sf_cell _ _ _ SF cur _ (stk_top_lt _ _ _ SF _ _ _ Hst) (col_lt _ _ Hla)) Ek)|].
    destruct (reduce_cell g sts tbl SF _ _ _ _ Hst Hla Ek)
      as (r' & Ea' & Hrlt & Hrnr & Hnle & i & top0 & below0 & _ & _ & _ & _ & Htb & Htop & Hin0 & Hpush).
    assert (r' = r) as -> by congruence.
    pose proof (nth_error_get_ri _ _ _ SF _ Hrlt) as Hnth. pose proof (stk_len _ _ _ _ Hst) as Hlcs.
    destruct (sf_ri _ _ _ SF _ Hrlt) as (_ & Hrl & _).
    assert (Hgoto0 : exists s', e_arg (cell_at tbl top0 (ri_l (get_ri g r))) = Some s').
    { destruct (sa_call _ _ _ SA top0 _ Htop Hin0 eq_refl Hrnr) as (s' & Hg). unfold goto_target in Hg. cbn [sym_col it_r] in Hg.
      destruct (e_kind (cell_at tbl top0 (ri_l (get_ri g r)))); try discriminate; eauto. }
    destruct Hgoto0 as (s' & Hga).
    pose proof (cell_in_range _ _ _ SF top0 (ri_l (get_ri g r)) Htop ltac:(unfold symbol_count; lia)) as Hcell0.
    case_dred Hred; cbn [to_result]; try (intros c; discriminate);
      try (rewrite Hnth in Hri; injection Hri as <-); try congruence; try lia.
    rewrite Htb in Hsk. injection Hsk as <- <-. rewrite Hcell0 in Hgoto. injection Hgoto as <-.
    rewrite Htb. exact (conj Hnle (proj2 (Hpush _ Hgarg))).
  Qed.

  Lemma move_sinv s1 cur cs t m :
    sinv s1 -> ps_cursors s1 = cur :: cs -> t < term_count g -> decided V C g tbl buf cap s1 cur t m ->
    match fst (perform buf term_f err_f rule_f m s1) with
    | inl s' => sinv s'
    | inr (x, _) => no_crash x
    end.
  Proof.
    intros Hinv Hcs Ht Ha. pose proof Hinv as ((syms & Hst & Hlen) & Hbuf & Htm).
    rewrite Hcs in Hst.
    pose proof (stk_top_lt _ _ _ SF _ _ _ Hst) as Hcur.
    pose proof (col_lt _ _ Ht) as Hcol.
    pose proof (sf_cell _ _ _ SF cur _ Hcur Hcol) as Hcj.
    pose proof (stk_len _ _ _ _ Hst) as Hlcs.
    case_move Ha; cbn [perform fst to_result]; try (intros c; discriminate);
      rewrite (cell_in_range _ _ _ SF cur _ Hcur Hcol) in Hcell; try discriminate; injection Hcell as <-;
      unfold sinv; simp_mv; rewrite ?Hcs.
    - (* consume *) split; [exists syms; auto|auto].
    - (* enter recovery *) split; [exists syms; auto|auto].
    - (* pop *) split; [|auto]. rewrite Hcs in Htl. cbn [tl] in *. exists (skipn 1 syms). split.
      + apply (stk_skip _ _ _ _ 1 Hst). rewrite Htl in Hlcs; cbn [length] in Hlcs; lia.
      + rewrite skipn_length. destruct (ps_values s1); cbn [tl length] in *; lia.
    - (* shift cell without target *)
      destruct (cj_shift _ _ _ _ _ Hcj Hkind) as (s' & Ha' & _). congruence.
    - (* lexeme beyond the buffer *) intros c. lia.
    - (* shift *) split; [|auto]. exists (T t :: syms). split; [|cbn [length]; lia].
      exact (shift_cell g sts tbl SF _ _ _ _ _ Hst Ht (or_introl Hkind) Harg).
    - (* shift of the error token *) split; [|auto]. exists (T t :: syms). split; [|cbn [length]; lia].
      exact (shift_cell g sts tbl SF _ _ _ _ _ Hst Ht (or_intror Hkind) Harg).
    - (* reduce cell without rule *)
      destruct rr; [destruct (cj_rr _ _ _ _ _ Hcj Hkind)|].
      destruct (reduce_cell g sts tbl SF _ _ _ _ Hst Ht Hkind) as (r' & Ha' & _). congruence.
    - rewrite Hcs, Hlen in Hred. destruct (red_sinv _ _ _ _ _ _ (inl (_, _)) Hst Ht Hkind Harg Hred) as [Hn Hst']. split; [|auto].
      eexists. split; [exact Hst'|]. cbn [length]. rewrite !skipn_length. lia.
    - rewrite Hcs, Hlen in Hred. exact (red_sinv _ _ _ _ _ _ (inr _) Hst Ht Hkind Harg Hred).
    - (* success: the stack spells the root symbol, so there is a value *)
      destruct (success_cell g sts tbl SF _ _ _ _ Hst Ht Hkind) as (_ & _ & x & -> & _).
      destruct (ps_values s1) as [|v [|? ?]]; try discriminate Hlen. intros c. discriminate.
  Qed.

  Lemma step_sinv s : sinv s ->
    match fst (stepx s) with
    | inl s' => sinv s'
    | inr (r, _) => no_crash r
    end.
  Proof.
    intros Hinv. apply step_moves.
    - intros E. exfalso. destruct (sinv_facts s Hinv) as (Hne & _). contradiction.
    - intros s1 ev1 _ _ _ c. discriminate.
    - intros cur cs s1 t ev1 m Hcs _ Hg Ha. destruct Hinv as (Hstk & Hend & Hterm).
      destruct (gct_stacks Hg) as (Hcs1 & Hvs1 & _).
      destruct (gct_ranges _ _ _ _ _ _ _ _ _ _ term_count_pos HLX Hg Hterm) as (Hend1 & Hterm1 & Ht).
      eapply move_sinv; [|rewrite Hcs1; exact Hcs|exact Ht|exact Ha].
      split; [rewrite Hcs1, Hvs1; exact Hstk|auto].
  Qed.

  Theorem run_gh_safe fuel c :
    let '(r, _, _, vis) := run_ghx fuel (init c) [] [] in no_crash r /\ Forall sinv vis.
  Proof.
    apply (run_gh_sinv V C g tbl opts buf cap lexer term_f err_f rule_f sinv (fun r _ => no_crash r));
      [intros s _ c0; discriminate|exact step_sinv|apply sinv_init|constructor].
  Qed.

  Theorem run_safe fuel c : forall cr, fst (fst (runx fuel c)) <> Crash cr.
  Proof.
    rewrite run_of_gh.
    pose proof (run_gh_safe fuel c) as H. destruct (run_ghx fuel (init c) [] []) as [[[r s] out] vis].
    exact (proj1 H).
  Qed.
End Safe.

(* the memory-safety theorem, under the check that also covers tables with resolved shift/reduce conflicts *)
Theorem no_crash_safe_ok :
  forall (V C : Type) g sts tbl opts buf cap lexer
         (term_f : nat -> nat -> nat -> spoint -> V) (err_f : spoint -> V) (rule_f : nat -> C -> list V -> C * V),
  safe_ok g sts tbl = true -> lexer_ok_on g buf lexer ->
  forall fuel c cr, fst (fst (run V C g tbl opts buf cap lexer term_f err_f rule_f fuel c)) <> Crash cr.
Proof.
  intros V C g sts tbl opts buf cap lexer term_f err_f rule_f Hs Hl fuel c cr.
  eapply run_safe; [apply safe_facts_of; eassumption|exact Hl].
Qed.

(* the same from the full validator, for a lexer that is in range on every buffer *)
Theorem no_crash_validated :
  forall (V C : Type) g sts tbl opts buf cap lexer
         (term_f : nat -> nat -> nat -> spoint -> V) (err_f : spoint -> V) (rule_f : nat -> C -> list V -> C * V),
  validate_safe g sts tbl = true -> lexer_ok_for g lexer ->
  forall fuel c cr, fst (fst (run V C g tbl opts buf cap lexer term_f err_f rule_f fuel c)) <> Crash cr.
Proof.
  intros V C g sts tbl opts buf cap lexer term_f err_f rule_f Hs Hl.
  eapply no_crash_safe_ok; [apply validate_safe_safe_ok; eassumption|apply lexer_ok_for_on; exact Hl].
Qed.

(* the invariant behind it, for every loop-head state the run visits: the cursor stack is non-empty, every cursor is
   the index of a state (a row of the table in use), and the value stack is exactly one shorter *)
Theorem visited_stacks_ok :
  forall (V C : Type) g sts tbl opts buf cap lexer
         (term_f : nat -> nat -> nat -> spoint -> V) (err_f : spoint -> V) (rule_f : nat -> C -> list V -> C * V),
  safe_ok g sts tbl = true -> lexer_ok_on g buf lexer ->
  forall fuel c,
    let '(_, _, _, vis) := run_gh V C g tbl opts buf cap lexer term_f err_f rule_f fuel (init c) [] [] in
    Forall (fun s => ps_cursors s <> [] /\ Forall (fun x => x < length sts) (ps_cursors s) /\
                     length (ps_cursors s) = S (length (ps_values s)) /\ ps_end s <= length buf) vis.
Proof.
  intros V C g sts tbl opts buf cap lexer term_f err_f rule_f Hs Hl fuel c.
  pose proof (safe_facts_of _ _ _ Hs) as SA.
  pose proof (run_gh_safe V C g sts tbl opts buf cap lexer term_f err_f rule_f SA Hl fuel c) as H.
  destruct (run_gh V C g tbl opts buf cap lexer term_f err_f rule_f fuel (init c) [] []) as [[[r s] out] vis].
  destruct H as [_ H]. eapply Forall_impl; [|exact H]. intros s0 Hs0.
  destruct (sinv_facts V C g sts tbl buf SA s0 Hs0) as (A & B & D). destruct Hs0 as (_ & E & _). auto.
Qed.

(* For the index crashes alone a dimensional hypothesis suffices; conflicts are allowed.  n is the number of rows in
   use (the number of states); the table may have more. *)
Record table_wf (g : grammar) (tbl : table) (n : nat) : Prop := {
  tw_tc : 0 < term_count g;
  tw_len_ri : length (rule_infos g) = rule_count g;
  tw_ri_l : forall ri, In ri (rule_infos g) -> ri_l ri < nterm_count g;
  tw_n : 0 < n;
  tw_rows : n <= length tbl;
  tw_cols : forall s, s < n -> length (nth s tbl []) = symbol_count g;
  (* every target is a row in use *)
  tw_goto : forall s c s', s < n -> c < nterm_count g -> e_arg (cell_at tbl s c) = Some s' -> s' < n;
  tw_shift : forall s c s', s < n -> nterm_count g <= c -> c < symbol_count g ->
             is_shift_kind (e_kind (cell_at tbl s c)) -> e_arg (cell_at tbl s c) = Some s' -> s' < n;
  (* every reduce argument is a rule_info index *)
  tw_reduce : forall s c r, s < n -> nterm_count g <= c -> c < symbol_count g ->
              is_reduce_kind (e_kind (cell_at tbl s c)) -> e_arg (cell_at tbl s c) = Some r -> r < rule_count g
}.

Lemma table_wf_of g tbl n : table_wfb g tbl n = true -> table_wf g tbl n.
Proof.
  unfold table_wfb. rewrite !andb_true_iff, forallb_forall, forallb_seq0.
  intros (((((Htc & Hlen) & Hri) & Hn) & Hrows) & Hst).
  apply Nat.ltb_lt in Htc, Hn. apply Nat.eqb_eq in Hlen. apply Nat.leb_le in Hrows.
  assert (Hcw : forall s c, s < n -> c < symbol_count g -> cell_wf g n c (cell_at tbl s c) = true).
  { intros s c Hs Hc. specialize (Hst s Hs). apply andb_true_iff in Hst as [_ Hst].
    rewrite forallb_seq0 in Hst. auto. }
  constructor; try assumption.
  - intros ri Hin. apply Nat.ltb_lt. auto.
  - intros s Hs. specialize (Hst s Hs). apply andb_true_iff in Hst as [Hst _]. apply Nat.eqb_eq. exact Hst.
  - intros s c s' Hs Hc Ha. assert (c < symbol_count g) as Hc' by (unfold symbol_count; lia).
    specialize (Hcw s c Hs Hc'). unfold cell_wf in Hcw.
    apply Nat.ltb_lt in Hc. rewrite Hc in Hcw. unfold targets_row in Hcw. rewrite Ha in Hcw. apply Nat.ltb_lt. exact Hcw.
  - intros s c s' Hs Hc Hc' Hk Ha. specialize (Hcw s c Hs Hc'). unfold cell_wf in Hcw.
    apply Nat.ltb_ge in Hc. rewrite Hc in Hcw. unfold targets_row in Hcw.
    destruct Hk as [Hk|Hk]; rewrite Hk, Ha in Hcw; apply Nat.ltb_lt; exact Hcw.
  - intros s c r Hs Hc Hc' Hk Ha. specialize (Hcw s c Hs Hc'). unfold cell_wf in Hcw.
    apply Nat.ltb_ge in Hc. rewrite Hc in Hcw.
    destruct Hk as [Hk|Hk]; rewrite Hk, Ha in Hcw; apply Nat.ltb_lt; exact Hcw.
Qed.

(* Section Safe's ladder again under the weaker hypothesis.  [table_wf_of_facts] derives this hypothesis from that
   one's, but neither ladder uses the other: the invariants differ. *)
Section Wf.
  Variables V C : Type.
  Variable g : grammar.
  Variable tbl : table.
  Variable n : nat.
  Variable opts : options.
  Variable buf : list nat.
  Variable cap : option nat.
  Variable lexer : bool -> spoint -> list nat -> list lex_event * option (nat * nat).
  Variable term_f : nat -> nat -> nat -> spoint -> V.
  Variable err_f : spoint -> V.
  Variable rule_f : nat -> C -> list V -> C * V.
  Hypothesis TW : table_wf g tbl n.
  Hypothesis HLX : lexer_ok_on g buf lexer.

  Notation pst := (pstate V C).
  Notation stepx := (step V C g tbl opts buf cap lexer term_f err_f rule_f).
  Notation run_ghx := (run_gh V C g tbl opts buf cap lexer term_f err_f rule_f).
  Notation runx := (run V C g tbl opts buf cap lexer term_f err_f rule_f).

  Definition winv (s : pst) : Prop :=
    Forall (fun c => c < n) (ps_cursors s) /\ (forall x, ps_term s = Some x -> x < term_count g).

  Definition index_safe (r : result V) : Prop :=
    r <> Crash CrTableRow /\ r <> Crash CrTableCol /\ r <> Crash CrRuleInfo.

  Lemma wf_cell s c : s < n -> c < symbol_count g -> cell tbl s c = inl (cell_at tbl s c).
  Proof.
    intros Hs Hc. apply cell_at_inl; [pose proof (tw_rows _ _ _ TW); lia|]. rewrite (tw_cols _ _ _ TW s Hs). exact Hc.
  Qed.

  Lemma winv_init c : winv (init c).
  Proof.
    unfold winv; cbn. split; [|discriminate]. constructor; [apply (tw_n _ _ _ TW)|constructor].
  Qed.

  Lemma red_winv cur t rr cs nv r res :
    Forall (fun c => c < n) cs -> cur < n -> t < term_count g ->
    e_kind (cell_at tbl cur (nterm_count g + t)) = reduce_kind rr -> e_arg (cell_at tbl cur (nterm_count g + t)) = Some r ->
    decided_reduce g tbl cap cs nv r res ->
    match res with
    | inl (ri, nst) => Forall (fun c => c < n) (nst :: skipn (ri_n ri) cs)
    | inr x => index_safe (to_result V x)
    end.
  Proof.
    intros Hcs Hcur Ht Hk Harg Hred.
    assert (Hr : r < rule_count g).
    { apply (tw_reduce _ _ _ TW cur (nterm_count g + t) r Hcur); [lia|exact (col_lt _ _ Ht)|rewrite Hk; destruct rr; [right|left]; reflexivity|exact Harg]. }
    (* the state uncovered by the pop is a row in use, and the goto column is a column of the table *)
    assert (Htop : forall ri top below, nth_error (rule_infos g) r = Some ri ->
                     skipn (ri_n ri) cs = top :: below ->
                     cell tbl top (ri_l ri) = inl (cell_at tbl top (ri_l ri)) /\ top < n /\ ri_l ri < nterm_count g /\
                     Forall (fun c => c < n) below).
    { intros ri top below Hn Hsk. rewrite <- (firstn_skipn (ri_n ri)), Hsk in Hcs.
      apply Forall_app in Hcs as [_ Hall]. inversion Hall; subst.
      pose proof (tw_ri_l _ _ _ TW ri (nth_error_In _ _ Hn)) as Hl.
      repeat split; auto. apply wf_cell; [assumption|unfold symbol_count; lia]. }
    case_dred Hred; unfold index_safe; cbn [to_result]; try (repeat split; discriminate).
    - apply nth_error_None in Hri. rewrite (tw_len_ri _ _ _ TW) in Hri. lia.
    - destruct (Htop _ _ _ Hri Hsk) as (Hc' & _). congruence.
    - destruct (Htop _ _ _ Hri Hsk) as (Hc' & Htl & Hl & Hall). rewrite Hc' in Hgoto. injection Hgoto as <-.
      rewrite Hsk. constructor; [|constructor; assumption].
      eapply (tw_goto _ _ _ TW top (ri_l ri)); eassumption.
  Qed.

  Lemma move_winv s1 cur cs t m :
    winv s1 -> ps_cursors s1 = cur :: cs -> t < term_count g -> decided V C g tbl buf cap s1 cur t m ->
    match fst (perform buf term_f err_f rule_f m s1) with
    | inl s' => winv s'
    | inr (x, _) => index_safe x
    end.
  Proof.
    intros Hinv Hcs Ht Ha. pose proof Hinv as (Hall & Htm).
    assert (Hcur : cur < n) by (rewrite Hcs in Hall; inversion Hall; assumption).
    pose proof (col_lt _ _ Ht) as Hcol.
    assert (Hcol' : nterm_count g <= nterm_count g + t) by lia.
    case_move Ha; cbn [perform fst to_result]; unfold index_safe; try (repeat split; discriminate);
      rewrite (wf_cell cur _ Hcur Hcol) in Hcell; try discriminate; injection Hcell as <-;
      unfold winv; simp_mv; auto.
    - (* pop *) split; [|exact Htm]. rewrite Hcs in *. inversion Hall; assumption.
    - (* shift *) split; [|exact Htm]. constructor; [|exact Hall].
      apply (tw_shift _ _ _ TW cur _ nst Hcur Hcol' Hcol); [left; exact Hkind|exact Harg].
    - (* shift of the error token *) split; [|auto]. constructor; [|exact Hall].
      apply (tw_shift _ _ _ TW cur _ nst Hcur Hcol' Hcol); [right; exact Hkind|exact Harg].
    - split; [exact (red_winv _ _ _ _ _ _ (inl (_, _)) Hall Hcur Ht Hkind Harg Hred)|exact Htm].
    - exact (red_winv _ _ _ _ _ _ (inr _) Hall Hcur Ht Hkind Harg Hred).
    - (* success *) destruct (rev (ps_values s1)); repeat split; discriminate.
  Qed.

  Lemma step_winv s : winv s ->
    match fst (stepx s) with
    | inl s' => winv s'
    | inr (r, _) => index_safe r
    end.
  Proof.
    intros (Hall & Htm). apply step_moves.
    - intros _. repeat split; discriminate.
    - intros s1 ev1 _ _ _. repeat split; discriminate.
    - intros cur cs s1 t ev1 m Hcs _ Hg Ha.
      destruct (gct_stacks Hg) as (Hcs1 & _).
      destruct (gct_ranges _ _ _ _ _ _ _ _ _ _ (tw_tc _ _ _ TW) HLX Hg Htm) as (_ & Htm1 & Ht).
      eapply move_winv; [split; [rewrite Hcs1; exact Hall|exact Htm1]|rewrite Hcs1; exact Hcs|exact Ht|exact Ha].
  Qed.

  Theorem run_index_safe fuel c : index_safe (fst (fst (runx fuel c))).
  Proof.
    rewrite run_of_gh.
    pose proof (run_gh_sinv V C g tbl opts buf cap lexer term_f err_f rule_f winv (fun r _ => index_safe r)
                  ltac:(intros s _; repeat split; discriminate) step_winv fuel (init c) [] [] (winv_init c) (Forall_nil _)) as H.
    destruct (run_ghx fuel (init c) [] []) as [[[r s] out] vis]. exact (proj1 H).
  Qed.
End Wf.

Theorem no_crash_table_wf :
  forall (V C : Type) g tbl n opts buf cap lexer
         (term_f : nat -> nat -> nat -> spoint -> V) (err_f : spoint -> V) (rule_f : nat -> C -> list V -> C * V),
  table_wfb g tbl n = true -> lexer_ok_on g buf lexer ->
  forall fuel c,
    let r := fst (fst (run V C g tbl opts buf cap lexer term_f err_f rule_f fuel c)) in
    r <> Crash CrTableRow /\ r <> Crash CrTableCol /\ r <> Crash CrRuleInfo.
Proof.
  intros V C g tbl n opts buf cap lexer term_f err_f rule_f Hw Hl fuel c.
  exact (run_index_safe V C g tbl n opts buf cap lexer term_f err_f rule_f (table_wf_of _ _ _ Hw) Hl fuel c).
Qed.

(* a justified table is in particular dimensionally well formed (n = the number of states) *)
Lemma table_wf_of_facts g sts tbl : sound_facts g sts tbl -> table_wf g tbl (length sts).
Proof.
  intros SF. constructor.
  - pose proof (sf_tc _ _ _ SF). lia.
  - apply (sf_len_ri _ _ _ SF).
  - intros ri Hin. apply In_nth_error in Hin as (i & Hi).
    destruct (get_ri_nth_error _ _ _ SF i ri Hi) as [E Hlt]. subst ri. apply (sf_ri _ _ _ SF i Hlt).
  - apply (sf_dims2 _ _ _ SF).
  - apply (sf_dims1 _ _ _ SF).
  - apply (sf_dims3 _ _ _ SF).
  - intros s c s' Hs Hc Ha.
    assert (Hc' : c < symbol_count g) by (unfold symbol_count; lia).
    pose proof (sf_cell _ _ _ SF s c Hs Hc') as Hcj.
    destruct (e_kind (cell_at tbl s c)) eqn:Hk.
    + rewrite (cj_error _ _ _ _ _ Hcj Hk Hc) in Ha. discriminate.
    + destruct (cj_success _ _ _ _ _ Hcj Hk) as [E _]. unfold col_of_term in E. lia.
    + destruct (cj_shift _ _ _ _ _ Hcj (or_introl Hk)) as (x & Hx & (Hlt & _) & _). congruence.
    + destruct (cj_shift _ _ _ _ _ Hcj (or_intror Hk)) as (x & Hx & (Hlt & _) & _). congruence.
    + destruct (cj_reduce _ _ _ _ _ Hcj Hk) as (? & _ & _ & _ & E & _). lia.
    + destruct (cj_rr _ _ _ _ _ Hcj Hk).
  - intros s c s' Hs Hc Hc' Hk Ha. pose proof (sf_cell _ _ _ SF s c Hs Hc') as Hcj.
    destruct (cj_shift _ _ _ _ _ Hcj Hk) as (x & Hx & (Hlt & _) & _). congruence.
  - intros s c r Hs Hc Hc' Hk Ha. pose proof (sf_cell _ _ _ SF s c Hs Hc') as Hcj.
    destruct Hk as [Hk|Hk]; [|destruct (cj_rr _ _ _ _ _ Hcj Hk)].
    destruct (cj_reduce _ _ _ _ _ Hcj Hk) as (x & Hx & Hlt & _). congruence.
Qed.

Theorem table_wf_of_sound g sts tbl : table_sound_ok g sts tbl = true -> table_wf g tbl (length sts).
Proof. intros H. exact (table_wf_of_facts _ _ _ (sound_facts_of _ _ _ H)). Qed.

(* the tree instance (one input element per term) on any sequence of real terms *)
Lemma id_lexer_ok_on g w : tokens_ok g w -> lexer_ok_on g w id_lexer.
Proof.
  intros Hw v p k t len E. unfold id_lexer in E.
  destruct (skipn k w) as [|c rest] eqn:Hsk; cbn in E; [discriminate|]. inversion E; subst. split; [|cbn; lia].
  unfold tokens_ok in Hw. rewrite Forall_forall in Hw. apply Hw. rewrite <- (firstn_skipn k w), Hsk. apply in_or_app. right. left. reflexivity.
Qed.

Theorem tree_run_no_crash : forall g sts tbl w,
  safe_ok g sts tbl = true -> tokens_ok g w -> forall fuel cr, tree_run g tbl w fuel <> Crash cr.
Proof.
  intros g sts tbl w Hs Hw fuel cr. unfold tree_run.
  eapply no_crash_safe_ok; [eassumption|apply id_lexer_ok_on; assumption].
Qed.

Print Assumptions no_crash_safe_ok.
Print Assumptions no_crash_validated.
Print Assumptions visited_stacks_ok.
Print Assumptions no_crash_table_wf.
Print Assumptions table_wf_of_sound.
Print Assumptions tree_run_no_crash.
