(* How the generator resolves one table cell (scan_cell, Model/LRGen.v) against the specification of
   conflicts and of the documented precedence rule (Spec/Conflict.v); and which lines of the state
   diagnostic (Model/Diag.v) are conflict lines.  Everything is for arbitrary grammars and arbitrary item
   lists (any length, order, multiplicity) unless a hypothesis says otherwise. *)
Require Import Ctpg.Base.Prelude Ctpg.Proofs.ListFacts Ctpg.Model.Grammar Ctpg.Model.LRGen Ctpg.Model.Diag.
Require Import Ctpg.Spec.Conflict Ctpg.Proofs.GenLists Ctpg.Proofs.CellBasics.
Require Coq.Logic.FinFun.

Theorem solve_conflict_is_documented_rule : forall g r t,
  solve_conflict g r t = sr_choice g r t.
Proof.
  intros g r t. unfold solve_conflict, sr_choice, rule_prec_of, rule_assoc_of, term_prec_of.
  set (rp := nth (ri_r (get_ri g r)) (rule_prec g) 0%Z).
  set (tp := nth t (term_prec g) 0%Z).
  destruct (Z.compare_spec rp tp) as [E | L | G];
    destruct (Z.ltb_spec tp rp); destruct (Z.eqb_spec rp tp); try lia; reflexivity.
Qed.

Lemma sr_choice_reduce_iff : forall g r t,
  sr_choice g r t = KReduce <->
  (rule_prec_of g r > term_prec_of g t)%Z \/
  (rule_prec_of g r = term_prec_of g t /\ rule_assoc_of g r = Ltor).
Proof.
  intros g r t. unfold sr_choice.
  destruct (Z.compare_spec (rule_prec_of g r) (term_prec_of g t)) as [E | L | G].
  - destruct (rule_assoc_of g r); split; try discriminate; auto;
      intros [H | [_ H]]; try lia; discriminate.
  - split; [discriminate | intros [H | [H _]]; lia].
  - split; auto. intros _. left. lia.
Qed.

Lemma reduce_items_cons g i its :
  reduce_items g (i :: its) = if is_complete g i then i :: reduce_items g its else reduce_items g its.
Proof. reflexivity. Qed.
Lemma shift_items_cons g i its :
  shift_items g (i :: its) = if is_complete g i then shift_items g its else i :: shift_items g its.
Proof. unfold shift_items. simpl. destruct (is_complete g i); reflexivity. Qed.
Lemma reduce_items_app g a b : reduce_items g (a ++ b) = reduce_items g a ++ reduce_items g b.
Proof. apply filter_app. Qed.

Lemma in_reduce_items g i its : In i (reduce_items g its) <-> In i its /\ is_complete g i = true.
Proof. apply filter_In. Qed.
Lemma in_shift_items g i its : In i (shift_items g its) <-> In i its /\ is_complete g i = false.
Proof. unfold shift_items. rewrite filter_In, negb_true_iff. tauto. Qed.

(* every item is a reduce item or a shift item *)
Lemma items_nil g its : reduce_items g its = [] -> shift_items g its = [] -> its = [].
Proof.
  destruct its as [|i its]; [reflexivity|]. unfold reduce_items, shift_items. simpl.
  destruct (is_complete g i); discriminate.
Qed.

Lemma reduce_items_none g its : (forall i, In i its -> is_complete g i = false) -> reduce_items g its = [].
Proof. apply filter_none. Qed.

Lemma shift_items_all g its : (forall i, In i its -> is_complete g i = false) -> shift_items g its = its.
Proof. intros H. apply filter_true_id. intros i Hi. rewrite (H i Hi). reflexivity. Qed.

Lemma reduce_items_nil g its i : reduce_items g its = [] -> In i its -> is_complete g i = false.
Proof. intros E. exact (filter_nil_all _ _ E i). Qed.

Lemma reduce_items_all g its : shift_items g its = [] -> reduce_items g its = its.
Proof. intros E. apply filter_true_id. intros i Hi. apply negb_false_iff, (filter_nil_all _ _ E i Hi). Qed.

Lemma target_kernel_In g its x :
  In x (target_kernel g its) <-> exists i, In i its /\ is_complete g i = false /\ x = advance i.
Proof.
  unfold target_kernel. rewrite dedup_first_In, in_map_iff. split.
  - intros (i & E & Hi). apply in_shift_items in Hi as [Hi Hc]. exists i. auto.
  - intros (i & Hi & Hc & E). exists i. split; auto. apply in_shift_items. auto.
Qed.

Lemma in_term_bucket_cons g t i its : in_term_bucket g t (i :: its) -> in_term_bucket g t its.
Proof. intros H j Hj. apply H. right. exact Hj. Qed.
Lemma in_term_bucket_app_l g t a b : in_term_bucket g t (a ++ b) -> in_term_bucket g t a.
Proof. intros H j Hj. apply H. apply in_or_app. left. exact Hj. Qed.

Lemma no_root_complete_cons g i its : no_root_complete g (i :: its) -> no_root_complete g its.
Proof. intros H j Hj. apply H. right. exact Hj. Qed.

Lemma no_root_complete_In g its i :
  no_root_complete g its -> In i its -> is_complete g i = true -> is_root_item g i = false.
Proof. intros H Hi Hc. specialize (H i Hi). unfold root_complete in H. rewrite Hc in H. exact H. Qed.

Lemma any_shift_eq g its :
  any_shift g its = match shift_items g its with [] => false | _ => true end.
Proof.
  unfold any_shift, shift_items. induction its as [|i its IH]; simpl; [reflexivity|].
  destruct (is_complete g i); simpl; [exact IH | reflexivity].
Qed.

(* One step of scan_cell: the stop at a completed root item from any scan state, the stop at a second reduction from the
   summary of a prefix that has one, the two steps that go on from a state written as [cell_state]. *)
Lemma scan_step_root g i rest s :
  root_complete g i = true -> scan_cell g (i :: rest) s = with_kind KSuccess s.
Proof.
  unfold root_complete, is_complete, is_root_item. intros H.
  apply andb_true_iff in H as [H1 H2]. simpl. rewrite H1, H2. reflexivity.
Qed.

Lemma scan_step_rr g t pre i rest :
  is_complete g i = true -> is_root_item g i = false -> length (reduce_items g pre) = 1 ->
  scan_cell g (i :: rest) (cell_summary g t pre) = with_kind KRR (cell_summary g t pre).
Proof.
  unfold is_complete, is_root_item, cell_summary, first_red. intros H1 H2 HL. simpl. rewrite H1, H2.
  destruct (reduce_items g pre); [discriminate | reflexivity].
Qed.

Lemma scan_step_red g t i rest hs ker :
  is_complete g i = true -> is_root_item g i = false -> it_t i = t ->
  scan_cell g (i :: rest) (cell_state g t None hs ker) =
  scan_cell g rest (cell_state g t (Some (it_r i)) hs ker).
Proof.
  unfold is_complete, is_root_item. intros H1 H2 H3. unfold cell_state. simpl.
  rewrite H1, H2. destruct hs; simpl.
  - rewrite solve_conflict_is_documented_rule, H3. reflexivity.
  - reflexivity.
Qed.

(* a shift item; the column matters only once a reduction has been seen *)
Lemma scan_step_shift g t i rest red hs ker :
  is_complete g i = false -> red = None \/ next_sym g i = Some (T t) ->
  scan_cell g (i :: rest) (cell_state g t red hs ker) =
  scan_cell g rest (cell_state g t red true (add_item ker (advance i))).
Proof.
  unfold is_complete, next_sym, rhs_of. intros H1 H2. unfold cell_state, advance. simpl. rewrite H1.
  destruct red as [r|]; simpl; [|reflexivity].
  destruct H2 as [H2 | H2]; [discriminate|]. rewrite H2.
  destruct hs; simpl; [reflexivity|]. rewrite solve_conflict_is_documented_rule. reflexivity.
Qed.

Definition or_red (red o : option nat) : option nat :=
  match red with Some r => Some r | None => o end.

(* The induction of the file: visiting [pre] from a state written as [cell_state] yields the [cell_state] of what was
   met on the way. The third premise: at most one reduction in all, counting the one recorded in [red]; a second one
   would stop the loop with KRR. *)
Lemma scan_run g t : forall pre rest red hs ker,
  in_term_bucket g t pre -> no_root_complete g pre ->
  length (reduce_items g pre) + (if is_some red then 1 else 0) <= 1 ->
  scan_cell g (pre ++ rest) (cell_state g t red hs ker) =
  scan_cell g rest (cell_state g t (or_red red (first_red g pre)) (hs || any_shift g pre)
                               (fold_left add_item (map advance (shift_items g pre)) ker)).
Proof.
  induction pre as [|i pre IH]; intros rest red hs ker HB HR HL.
  - simpl. rewrite orb_false_r. destruct red; reflexivity.
  - pose proof (in_term_bucket_cons _ _ _ _ HB) as HB'. pose proof (no_root_complete_cons _ _ _ HR) as HR'.
    destruct (HB i (or_introl eq_refl)) as [[Hc Ht] | [Hc Hn]].
    + pose proof (no_root_complete_In _ _ _ HR (or_introl eq_refl) Hc) as Hroot.
      rewrite reduce_items_cons, Hc in HL. simpl in HL.
      destruct red as [r|]; simpl in HL; [lia|].
      simpl app. rewrite (scan_step_red g t i _ hs ker Hc Hroot Ht).
      rewrite IH by (simpl; auto; lia).
      unfold first_red. rewrite reduce_items_cons, shift_items_cons.
      simpl. rewrite Hc. reflexivity.
    + simpl app. rewrite (scan_step_shift g t i _ red hs ker Hc (or_intror Hn)).
      rewrite reduce_items_cons, Hc in HL.
      rewrite IH by assumption.
      unfold first_red. rewrite reduce_items_cons, shift_items_cons.
      simpl. rewrite Hc. simpl. rewrite orb_true_r. reflexivity.
Qed.

Lemma scan0_is_cell_state g t : scan0 = cell_state g t None false [].
Proof. reflexivity. Qed.

Lemma scan_prefix g t pre rest :
  in_term_bucket g t pre -> never_stops g pre ->
  scan_cell g (pre ++ rest) scan0 = scan_cell g rest (cell_summary g t pre).
Proof.
  intros HB [HR HL]. rewrite (scan0_is_cell_state g t).
  rewrite scan_run by (simpl; auto; lia).
  simpl. rewrite fold_add_item_nil. reflexivity.
Qed.

Theorem scan_never_stops g t its :
  in_term_bucket g t its -> never_stops g its ->
  scan_cell g its scan0 = cell_summary g t its.
Proof.
  intros HB HN. rewrite <- (app_nil_r its) at 1. rewrite (scan_prefix g t) by assumption. reflexivity.
Qed.

Theorem scan_stops_success g t its pre i post :
  in_term_bucket g t its -> stops_success g its pre i post ->
  scan_cell g its scan0 = with_kind KSuccess (cell_summary g t pre).
Proof.
  intros HB (E & Hi & HR & HL). subst its.
  rewrite (scan_prefix g t) by (try split; eauto using in_term_bucket_app_l).
  apply scan_step_root. assumption.
Qed.

Theorem scan_stops_rr g t its pre i post :
  in_term_bucket g t its -> stops_rr g its pre i post ->
  scan_cell g its scan0 = with_kind KRR (cell_summary g t pre).
Proof.
  intros HB (E & Hc & Hi & HR & HL). subst its.
  rewrite (scan_prefix g t) by (try split; eauto using in_term_bucket_app_l; lia).
  apply scan_step_rr; assumption.
Qed.

Lemma never_stops_snoc g l x :
  never_stops g l ->
  never_stops g (l ++ [x]) \/ stops_success g (l ++ [x]) l x [] \/ stops_rr g (l ++ [x]) l x [].
Proof.
  intros [HR HL].
  assert (E : reduce_items g (l ++ [x]) = reduce_items g l ++ if is_complete g x then [x] else []).
  { rewrite reduce_items_app. unfold reduce_items. simpl. destruct (is_complete g x); reflexivity. }
  destruct (root_complete g x) eqn:Hroot.
  - right; left. repeat split; assumption.
  - assert (HR' : no_root_complete g (l ++ [x])).
    { intros j Hj. apply in_app_or in Hj as [Hj | [<- | []]]; auto. }
    unfold root_complete in Hroot. destruct (is_complete g x) eqn:Hc; simpl in Hroot.
    + assert (length (reduce_items g l) = 0 \/ length (reduce_items g l) = 1) as [L | L] by lia.
      * left. split; [exact HR' | rewrite E, app_length, L; reflexivity].
      * right; right. repeat split; assumption.
    + left. split; [exact HR' | rewrite E, app_nil_r; exact HL].
Qed.

(* Exactly one of the three situations occurs (existence here; exclusiveness follows from the kinds):
   the first item at which the visit stops, if there is one, splits the list. *)
Lemma stop_trichotomy g its :
  never_stops g its \/
  (exists pre i post, stops_success g its pre i post) \/
  (exists pre i post, stops_rr g its pre i post).
Proof.
  induction its as [|x l IH] using rev_ind.
  - left. split; [intros i [] | apply Nat.le_0_l].
  - destruct IH as [H | [(pre & i & post & -> & H) | (pre & i & post & -> & H)]].
    + destruct (never_stops_snoc g l x H) as [H' | [H' | H']]; eauto 6.
    + right; left. exists pre, i, (post ++ [x]). split; [symmetry; apply (app_assoc pre (i :: post)) | exact H].
    + right; right. exists pre, i, (post ++ [x]). split; [symmetry; apply (app_assoc pre (i :: post)) | exact H].
Qed.

(* what the loop leaves behind, in each of the three situations *)
Inductive scan_outcome g t its : scan -> Prop :=
| SO_all : never_stops g its -> scan_outcome g t its (cell_summary g t its)
| SO_success pre i post : stops_success g its pre i post ->
    scan_outcome g t its (with_kind KSuccess (cell_summary g t pre))
| SO_rr pre i post : stops_rr g its pre i post ->
    scan_outcome g t its (with_kind KRR (cell_summary g t pre)).

Theorem scan_cell_characterisation g t its : in_term_bucket g t its -> scan_outcome g t its (scan_cell g its scan0).
Proof.
  intros HB. destruct (stop_trichotomy g its) as [H | [(pre & i & post & H) | (pre & i & post & H)]].
  - rewrite (scan_never_stops g t its HB H). constructor. assumption.
  - rewrite (scan_stops_success g t its pre i post HB H). econstructor. eassumption.
  - rewrite (scan_stops_rr g t its pre i post HB H). econstructor. eassumption.
Qed.

Lemma scan_reduce_item g t B : in_term_bucket g t B -> sc_kind (scan_cell g B scan0) = KReduce ->
  exists i, In i B /\ is_complete g i = true /\ sc_red (scan_cell g B scan0) = Some (it_r i).
Proof.
  intros HB. destruct (scan_cell_characterisation g t B HB) as [HN|pre i post _|pre i post _]; intros HK.
  - unfold cell_summary, cell_state in *. cbn [sc_kind sc_red] in *. unfold first_red in *.
    destruct (reduce_items g B) as [|i l] eqn:ER.
    + cbn in HK. destruct (any_shift g B); discriminate.
    + exists i. assert (In i (reduce_items g B)) as Hi by (rewrite ER; cbn; auto).
      apply in_reduce_items in Hi. destruct Hi. cbn. auto.
  - cbn in HK. discriminate.
  - cbn in HK. discriminate.
Qed.

Lemma never_stops_iff g its :
  never_stops g its <->
  reduce_items g its = [] \/ exists i, reduce_items g its = [i] /\ is_root_item g i = false.
Proof.
  split.
  - intros [HR HL]. destruct (reduce_items g its) as [|i [|j l]] eqn:E; [auto | right | simpl in HL; lia].
    exists i. split; [reflexivity|].
    assert (Hi : In i (reduce_items g its)) by (rewrite E; left; reflexivity).
    apply in_reduce_items in Hi as [Hi Hc]. exact (no_root_complete_In _ _ _ HR Hi Hc).
  - intros H. split.
    + intros j Hj. unfold root_complete. destruct (is_complete g j) eqn:Hc; [|reflexivity].
      assert (Hr : In j (reduce_items g its)) by (apply in_reduce_items; auto).
      destruct H as [E | (i & E & Hi)]; rewrite E in Hr; [destruct Hr | destruct Hr as [<- | []]; exact Hi].
    + destruct H as [E | (i & E & _)]; rewrite E; simpl; lia.
Qed.

(* cell_summary with first_red unfolded and any_shift read off shift_items: the form the proofs work with *)
Lemma cell_summary_eq g t its :
  cell_summary g t its =
  cell_state g t (option_map it_r (hd_error (reduce_items g its)))
             (match shift_items g its with [] => false | _ => true end) (target_kernel g its).
Proof. unfold cell_summary. rewrite any_shift_eq. reflexivity. Qed.

(* Exactly one reduce item [i] (first, in the middle or last), not of the root rule, and at least one shift
   item, before and/or after it: the kind is the documented choice, the S/R flag is set, the reduction is
   recorded, and the target kernel collects all shift items. No assumption on order or multiplicities of
   the shift items. *)
Theorem C05_cell g t its i :
  in_term_bucket g t its ->
  reduce_items g its = [i] -> is_root_item g i = false ->
  shift_items g its <> [] ->
  let s := scan_cell g its scan0 in
  sc_kind s = sr_choice g (it_r i) t /\ sc_sr s = true /\ sc_red s = Some (it_r i) /\
  sc_has_red s = true /\ sc_has_shift s = true /\ sc_kernel s = target_kernel g its.
Proof.
  intros HB HR Hi HS s. subst s.
  rewrite (scan_never_stops g t), cell_summary_eq, HR by (try apply never_stops_iff; eauto).
  destruct (shift_items g its); [contradiction|]. simpl. repeat split; reflexivity.
Qed.

(* no reduce item (and the cell is not empty): plain shift, no flag *)
Theorem C05_no_reduce g t its :
  in_term_bucket g t its ->
  reduce_items g its = [] -> its <> [] ->
  let s := scan_cell g its scan0 in
  sc_kind s = KShift /\ sc_sr s = false /\ sc_red s = None /\ sc_has_red s = false /\
  sc_has_shift s = true /\ sc_kernel s = target_kernel g its.
Proof.
  intros HB HR HN s. subst s.
  rewrite (scan_never_stops g t), cell_summary_eq, HR by (try apply never_stops_iff; eauto).
  destruct (shift_items g its) eqn:HS; [|simpl; repeat split; reflexivity].
  destruct HN. apply (items_nil g); assumption.
Qed.

(* one reduce item (not the root rule) and no shift item: plain reduce, no flag *)
Theorem C05_no_shift g t its i :
  in_term_bucket g t its ->
  reduce_items g its = [i] -> is_root_item g i = false ->
  shift_items g its = [] ->
  let s := scan_cell g its scan0 in
  sc_kind s = KReduce /\ sc_sr s = false /\ sc_red s = Some (it_r i) /\
  sc_has_red s = true /\ sc_has_shift s = false /\ sc_kernel s = [].
Proof.
  intros HB HR Hi HS s. subst s.
  rewrite (scan_never_stops g t), cell_summary_eq, HR by (try apply never_stops_iff; eauto).
  unfold target_kernel. rewrite HS. simpl. repeat split; reflexivity.
Qed.

Lemma scan_empty g : scan_cell g [] scan0 = scan0.
Proof. reflexivity. Qed.

(* When the loop visits the whole cell (no completed root item, at most one reduction):
   the S/R flag is set exactly when the cell has a shift/reduce conflict, and then the kind is the
   documented choice for the (only) reduction. *)
Theorem C05_sr_flag_iff g t its :
  in_term_bucket g t its -> never_stops g its ->
  (sc_sr (scan_cell g its scan0) = true <-> has_sr_conflict g its) /\
  (has_sr_conflict g its ->
   exists i, reduce_items g its = [i] /\ sc_kind (scan_cell g its scan0) = sr_choice g (it_r i) t).
Proof.
  intros HB HN. rewrite (scan_never_stops g t its HB HN), cell_summary_eq. unfold has_sr_conflict.
  apply never_stops_iff in HN as [E | (i & E & Hi)]; rewrite E; simpl.
  - split; [split; [discriminate | intros (a & _ & [] & _)] | intros (a & _ & [] & _)].
  - destruct (shift_items g its) as [|j l]; simpl.
    + split; [split; [discriminate | intros (a & b & _ & _ & [])] | intros (a & b & _ & _ & [])].
    + split; [split; [intros _; exists i, j; auto | reflexivity] | intros _; exists i; split; reflexivity].
Qed.

(* In a state no item occurs twice and no dot is beyond the end of its rule; then "all reduce items have the
   same rule" means there is exactly one reduce item; C05_cell_one_rule states C05_cell for one distinct reduce rule r. *)
Lemma complete_same_rule_eq g t its i j :
  in_term_bucket g t its -> dots_in_range g its ->
  In i (reduce_items g its) -> In j (reduce_items g its) -> it_r i = it_r j -> i = j.
Proof.
  intros HB HD Hi Hj E.
  apply in_reduce_items in Hi as [Hi Hci]. apply in_reduce_items in Hj as [Hj Hcj].
  pose proof (HD i Hi) as Di. pose proof (HD j Hj) as Dj.
  destruct (HB i Hi) as [[_ Ti] | [F _]]; [|congruence].
  destruct (HB j Hj) as [[_ Tj] | [F _]]; [|congruence].
  unfold is_complete in Hci, Hcj. apply Nat.leb_le in Hci, Hcj.
  destruct i as [r1 d1 t1], j as [r2 d2 t2]. simpl in *. subst. f_equal. lia.
Qed.

(* in a state (no repeated item, dots in range) two reduce items have different rules *)
Lemma two_reduces_iff_rr_conflict g t its :
  in_term_bucket g t its -> NoDup its -> dots_in_range g its ->
  (2 <= length (reduce_items g its) <-> has_rr_conflict g its).
Proof.
  intros HB ND HD. split.
  - intros HL. destruct (reduce_items g its) as [|i [|j l]] eqn:E; simpl in HL; try lia.
    exists i, j. rewrite E. repeat split; simpl; auto.
    intros Er. assert (i = j).
    { apply (complete_same_rule_eq g t its); auto; rewrite E; simpl; auto. }
    subst j. assert (NDr : NoDup (reduce_items g its)) by (apply NoDup_filter; assumption).
    rewrite E in NDr. inversion NDr; subst. apply H1. left. reflexivity.
  - intros (i & j & Hi & Hj & Hne).
    destruct (reduce_items g its) as [|a [|b l]]; simpl in *; try lia; try tauto.
    destruct Hi as [<- | []], Hj as [<- | []]. congruence.
Qed.

Theorem C05_cell_one_rule g t its r :
  in_term_bucket g t its -> NoDup its -> dots_in_range g its ->
  (forall i, In i (reduce_items g its) -> it_r i = r) ->
  reduce_items g its <> [] ->
  Nat.eqb (ri_r (get_ri g r)) (root_rule_idx g) = false ->
  shift_items g its <> [] ->
  let s := scan_cell g its scan0 in
  sc_kind s = sr_choice g r t /\ sc_sr s = true /\ sc_red s = Some r /\
  sc_has_shift s = true /\ sc_kernel s = target_kernel g its.
Proof.
  intros HB ND HD Hall HNE Hroot HS.
  destruct (reduce_items g its) as [|i [|j l]] eqn:E; [contradiction | |].
  - assert (Hr : it_r i = r) by (apply Hall; left; reflexivity). subst r.
    destruct (C05_cell g t its i HB E Hroot HS) as (A & B & C & D & F & G). repeat split; assumption.
  - destruct (proj1 (two_reduces_iff_rr_conflict g t its HB ND HD)) as (a & b & Ha & Hb & Hne).
    + rewrite E. simpl. lia.
    + rewrite E in Ha, Hb. rewrite (Hall a Ha), (Hall b Hb) in Hne. contradiction.
Qed.

Lemma kind_cell_summary g t its :
  sc_kind (cell_summary g t its) <> KSuccess /\ sc_kind (cell_summary g t its) <> KRR.
Proof.
  unfold cell_summary. destruct (first_red g its) as [r|], (any_shift g its); simpl; try (split; discriminate).
  destruct (sr_choice_cases g r t) as [-> | ->]; split; discriminate.
Qed.

(* success exactly when a completed root item is met while at most one reduction has been seen *)
Theorem C11_success_iff g t its :
  in_term_bucket g t its ->
  (sc_kind (scan_cell g its scan0) = KSuccess <-> exists pre i post, stops_success g its pre i post).
Proof.
  intros HB. split.
  - intros HK. destruct (scan_cell_characterisation g t its HB) as [_ | pre i post H | pre i post _].
    + destruct (kind_cell_summary g t its). contradiction.
    + eauto.
    + discriminate.
  - intros (pre & i & post & H). rewrite (scan_stops_success g t its pre i post) by assumption. reflexivity.
Qed.

(* R/R exactly when a second reduction is met before any completed root item *)
Theorem C11_rr_iff g t its :
  in_term_bucket g t its ->
  (sc_kind (scan_cell g its scan0) = KRR <-> exists pre i post, stops_rr g its pre i post).
Proof.
  intros HB. split.
  - intros HK. destruct (scan_cell_characterisation g t its HB) as [_ | pre i post _ | pre i post H].
    + destruct (kind_cell_summary g t its). contradiction.
    + discriminate.
    + eauto.
  - intros (pre & i & post & H). rewrite (scan_stops_rr g t its pre i post) by assumption. reflexivity.
Qed.

Lemma stops_success_has_root g its pre i post :
  stops_success g its pre i post -> ~ no_root_complete g its.
Proof.
  intros (E & Hc & _) H. subst its. rewrite H in Hc; [discriminate|].
  apply in_or_app. right. left. reflexivity.
Qed.

(* without reference to the order, when the cell has no completed root item *)
Theorem C11_rr_iff_no_root g t its :
  in_term_bucket g t its -> no_root_complete g its ->
  (sc_kind (scan_cell g its scan0) = KRR <-> 2 <= length (reduce_items g its)).
Proof.
  intros HB HR. rewrite (C11_rr_iff g t its HB). split.
  - intros (pre & i & post & -> & Hc & _ & _ & HL).
    rewrite reduce_items_app, reduce_items_cons, Hc, app_length. simpl. lia.
  - intros HL. destruct (stop_trichotomy g its) as [[_ H] | [(pre & i & post & H) | H]].
    + lia.
    + exfalso. eapply stops_success_has_root; eassumption.
    + assumption.
Qed.

Theorem C11_rr_iff_conflict g t its :
  in_term_bucket g t its -> no_root_complete g its -> NoDup its -> dots_in_range g its ->
  (sc_kind (scan_cell g its scan0) = KRR <-> has_rr_conflict g its).
Proof.
  intros HB HR ND HD. rewrite (C11_rr_iff_no_root g t its HB HR).
  apply (two_reduces_iff_rr_conflict g t); assumption.
Qed.

(* D12, the known deviation: a completed root item that comes first ends the loop; whatever follows
   (reductions, shifts) is not looked at, so an accept/reduce conflict leaves no trace *)
Theorem success_hides_later_items g i rest :
  root_complete g i = true ->
  scan_cell g (i :: rest) scan0 = with_kind KSuccess scan0.
Proof. intros H. apply scan_step_root. assumption. Qed.

Corollary success_hides_later_items_kind g i rest :
  root_complete g i = true ->
  sc_kind (scan_cell g (i :: rest) scan0) = KSuccess /\ sc_sr (scan_cell g (i :: rest) scan0) = false.
Proof. intros H. rewrite success_hides_later_items by assumption. split; reflexivity. Qed.

(* more generally the items after the first stopping item never matter *)
Theorem items_after_stop_ignored g t pre i post post' :
  in_term_bucket g t (pre ++ [i]) ->
  (stops_success g (pre ++ i :: post) pre i post \/ stops_rr g (pre ++ i :: post) pre i post) ->
  scan_cell g (pre ++ i :: post') scan0 = scan_cell g (pre ++ i :: post) scan0.
Proof.
  intros HB H.
  assert (HBp : in_term_bucket g t pre) by (eapply in_term_bucket_app_l; eassumption).
  destruct H as [(_ & Hi & HR & HL) | (_ & Hc & Hi & HR & HL)].
  - rewrite !(scan_prefix g t) by (try split; auto). rewrite !scan_step_root by assumption. reflexivity.
  - rewrite !(scan_prefix g t) by (try split; auto; lia).
    rewrite !scan_step_rr by assumption. reflexivity.
Qed.

(* Without a completed root item in the cell, some conflict mark is left
   (S/R flag or kind R/R) exactly when the cell has a conflict.  With two reduce items and a shift item the
   loop may stop at R/R before or after having set the S/R flag, hence the disjunction on the left. *)
Theorem C11_conflict_flag_iff_count g t its :
  in_term_bucket g t its -> no_root_complete g its ->
  (sc_sr (scan_cell g its scan0) = true \/ sc_kind (scan_cell g its scan0) = KRR <->
   has_sr_conflict g its \/ 2 <= length (reduce_items g its)).
Proof.
  intros HB HR.
  destruct (Nat.le_gt_cases (length (reduce_items g its)) 1) as [HL | HL].
  - assert (HN : never_stops g its) by (split; assumption).
    destruct (C05_sr_flag_iff g t its HB HN) as [Hsr _].
    rewrite Hsr. rewrite (C11_rr_iff_no_root g t its HB HR). reflexivity.
  - assert (HK : sc_kind (scan_cell g its scan0) = KRR) by (apply (C11_rr_iff_no_root g t); auto).
    split; intros _; [right; lia | right; assumption].
Qed.

Theorem C11_conflict_flag_iff g t its :
  in_term_bucket g t its -> no_root_complete g its -> NoDup its -> dots_in_range g its ->
  (sc_sr (scan_cell g its scan0) = true \/ sc_kind (scan_cell g its scan0) = KRR <->
   has_sr_conflict g its \/ has_rr_conflict g its).
Proof.
  intros HB HR ND HD. rewrite (C11_conflict_flag_iff_count g t its HB HR).
  rewrite (two_reduces_iff_rr_conflict g t its HB ND HD). reflexivity.
Qed.

(* [scanned g its false] is the prefix visited before the loop stops: a prefix as in [scan_run] is visited whole *)
Lemma scanned_app g rest : forall pre (seen : bool),
  no_root_complete g pre -> length (reduce_items g pre) + (if seen then 1 else 0) <= 1 ->
  scanned g (pre ++ rest) seen =
  pre ++ scanned g rest (seen || match reduce_items g pre with [] => false | _ => true end).
Proof.
  induction pre as [|j pre IH]; intros seen HR HL.
  - simpl. rewrite orb_false_r. reflexivity.
  - pose proof (no_root_complete_cons _ _ _ HR) as HR'. simpl. destruct (is_complete g j) eqn:Hc.
    + rewrite reduce_items_cons, Hc in *. simpl in HL.
      rewrite (no_root_complete_In _ _ _ HR (or_introl eq_refl) Hc). destruct seen; [lia|]. rewrite IH by (auto; simpl; lia). reflexivity.
    + rewrite reduce_items_cons, Hc in *. rewrite IH by auto. reflexivity.
Qed.

Lemma scanned_never_stops g its : never_stops g its -> scanned g its false = its.
Proof.
  intros [HR HL]. rewrite <- (app_nil_r its) at 1. rewrite scanned_app by (auto; simpl; lia). apply app_nil_r.
Qed.
Lemma scanned_stops g its pre i post :
  stops_success g its pre i post \/ stops_rr g its pre i post -> scanned g its false = pre.
Proof.
  intros [(-> & Hi & HR & HL) | (-> & Hc & Hi & HR & HL)]; rewrite scanned_app by (auto; simpl; lia); simpl.
  - unfold root_complete in Hi. apply andb_true_iff in Hi as [-> ->]. apply app_nil_r.
  - rewrite Hc, Hi. destruct (reduce_items g pre); [discriminate | apply app_nil_r].
Qed.

Corollary stop_prefix_unique g its pre i post pre' i' post' :
  (stops_success g its pre i post \/ stops_rr g its pre i post) ->
  (stops_success g its pre' i' post' \/ stops_rr g its pre' i' post') ->
  pre = pre' /\ i = i' /\ post = post'.
Proof.
  intros H H'. pose proof (scanned_stops g its pre i post H) as E.
  rewrite (scanned_stops g its pre' i' post' H') in E. subst pre'.
  assert (A : its = pre ++ i :: post) by (destruct H as [H | H]; apply H).
  assert (A' : its = pre ++ i' :: post') by (destruct H' as [H' | H']; apply H').
  rewrite A in A'. apply app_inv_head in A'. inversion A'. auto.
Qed.

(* everything the loop records, except the kind, is the summary of the visited prefix *)
Theorem scan_cell_scanned g t its :
  in_term_bucket g t its ->
  scan_cell g its scan0 =
  with_kind (sc_kind (scan_cell g its scan0)) (cell_summary g t (scanned g its false)).
Proof.
  intros HB. destruct (scan_cell_characterisation g t its HB) as [H | pre i post H | pre i post H].
  - rewrite (scanned_never_stops g its H). reflexivity.
  - rewrite (scanned_stops g its pre i post (or_introl H)). reflexivity.
  - rewrite (scanned_stops g its pre i post (or_intror H)). reflexivity.
Qed.

(* the kernel is the list of advanced shift items visited, without repetition, first occurrences in order *)
Theorem C_kernel g t its :
  in_term_bucket g t its ->
  sc_kernel (scan_cell g its scan0) = target_kernel g (scanned g its false).
Proof. intros HB. rewrite (scan_cell_scanned g t its HB). reflexivity. Qed.

Corollary C_kernel_no_stop g t its :
  in_term_bucket g t its -> never_stops g its ->
  sc_kernel (scan_cell g its scan0) = dedup_first (map advance (shift_items g its)).
Proof. intros HB HN. rewrite (C_kernel g t its HB), (scanned_never_stops g its HN). reflexivity. Qed.

Corollary C_kernel_NoDup g t its :
  in_term_bucket g t its -> NoDup (sc_kernel (scan_cell g its scan0)).
Proof. intros HB. rewrite (C_kernel g t its HB). apply dedup_first_NoDup. Qed.

Corollary C_kernel_In g t its x :
  in_term_bucket g t its ->
  (In x (sc_kernel (scan_cell g its scan0)) <->
   exists i, In i (scanned g its false) /\ is_complete g i = false /\ x = advance i).
Proof.
  intros HB. rewrite (C_kernel g t its HB). apply target_kernel_In.
Qed.

(* when the shift items visited are pairwise different, nothing is dropped *)
Corollary C_kernel_NoDup_id g t its :
  in_term_bucket g t its -> never_stops g its -> NoDup its ->
  sc_kernel (scan_cell g its scan0) = map advance (shift_items g its).
Proof.
  intros HB HN ND. rewrite (C_kernel_no_stop g t its HB HN). apply dedup_first_NoDup_id.
  apply FinFun.Injective_map_NoDup; [|apply NoDup_filter; assumption].
  intros [r1 d1 t1] [r2 d2 t2] E. unfold advance in E. simpl in E. inversion E. reflexivity.
Qed.

(* columns of nonterminals (goto) hold shift items only: there too the scan is [cell_summary] and the kernel the
   advanced items without repetition, whatever the symbol *)
Lemma scan_shift_only g t : forall its hs ker,
  (forall i, In i its -> is_complete g i = false) ->
  scan_cell g its (cell_state g t None hs ker) =
  cell_state g t None (match its with [] => hs | _ => true end)
             (fold_left add_item (map advance its) ker).
Proof.
  induction its as [|i its IH]; intros hs ker H; [reflexivity|].
  rewrite scan_step_shift by auto using in_eq.
  rewrite IH by (intros j Hj; apply H; right; exact Hj).
  simpl. destruct its; reflexivity.
Qed.

Lemma scan_shift_summary g t its :
  (forall i, In i its -> is_complete g i = false) -> scan_cell g its scan0 = cell_summary g t its.
Proof.
  intros H. rewrite (scan0_is_cell_state g t), scan_shift_only, fold_add_item_nil, cell_summary_eq by assumption.
  unfold target_kernel. rewrite reduce_items_none, shift_items_all by assumption. destruct its; reflexivity.
Qed.

Theorem goto_cell g its :
  (forall i, In i its -> is_complete g i = false) -> its <> [] ->
  let s := scan_cell g its scan0 in
  sc_kind s = KShift /\ sc_sr s = false /\ sc_red s = None /\ sc_kernel s = dedup_first (map advance its).
Proof.
  (* 0: any term will do, [cell_state] without a reduce does not look at it *)
  intros H HN s. subst s. rewrite (scan0_is_cell_state g 0), scan_shift_only, fold_add_item_nil by assumption.
  destruct its; [contradiction|]. repeat split; reflexivity.
Qed.

Lemma entry_flag_cell_state g t red hs ker :
  entry_flag (cell_state g t red hs ker) = sc_sr (cell_state g t red hs ker).
Proof.
  unfold entry_flag. destruct red as [r|], hs; simpl; try reflexivity.
  destruct (sr_choice g r t); reflexivity.
Qed.

(* for a reduce entry the C++ stores has_shift instead of the flag: on a cell that is the same thing *)
Theorem entry_flag_is_sr_flag g t its :
  in_term_bucket g t its ->
  entry_flag (scan_cell g its scan0) = sc_sr (scan_cell g its scan0).
Proof.
  intros HB. destruct (scan_cell_characterisation g t its HB); [apply entry_flag_cell_state | reflexivity..].
Qed.

(* what do_transitions writes into the table for a non-empty bucket *)
Theorem do_transitions_entry g lim cur col sts tb sts' tb' its :
  bucket g (st_all (nth cur sts (mkSt [] []))) col = its ->
  its <> [] ->
  do_transitions g lim cur col sts tb = inl (sts', tb') ->
  exists arg, tb' = set_cell tb cur col
                      (mkE (entry_kind g col (sc_kind (scan_cell g its scan0))) arg
                           (entry_flag (scan_cell g its scan0))).
Proof.
  intros Eits HN. unfold do_transitions. rewrite Eits.
  destruct its as [|i0 its0]; [contradiction|].
  set (s := scan_cell g (i0 :: its0) scan0).
  unfold entry_flag, entry_kind.
  destruct (sc_kind s) eqn:K; try (intros H; inversion H; eexists; reflexivity).
  destruct (find_kernel sts (sc_kernel s) 0 None) as [idx|].
  - destruct (Nat.ltb _ _); [discriminate|].
    intros H; inversion H; eexists; reflexivity.
  - destruct (Nat.ltb (state_cap lim) (S (length sts))); [discriminate|].
    destruct (Nat.ltb _ _); [discriminate|].
    intros H; inversion H; eexists; reflexivity.
Qed.

(* the items of a term column of a state of a well-formed grammar are a term bucket *)
Theorem bucket_in_term_bucket g all t :
  (forall i, In i all -> ri_n (get_ri g (it_r i)) = length (rhs_of g i)) ->
  (forall i j, In i all -> next_sym g i = Some (NT j) -> j < nterm_count g) ->
  in_term_bucket g t (bucket g all (nterm_count g + t)).
Proof.
  intros Hn Hnt i Hi. unfold bucket in Hi. apply filter_In in Hi as [Hi Hb].
  apply Nat.eqb_eq in Hb. unfold bucket_of in Hb.
  destruct (is_complete g i) eqn:Hc.
  - left. split; auto. destruct (next_sym g i); lia.
  - right. split; auto. destruct (next_sym g i) as [[j | j]|] eqn:Hs.
    + simpl in Hb. f_equal. f_equal. lia.
    + simpl in Hb. specialize (Hnt i j Hi Hs). lia.
    + exfalso. unfold next_sym in Hs. apply nth_error_None in Hs.
      unfold is_complete in Hc. apply Nat.leb_gt in Hc. rewrite (Hn i Hi) in Hc. lia.
Qed.

(* the entry of a cell visited to the end is marked exactly when the S/R flag is set *)
Lemma cell_state_conflict g t col arg red hs ker :
  cell_conflict (mkE (entry_kind g col (sc_kind (cell_state g t red hs ker))) arg
                     (sc_sr (cell_state g t red hs ker))) = sc_sr (cell_state g t red hs ker).
Proof.
  destruct red as [r|], hs; simpl; try reflexivity.
  - destruct (sr_choice_cases g r t) as [-> | ->]; simpl; [reflexivity|]. destruct (Nat.eqb _ _); reflexivity.
  - destruct (Nat.eqb _ _); reflexivity.
Qed.

(* end to end for one cell without completed root item: the entry is one the diagnostic marks as a conflict
   exactly when the cell has a conflict *)
Theorem C11_entry_conflict_iff g t its col arg :
  in_term_bucket g t its -> no_root_complete g its ->
  let s := scan_cell g its scan0 in
  (cell_conflict (mkE (entry_kind g col (sc_kind s)) arg (entry_flag s)) = true <->
   has_sr_conflict g its \/ 2 <= length (reduce_items g its)).
Proof.
  intros HB HR. cbv zeta.
  rewrite <- (C11_conflict_flag_iff_count g t its HB HR), (entry_flag_is_sr_flag g t its HB).
  destruct (scan_cell_characterisation g t its HB) as [H | pre i post H | pre i post H].
  - unfold cell_summary. rewrite cell_state_conflict. destruct (kind_cell_summary g t its) as [_ K].
    split; [auto | intros [S | K']; [exact S | contradiction]].
  - exfalso. eapply stops_success_has_root; eassumption.
  - split; [right | ]; reflexivity.
Qed.

(* D12 at the level of entries: a cell that stops at success is never marked, although it may
   have had an S/R conflict before, and may hide reductions after *)
Theorem success_entry_not_conflict g col arg s :
  sc_kind s = KSuccess -> cell_conflict (mkE (entry_kind g col (sc_kind s)) arg (entry_flag s)) = false.
Proof. intros K. rewrite K. reflexivity. Qed.

(* The conflict lines of the state diagnostic (Model/Diag.v).  [cell] here is the entry of term t in one row of the
   table, as state_lines reads it; Driver.cell is the bounds-checked access to the whole table. [line_of_cell] and
   [goto_lines] are state_lines cut into the part per term cell and the part per nonterminal ([state_lines_eq], by
   computation). *)
Definition cell (g : grammar) (row : list entry) (t : nat) : entry :=
  nth (nterm_count g + t) row entry_default.

(* the line(s) written for the cell of term t *)
Definition line_of_cell (g : grammar) (items : list item) (t : nat) (e : entry) : list diag_line :=
  match e_kind e with
  | KError => []
  | KSuccess => [DlSuccess t]
  | KReduce => if e_sr e then [DlSRReduce t (r_idx_of g (e_arg e))] else [DlReduce t (r_idx_of g (e_arg e))]
  | KShift | KShiftErr => if e_sr e then [DlSRShift t (reduction_rule g items t)] else [DlShift t (e_arg e)]
  | KRR => [DlRR t]
  end.

Definition goto_lines (g : grammar) (row : list entry) : list diag_line :=
  flat_map (fun nt => let e := nth nt row entry_default in
                      if is_shift_kind (e_kind e) then [DlGoto (Some nt) (e_arg e)] else [])
           (seq 0 (nterm_count g)).

Definition line_term (l : diag_line) : option nat :=
  match l with
  | DlGoto _ _ => None
  | DlSuccess t | DlSRReduce t _ | DlSRShift t _ | DlShift t _ | DlReduce t _ | DlRR t => Some t
  end.

Lemma state_lines_eq g items row :
  state_lines g items row =
  goto_lines g row ++ flat_map (fun t => line_of_cell g items t (cell g row t)) (seq 0 (term_count g)).
Proof. reflexivity. Qed.

Lemma cell_conflict_iff e :
  cell_conflict e = true <->
  (e_sr e = true /\ (e_kind e = KReduce \/ is_shift_kind (e_kind e) = true)) \/ e_kind e = KRR.
Proof.
  unfold cell_conflict. destruct (e_kind e); simpl; split; intros H; auto;
    try discriminate; try tauto;
    try (destruct H as [[_ [H | H]] | H]; discriminate);
    try (destruct H as [[H _] | H]; [exact H | discriminate]).
Qed.

Lemma line_of_cell_conflict g items t e l :
  In l (line_of_cell g items t e) -> is_conflict_line l = cell_conflict e /\ line_term l = Some t.
Proof.
  unfold line_of_cell, cell_conflict.
  destruct (e_kind e), (e_sr e); simpl; intros H; try contradiction;
    destruct H as [<- | []]; split; reflexivity.
Qed.

Lemma line_of_cell_length g items t e :
  length (filter is_conflict_line (line_of_cell g items t e)) = if cell_conflict e then 1 else 0.
Proof.
  unfold line_of_cell, cell_conflict. destruct (e_kind e), (e_sr e); reflexivity.
Qed.

Lemma conflict_cell_line g items t e :
  cell_conflict e = true -> exists l, line_of_cell g items t e = [l].
Proof.
  unfold line_of_cell, cell_conflict. destruct (e_kind e), (e_sr e); try discriminate; eauto.
Qed.

Lemma goto_not_conflict g row l : In l (goto_lines g row) -> is_conflict_line l = false.
Proof.
  unfold goto_lines. rewrite in_flat_map. intros (nt & _ & H).
  destruct (is_shift_kind _); [|contradiction]. destruct H as [<- | []]. reflexivity.
Qed.

(* a line of the diagnostic is a conflict line exactly when it is the line of a term cell whose entry is
   reduce or shift with the S/R flag, or R/R *)
Theorem state_lines_conflict_iff g items row l :
  In l (state_lines g items row) ->
  (is_conflict_line l = true <->
   exists t, t < term_count g /\ In l (line_of_cell g items t (cell g row t)) /\
             let e := cell g row t in
             (e_sr e = true /\ (e_kind e = KReduce \/ is_shift_kind (e_kind e) = true)) \/ e_kind e = KRR).
Proof.
  intros H. split.
  - intros Hl. rewrite state_lines_eq, in_app_iff, in_flat_map in H. destruct H as [H | (t & Ht & H)].
    + rewrite (goto_not_conflict g row l H) in Hl. discriminate.
    + exists t. apply in_seq in Ht. split; [lia|]. split; [assumption|].
      apply cell_conflict_iff. apply line_of_cell_conflict in H as [<- _]. exact Hl.
  - intros (t & _ & Hl & Hc). apply cell_conflict_iff in Hc.
    apply line_of_cell_conflict in Hl as [-> _]. exact Hc.
Qed.

(* conversely every such cell has its conflict line *)
Theorem conflict_cell_has_line g items row t :
  t < term_count g -> cell_conflict (cell g row t) = true ->
  exists l, In l (state_lines g items row) /\ is_conflict_line l = true /\ line_term l = Some t.
Proof.
  intros Ht Hc. destruct (conflict_cell_line g items t _ Hc) as [l El].
  assert (Hl : In l (line_of_cell g items t (cell g row t))) by (rewrite El; left; reflexivity).
  exists l. split.
  - rewrite state_lines_eq, in_app_iff, in_flat_map. right. exists t. split; [apply in_seq; lia | assumption].
  - destruct (line_of_cell_conflict _ _ _ _ _ Hl) as [E1 E2]. split; congruence.
Qed.

(* and the correspondence is one to one: as many conflict lines as conflict cells *)
Theorem conflict_line_count g items row :
  length (filter is_conflict_line (state_lines g items row)) =
  length (filter (fun t => cell_conflict (cell g row t)) (seq 0 (term_count g))).
Proof.
  rewrite state_lines_eq, filter_app, app_length.
  rewrite (filter_none _ _ (goto_not_conflict g row)). simpl.
  induction (seq 0 (term_count g)) as [|t ts IH]; simpl; auto.
  rewrite filter_app, app_length, IH, line_of_cell_length.
  destruct (cell_conflict (cell g row t)); reflexivity.
Qed.

(* S -> b | A ; A -> S   (terms: b, <eof>, <error>; nonterminals S, A, ##) *)
Definition rg12 : raw_grammar :=
  mkRG [83] [mkRT [98] 0%Z NoAssoc] [[83]; [65]]
       [mkRR [83] [RTerm [98]] None; mkRR [83] [RNterm [65]] None; mkRR [65] [RNterm [83]] None].
Definition g12 : grammar :=
  match analyze rg12 with Some g => g | None => mkG 0 0 0 0 [] [] [] [] [] [] [] [] end.

(* state 1 of the generated automaton is { ## -> S . , eof ; A -> S . , eof } : accept/reduce conflict on eof *)
Definition st12 : list item :=
  match gen g12 with inl (sts, _) => st_all (nth 1 sts (mkSt [] [])) | inr _ => [] end.
Definition row12 : list entry :=
  match gen g12 with inl (_, tb) => nth 1 tb [] | inr _ => [] end.
Definition cell12 : list item := bucket g12 st12 (nterm_count g12 + eof_idx g12).

(* D12: the cell has an R/R conflict in the sense of the specification (accept vs reduce A -> S), yet the
   scan says success with no mark, and the diagnostic of the state has no conflict line *)
Example D12_accept_reduce_hidden :
  cell12 = [mkItem 3 1 1; mkItem 2 1 1] /\
  in_term_bucket g12 (eof_idx g12) cell12 /\ NoDup cell12 /\ dots_in_range g12 cell12 /\
  has_rr_conflict g12 cell12 /\
  scan_cell g12 cell12 scan0 = with_kind KSuccess scan0 /\
  cell g12 row12 (eof_idx g12) = mkE KSuccess None false /\
  filter is_conflict_line (state_lines g12 st12 row12) = [].
Proof.
  assert (E : cell12 = [mkItem 3 1 1; mkItem 2 1 1]) by (vm_compute; reflexivity).
  split; [exact E|]. rewrite E. clear E.
  split. { intros i [<- | [<- | []]]; left; vm_compute; auto. }
  split. { repeat constructor; simpl; intuition discriminate. }
  split. { intros i [<- | [<- | []]]; vm_compute; lia. }
  split. { exists (mkItem 3 1 1), (mkItem 2 1 1). vm_compute. repeat split; auto. discriminate. }
  split; [vm_compute; reflexivity|]. split; vm_compute; reflexivity.
Qed.

(* the hypothesis "no completed root item" of C11_conflict_flag_iff cannot be dropped: on cell12 the right
   side holds and the left side does not *)
Example C11_conflict_flag_iff_needs_no_root :
  has_rr_conflict g12 cell12 /\
  ~ (sc_sr (scan_cell g12 cell12 scan0) = true \/ sc_kind (scan_cell g12 cell12 scan0) = KRR).
Proof.
  split; [apply D12_accept_reduce_hidden|].
  vm_compute. intros [H | H]; discriminate.
Qed.

(* an S/R conflict followed by the completed root item: flag set, kind success, no conflict line either.
   g is g12 with other right sides: rule 1 = T 1 makes (1,0,1) a shift item on term 1, the column in which (2,1,1)
   reduces and the root item (3,1,1) accepts. (A list of items, not a state of g12.) *)
Example D12_sr_then_success :
  let its := [mkItem 1 0 1; mkItem 2 1 1; mkItem 3 1 1] in
  let g := mkG 3 3 4 1 [[T 1]; [T 1]; [NT 0]; [NT 0]] (rule_infos g12) (slices g12)
               (term_prec g12) (term_assoc g12) (rule_prec g12) (rule_assoc g12) (rule_last_term g12) in
  in_term_bucket g 1 its /\ has_sr_conflict g its /\
  sc_kind (scan_cell g its scan0) = KSuccess /\ sc_sr (scan_cell g its scan0) = true /\
  cell_conflict (mkE (entry_kind g 4 (sc_kind (scan_cell g its scan0))) None
                     (entry_flag (scan_cell g its scan0))) = false.
Proof.
  intros its g. split.
  { intros i [<- | [<- | [<- | []]]]; vm_compute; auto. }
  split. { exists (mkItem 2 1 1), (mkItem 1 0 1). vm_compute. intuition. }
  vm_compute. auto.
Qed.

(* dots_in_range cannot be dropped from the statements that speak about rules instead of items:
   two different completed items of the same rule (impossible in a state) give R/R but no two rules *)
Example rr_conflict_needs_dots_in_range :
  let its := [mkItem 0 1 1; mkItem 0 2 1] in
  in_term_bucket g12 1 its /\ NoDup its /\ no_root_complete g12 its /\
  sc_kind (scan_cell g12 its scan0) = KRR /\ ~ has_rr_conflict g12 its.
Proof.
  intros its. split. { intros i [<- | [<- | []]]; left; vm_compute; auto. }
  split. { repeat constructor; simpl; intuition discriminate. }
  split. { intros i [<- | [<- | []]]; vm_compute; reflexivity. }
  split; [vm_compute; reflexivity|].
  intros (i & j & Hi & Hj & Hne). vm_compute in Hi, Hj.
  destruct Hi as [<- | [<- | []]], Hj as [<- | [<- | []]]; apply Hne; reflexivity.
Qed.

(* a worked instance of the precedence rule: E -> E + E | E * E | n with + < * both left associative.
   the stable sort keeps the order of rules(...): rule_info 0 is E + E (prec 1) and rule_info 1 is E * E (prec 2);
   terms + = 0, * = 1 *)
Definition g_arith : grammar :=
  match analyze (mkRG [69] [mkRT [43] 1%Z Ltor; mkRT [42] 2%Z Ltor; mkRT [110] 0%Z NoAssoc] [[69]]
                      [mkRR [69] [RNterm [69]; RTerm [43]; RNterm [69]] None;
                       mkRR [69] [RNterm [69]; RTerm [42]; RNterm [69]] None;
                       mkRR [69] [RTerm [110]] None])
  with Some g => g | None => mkG 0 0 0 0 [] [] [] [] [] [] [] [] end.

Example arith_choices :
  map ri_r (rule_infos g_arith) = [0; 1; 2; 3] /\
  sr_choice g_arith 0 0 = KReduce (* E+E . + : left assoc *) /\
  sr_choice g_arith 0 1 = KShift  (* E+E . * : * binds tighter *) /\
  sr_choice g_arith 1 0 = KReduce (* E*E . + *) /\
  sr_choice g_arith 1 1 = KReduce (* E*E . * : left assoc *).
Proof. vm_compute. repeat split. Qed.

Print Assumptions solve_conflict_is_documented_rule.
Print Assumptions scan_cell_characterisation.
Print Assumptions C05_cell.
Print Assumptions C05_cell_one_rule.
Print Assumptions C05_no_reduce.
Print Assumptions C05_no_shift.
Print Assumptions C05_sr_flag_iff.
Print Assumptions C11_success_iff.
Print Assumptions C11_rr_iff.
Print Assumptions C11_rr_iff_no_root.
Print Assumptions C11_rr_iff_conflict.
Print Assumptions success_hides_later_items.
Print Assumptions items_after_stop_ignored.
Print Assumptions C11_conflict_flag_iff_count.
Print Assumptions C11_conflict_flag_iff.
Print Assumptions C_kernel.
Print Assumptions C_kernel_no_stop.
Print Assumptions C_kernel_In.
Print Assumptions goto_cell.
Print Assumptions entry_flag_is_sr_flag.
Print Assumptions do_transitions_entry.
Print Assumptions bucket_in_term_bucket.
Print Assumptions C11_entry_conflict_iff.
Print Assumptions state_lines_conflict_iff.
Print Assumptions conflict_cell_has_line.
Print Assumptions conflict_line_count.
Print Assumptions D12_accept_reduce_hidden.
Print Assumptions rr_conflict_needs_dots_in_range.
