(* C17 (grammar part): a rule that mentions a symbol not declared in terms()/nterms() makes the rule analysis fail -
   the mirror of utils::find_str throwing "string not found" during construction. *)
Require Import Ctpg.Base.Prelude Ctpg.Model.Grammar Ctpg.Proofs.GenLists Ctpg.Proofs.UtilsCorrect.

(* the left side of some rule is not a declared nonterminal (nor the fake root) *)
Theorem undeclared_left_side_rejected rg r :
  In r (rg_rules rg) -> ~ In (rr_l r) (rg_nterms rg ++ [id_fake_root]) -> analyze rg = None.
Proof.
  intros Hin Hn. unfold analyze.
  rewrite (map_opt_none_in (fun r0 => find_str (rg_nterms rg ++ [id_fake_root]) (rr_l r0)) _ r); [reflexivity| |].
  - apply in_or_app. left. exact Hin.
  - apply find_str_none. exact Hn.
Qed.

(* some right-side symbol of some rule is not declared *)
Theorem find_str_none_analyze_none rg r s :
  In r (rg_rules rg) -> In s (rr_r r) ->
  match s with
  | RTerm id => ~ In id (map rt_id (rg_terms rg) ++ [id_eof; id_error])
  | RNterm n => ~ In n (rg_nterms rg ++ [id_fake_root])
  end ->
  analyze rg = None.
Proof.
  intros Hin Hs Hn. unfold analyze.
  destruct (map_opt (fun r0 => find_str (rg_nterms rg ++ [id_fake_root]) (rr_l r0)) (rg_rules rg ++ [mkRR id_fake_root [RNterm (rg_root rg)] None])); [|reflexivity].
  rewrite (map_opt_none_in _ _ r); [reflexivity| |].
  - apply in_or_app. left. exact Hin.
  - apply (map_opt_none_in _ _ s Hs). destruct s as [id|n]; cbn.
    + rewrite (proj2 (find_str_none _ _) Hn). reflexivity.
    + rewrite (proj2 (find_str_none _ _) Hn). reflexivity.
Qed.
