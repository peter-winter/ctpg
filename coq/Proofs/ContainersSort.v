(* stdex::sort (a bubble sort that swaps only on strict <) terminates within size()+1 evaluations of the while
   condition and is the stable insertion sort `sort_ris` used by the grammar model. Everything is proved for every
   list, generically in a key function.
   The argument: a pass swaps neighbours of different keys only, so it keeps every key class in its order (stable_perm)
   and, insertions of different keys commuting, does not change what insertion sort makes of the list (bubble_pass_isort);
   the loop ends on a sorted list, which insertion sort leaves alone; after a pass the largest element is last and later
   passes leave it there, so size() passes suffice. *)
From Ctpg Require Import Base.Prelude Model.Containers Model.Grammar.
From Coq Require Import NArith Lia List Sorting.Permutation Sorting.Sorted.
Import ListNotations.

Lemma bubble_pass_fst : forall A (p : A -> A -> bool) x y t,
  fst (bubble_pass p x (y :: t)) = if p y x then y :: fst (bubble_pass p x t) else x :: fst (bubble_pass p y t).
Proof.
  intros A p x y t. cbn [bubble_pass].
  destruct (p y x); [destruct (bubble_pass p x t) | destruct (bubble_pass p y t)]; reflexivity.
Qed.

Lemma bubble_pass_snd : forall A (p : A -> A -> bool) x y t,
  snd (bubble_pass p x (y :: t)) = if p y x then true else snd (bubble_pass p y t).
Proof.
  intros A p x y t. cbn [bubble_pass].
  destruct (p y x); [destruct (bubble_pass p x t) | destruct (bubble_pass p y t)]; reflexivity.
Qed.

Lemma bubble_loop_S : forall A (p : A -> A -> bool) f x t,
  bubble_loop p (S f) (x :: t) =
  if snd (bubble_pass p x t) then bubble_loop p f (fst (bubble_pass p x t)) else Some (fst (bubble_pass p x t)).
Proof. intros A p f x t. cbn [bubble_loop]. destruct (bubble_pass p x t). reflexivity. Qed.

Section Generic.
Variable A : Type.
Variable key : A -> nat.

(* kp: the strict comparison stdex::sort swaps on; kle: the order its result is sorted by; kf k: the class of key k.
   In stable_perm l l' the second list is the later one. *)
Definition kp (a b : A) : bool := Nat.ltb (key a) (key b).
Definition kle (a b : A) : Prop := key a <= key b.
Definition kf (k : nat) (a : A) : bool := Nat.eqb (key a) k.
(* stability: every key class keeps its elements and their relative order *)
Definition stable_perm (l l' : list A) : Prop := forall k, filter (kf k) l' = filter (kf k) l.

Lemma kp_spec : forall a b, BoolSpec (key a < key b) (key b <= key a) (kp a b).
Proof. intros a b. apply Nat.ltb_spec. Qed.

Lemma stable_perm_refl : forall l, stable_perm l l.
Proof. intros l k. reflexivity. Qed.

Lemma stable_perm_trans : forall l1 l2 l3, stable_perm l1 l2 -> stable_perm l2 l3 -> stable_perm l1 l3.
Proof. intros l1 l2 l3 H12 H23 k. rewrite H23. apply H12. Qed.

Lemma stable_perm_cons : forall a l l', stable_perm l l' -> stable_perm (a :: l) (a :: l').
Proof. intros a l l' H k. cbn [filter]. rewrite (H k). reflexivity. Qed.

(* only elements of different keys may change places *)
Lemma stable_perm_swap : forall x y l, key x <> key y -> stable_perm (x :: y :: l) (y :: x :: l).
Proof.
  intros x y l Hne k. cbn [filter]. unfold kf.
  destruct (Nat.eqb_spec (key x) k); destruct (Nat.eqb_spec (key y) k); try reflexivity. lia.
Qed.

Lemma bubble_pass_perm : forall t x, Permutation (fst (bubble_pass kp x t)) (x :: t).
Proof.
  induction t as [| y t IH]; intros x.
  - apply Permutation_refl.
  - rewrite bubble_pass_fst. destruct (kp y x).
    + rewrite (IH x). apply perm_swap.
    + rewrite (IH y). apply Permutation_refl.
Qed.

Lemma bubble_pass_stable : forall t x, stable_perm (x :: t) (fst (bubble_pass kp x t)).
Proof.
  induction t as [| y t IH]; intros x.
  - apply stable_perm_refl.
  - rewrite bubble_pass_fst. destruct (kp_spec y x) as [H | H].
    + eapply stable_perm_trans; [apply stable_perm_swap; lia | apply stable_perm_cons, IH].
    + apply stable_perm_cons, IH.
Qed.

(* swap = false iff nothing moved and the container is already sorted *)
Lemma bubble_pass_false : forall t x, snd (bubble_pass kp x t) = false ->
  fst (bubble_pass kp x t) = x :: t /\ Sorted kle (x :: t).
Proof.
  induction t as [| y t IH]; intros x Hs.
  - split; [reflexivity | repeat constructor].
  - rewrite bubble_pass_snd in Hs. rewrite bubble_pass_fst.
    destruct (kp_spec y x) as [H | H]; [discriminate Hs |].
    destruct (IH y Hs) as [E Hsorted]. rewrite E. split; [reflexivity |].
    constructor; [exact Hsorted | constructor; exact H].
Qed.

Lemma bubble_pass_sorted_false : forall t x, Sorted kle (x :: t) -> snd (bubble_pass kp x t) = false.
Proof.
  induction t as [| y t IH]; intros x Hsorted.
  - reflexivity.
  - rewrite bubble_pass_snd. apply Sorted_inv in Hsorted. destruct Hsorted as [Htl Hhd].
    apply HdRel_inv in Hhd. unfold kle in Hhd.
    destruct (kp_spec y x); [lia | apply IH, Htl].
Qed.

(* the largest element ends up last *)
Lemma bubble_pass_last : forall t x, exists r' m,
  fst (bubble_pass kp x t) = r' ++ [m] /\ length r' = length t /\ key x <= key m /\
  (forall a, In a r' -> key a <= key m).
Proof.
  induction t as [| y t IH]; intros x.
  - exists [], x. split; [reflexivity |]. split; [reflexivity |]. split; [lia |]. intros a [].
  - rewrite bubble_pass_fst. destruct (kp_spec y x) as [H | H].
    + destruct (IH x) as (r' & m & -> & Hlen & Hxm & Hdom). exists (y :: r'), m. cbn [length].
      split; [reflexivity |]. split; [lia |]. split; [exact Hxm |].
      intros a [<- | Ha]; [lia | apply Hdom, Ha].
    + destruct (IH y) as (r' & m & -> & Hlen & Hym & Hdom). exists (x :: r'), m. cbn [length].
      split; [reflexivity |]. split; [lia |]. split; [lia |].
      intros a [<- | Ha]; [lia | apply Hdom, Ha].
Qed.

(* a final element that dominates the rest is never touched by a pass *)
Lemma bubble_pass_app_max : forall t x m, (forall a, In a (x :: t) -> key a <= key m) ->
  bubble_pass kp x (t ++ [m]) = (fst (bubble_pass kp x t) ++ [m], snd (bubble_pass kp x t)).
Proof.
  induction t as [| y t IH]; intros x m Hdom; cbn [app bubble_pass].
  - destruct (kp_spec m x); [| reflexivity].
    specialize (Hdom x (or_introl eq_refl)). lia.
  - rewrite !IH by (intros a Ha; apply Hdom; cbn [In] in *; tauto).
    destruct (kp y x); [destruct (bubble_pass kp x t) | destruct (bubble_pass kp y t)]; reflexivity.
Qed.

Lemma bubble_loop_correct : forall fuel l r, bubble_loop kp fuel l = Some r ->
  Sorted kle r /\ Permutation r l /\ stable_perm l r.
Proof.
  induction fuel as [| f IH]; intros l r Hloop; [discriminate Hloop |].
  destruct l as [| x t].
  - injection Hloop as <-. split; [constructor | split; [constructor | apply stable_perm_refl]].
  - rewrite bubble_loop_S in Hloop. destruct (snd (bubble_pass kp x t)) eqn:Hs.
    + destruct (IH _ _ Hloop) as (Hsorted & Hperm & Hstab). split; [exact Hsorted |]. split.
      * rewrite Hperm. apply bubble_pass_perm.
      * eapply stable_perm_trans; [apply bubble_pass_stable | exact Hstab].
    + injection Hloop as <-. destruct (bubble_pass_false t x Hs) as [-> Hsorted].
      split; [exact Hsorted | split; [apply Permutation_refl | apply stable_perm_refl]].
Qed.

Lemma bubble_loop_app_max : forall fuel l m, l <> [] -> (forall a, In a l -> key a <= key m) ->
  bubble_loop kp fuel (l ++ [m]) = option_map (fun z => z ++ [m]) (bubble_loop kp fuel l).
Proof.
  induction fuel as [| f IH]; intros l m Hne Hdom; [reflexivity |].
  destruct l as [| x t]; [congruence |]. cbn [app].
  rewrite !bubble_loop_S, (bubble_pass_app_max t x m Hdom). cbn [fst snd].
  destruct (snd (bubble_pass kp x t)); [| reflexivity].
  pose proof (bubble_pass_perm t x) as Hperm. apply IH.
  - intros E. rewrite E in Hperm. apply Permutation_nil in Hperm. discriminate Hperm.
  - intros a Ha. apply Hdom. apply (Permutation_in _ Hperm Ha).
Qed.

Lemma bubble_loop_terminates : forall n l fuel, length l = n -> n <= fuel -> 1 <= fuel ->
  exists r, bubble_loop kp fuel l = Some r.
Proof.
  induction n as [| n IH]; intros l fuel Hlen Hfuel Hpos;
    (destruct fuel as [| f]; [lia |]); destruct l as [| x t]; try discriminate Hlen.
  - exists []. reflexivity.
  - rewrite bubble_loop_S. destruct (snd (bubble_pass kp x t)) eqn:Hs; [| eexists; reflexivity].
    destruct (bubble_pass_last t x) as (r' & m & E & Hlen' & _ & Hdom). rewrite E.
    destruct r' as [| a r'].
    + (* a single element: the pass cannot have swapped *)
      destruct t; [discriminate Hs | discriminate Hlen'].
    + rewrite bubble_loop_app_max by (congruence || exact Hdom). cbn [length] in Hlen, Hlen'.
      destruct (IH (a :: r') f) as [r Hr]; [cbn [length]; lia | lia | lia |].
      rewrite Hr. eexists. reflexivity.
Qed.

Lemma filter_kf_In : forall k l a, In a (filter (kf k) l) -> In a l /\ key a = k.
Proof.
  intros k l a Ha. apply filter_In in Ha. destruct Ha as [Hin Hk]. split; [exact Hin |].
  unfold kf in Hk. apply Nat.eqb_eq in Hk. exact Hk.
Qed.

Fixpoint kinsert (x : A) (l : list A) : list A :=
  match l with
  | [] => [x]
  | y :: t => if Nat.leb (key x) (key y) then x :: y :: t else y :: kinsert x t
  end.
Definition isort (l : list A) : list A := fold_right kinsert [] l.

Lemma kinsert_le : forall x y l, key x <= key y -> kinsert x (y :: l) = x :: y :: l.
Proof. intros x y l H. cbn [kinsert]. rewrite (proj2 (Nat.leb_le _ _) H). reflexivity. Qed.

Lemma kinsert_gt : forall x y l, key y < key x -> kinsert x (y :: l) = y :: kinsert x l.
Proof. intros x y l H. cbn [kinsert]. rewrite (proj2 (Nat.leb_gt _ _) H). reflexivity. Qed.

(* insertions of elements of different keys commute *)
Lemma kinsert_comm : forall x y l, key x < key y -> kinsert x (kinsert y l) = kinsert y (kinsert x l).
Proof.
  intros x y l Hlt. induction l as [| z l IH].
  - change (kinsert x [y] = kinsert y [x]). rewrite kinsert_le, kinsert_gt by lia. reflexivity.
  - destruct (Nat.le_gt_cases (key y) (key z)) as [Hy | Hy].
    + rewrite (kinsert_le y z), (kinsert_le x y), (kinsert_le x z), (kinsert_gt y x), (kinsert_le y z) by lia. reflexivity.
    + rewrite (kinsert_gt y z) by lia. destruct (Nat.le_gt_cases (key x) (key z)) as [Hx | Hx].
      * rewrite !(kinsert_le x z), (kinsert_gt y x), (kinsert_gt y z) by lia. reflexivity.
      * rewrite !(kinsert_gt x z), (kinsert_gt y z), IH by lia. reflexivity.
Qed.

(* so a pass, which swaps neighbours of different keys only, does not change what insertion makes of the list *)
Lemma bubble_pass_isort : forall t x, isort (fst (bubble_pass kp x t)) = isort (x :: t).
Proof.
  induction t as [| y t IH]; intros x; [reflexivity |].
  rewrite bubble_pass_fst. destruct (kp_spec y x) as [H | H]; cbn [isort fold_right].
  - fold (isort (fst (bubble_pass kp x t))). rewrite IH. apply kinsert_comm, H.
  - fold (isort (fst (bubble_pass kp y t))). rewrite IH. reflexivity.
Qed.

Lemma isort_sorted_id : forall l, Sorted kle l -> isort l = l.
Proof.
  intros l Hs. induction Hs as [| x l _ IH Hhd]; [reflexivity |]. cbn [isort fold_right]. fold (isort l). rewrite IH.
  destruct Hhd as [| y l Hxy]; [reflexivity | apply kinsert_le, Hxy].
Qed.

Theorem bubble_loop_is_isort : forall fuel l r, bubble_loop kp fuel l = Some r -> r = isort l.
Proof.
  induction fuel as [| f IH]; intros l r Hloop; [discriminate Hloop |].
  destruct l as [| x t]; [injection Hloop as <-; reflexivity |].
  rewrite bubble_loop_S in Hloop. rewrite <- bubble_pass_isort. destruct (snd (bubble_pass kp x t)) eqn:Hs.
  - apply IH, Hloop.
  - injection Hloop as <-. destruct (bubble_pass_false t x Hs) as [-> Hsorted]. symmetry. apply isort_sorted_id, Hsorted.
Qed.

(* on a non-empty container the fuel of stdex_sort is enough *)
Theorem stdex_sort_total : forall l, l <> [] ->
  exists r, bubble_loop kp (S (length l)) l = Some r /\ stdex_sort kp l = Ok r.
Proof.
  intros l Hne. destruct (bubble_loop_terminates (length l) l (S (length l)) eq_refl) as [r Hr]; [lia | lia |].
  exists r. split; [exact Hr |]. unfold stdex_sort. rewrite Hr. destruct l; [congruence | reflexivity].
Qed.

Theorem stdex_sort_is_isort : forall l, l <> [] -> stdex_sort kp l = Ok (isort l).
Proof.
  intros l Hne. destruct (stdex_sort_total l Hne) as (r & Hloop & ->). f_equal.
  eapply bubble_loop_is_isort. exact Hloop.
Qed.

Theorem stdex_sort_sorted_perm : forall l, l <> [] ->
  exists r, stdex_sort kp l = Ok r /\ Sorted kle r /\ Permutation r l /\ stable_perm l r.
Proof.
  intros l Hne. destruct (stdex_sort_total l Hne) as (r & Hloop & Hr).
  exists r. split; [exact Hr | eapply bubble_loop_correct; exact Hloop].
Qed.

Theorem bubble_loop_sorted_one_pass : forall l, Sorted kle l -> bubble_loop kp 1 l = Some l.
Proof.
  intros l Hs. destruct l as [| x t]; [reflexivity |].
  pose proof (bubble_pass_sorted_false t x Hs) as Hsf.
  rewrite bubble_loop_S, Hsf. destruct (bubble_pass_false t x Hsf) as [-> _]. reflexivity.
Qed.

End Generic.

Theorem stdex_sort_empty_undefined : forall A (p : A -> A -> bool), stdex_sort p [] = Undef.
Proof. intros A p. reflexivity. Qed.

Lemma isort_is_sort_ris : forall l, isort rule_info ri_l l = sort_ris l.
Proof.
  assert (Hins : forall x l, kinsert rule_info ri_l x l = insert_ri x l).
  { intros x l. induction l as [| y t IH]; simpl; [reflexivity |]. rewrite IH. reflexivity. }
  induction l as [| x t IH]; simpl; [reflexivity |].
  unfold sort_ris in IH. rewrite IH. apply Hins.
Qed.

Theorem stdex_sort_is_sort_ris : forall l, l <> [] ->
  stdex_sort (fun a b => Nat.ltb (ri_l a) (ri_l b)) l = Ok (sort_ris l).
Proof.
  intros l Hne. rewrite <- isort_is_sort_ris.
  exact (stdex_sort_is_isort rule_info ri_l l Hne).
Qed.

(* partial correctness for every fuel, independent of the termination argument *)
Theorem stdex_sort_partial_correct : forall fuel l r,
  bubble_loop (fun a b => Nat.ltb (ri_l a) (ri_l b)) fuel l = Some r -> r = sort_ris l.
Proof.
  intros fuel l r Hloop. rewrite <- isort_is_sort_ris.
  exact (bubble_loop_is_isort rule_info ri_l fuel l r Hloop).
Qed.

(* the fuel S (length l) is tight up to one: a reverse-sorted container of n elements needs n evaluations of the body *)
Example stdex_sort_worst_case :
  let l := map (fun k => mkRI k 0 0) [5; 4; 3; 2; 1; 0] in
  bubble_loop (fun a b => Nat.ltb (ri_l a) (ri_l b)) 5 l = None /\
  bubble_loop (fun a b => Nat.ltb (ri_l a) (ri_l b)) 6 l = Some (sort_ris l).
Proof. vm_compute. split; reflexivity. Qed.

Print Assumptions stdex_sort_is_sort_ris.
Print Assumptions stdex_sort_sorted_perm.
Print Assumptions stdex_sort_partial_correct.
