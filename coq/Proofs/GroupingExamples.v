(* Sanity of the validator for resolved tables and non-vacuity of the grouping theorem, by computation:
   expression grammars  E -> E + E | E * E | n  with
     (a) * above +, both left associative        (b) equal precedence, right associative
     (c) no declarations                         (d) an explicit precedence on the rule E -> E + E
   and (e) a grammar with two nonterminals (so that rule_info indices differ from r_idx), parentheses, a right
   associative ^ and a unary minus with an explicit precedence.
   For each: the generated table has conflicts ([validate] = false) but passes [validate_resolved]; hence the
   grouping theorem applies to ALL inputs; sample runs with their trees; a hand-flipped cell is rejected; and the
   grammar is ambiguous: another derivation tree of the same input exists and is NOT well grouped. *)
Require Import Ctpg.Base.Prelude Ctpg.Proofs.ListFacts Ctpg.Model.Grammar Ctpg.Model.LRGen Ctpg.Model.Driver
               Ctpg.Spec.Cfg Ctpg.Spec.LRSpec Ctpg.Spec.Conflict Ctpg.Spec.Grouping Ctpg.Valid.LRValid
               Ctpg.Valid.LRResolved Ctpg.Proofs.LRReflect Ctpg.Proofs.LRValidFacts Ctpg.Proofs.LRSound Ctpg.Proofs.GroupingFacts
               Ctpg.Proofs.GroupingSpec Ctpg.Proofs.Grouping.

Fixpoint valid_treeb (g : grammar) (X : symbol) (t : tree) {struct t} : bool :=
  match t, X with
  | Leaf a, T b => Nat.eqb a b
  | Node r ch, NT l =>
      existsb (fun i => Nat.eqb (ri_r (get_ri g i)) r && Nat.eqb (ri_l (get_ri g i)) l)
              (seq 0 (length (rule_infos g))) &&
      match nth_error (right_sides g) r with
      | Some rhs =>
          (fix go (rhs : list symbol) (ch : list tree) {struct ch} : bool :=
             match rhs, ch with
             | [], [] => true
             | x :: rhs', c :: ch' => valid_treeb g x c && go rhs' ch'
             | _, _ => false
             end) rhs ch
      | None => false
      end
  | _, _ => false
  end.

Lemma valid_treeb_sound g t : forall X, valid_treeb g X t = true -> valid_tree g X t.
Proof.
  induction t as [a|r ch IH] using tree_ind'; intros X H.
  - destruct X as [b|l]; cbn in H; [|discriminate]. apply Nat.eqb_eq in H. subst. constructor.
  - destruct X as [b|l]; [discriminate|]. cbn [valid_treeb] in H. apply andb_true_iff in H. destruct H as [Hex Hch].
    apply existsb_exists in Hex. destruct Hex as (i & Hi & Hp). apply in_seq in Hi.
    apply andb_true_iff in Hp. destruct Hp as [Hp1 Hp2]. apply Nat.eqb_eq in Hp1, Hp2.
    destruct (nth_error (right_sides g) r) as [rhs|] eqn:Er; [|discriminate].
    apply (VNode g r l rhs ch).
    + exists i, (get_ri g i). split; [apply nth_error_nth'; lia|]. auto.
    + clear Er. revert rhs Hch. induction IH as [|c ch Hc _ IHch]; intros [|x rhs] Hch; try discriminate.
      * constructor.
      * apply andb_true_iff in Hch. destruct Hch as [H1 H2]. constructor; [apply Hc; assumption|apply IHch; assumption].
Qed.

Definition derivesb (g : grammar) (t : tree) (w : list nat) : bool :=
  match root_symbol g with
  | Some s => valid_treeb g s t && list_eqb Nat.eqb (yield t) w
  | None => false
  end.

Lemma derivesb_sound g t w : derivesb g t w = true -> derives_tree g t w.
Proof.
  unfold derivesb, derives_tree. destruct (root_symbol g) as [s|]; [|discriminate]. intros H.
  apply andb_true_iff in H. destruct H as [H1 H2]. exists s. split; [reflexivity|].
  split; [apply valid_treeb_sound; assumption|apply (list_eqb_spec nat Nat.eqb Nat.eqb_eq); assumption].
Qed.

Definition dummy_g := mkG 0 0 0 0 [] [] [] [] [] [] [] [].

(* E = "E"; terms + = 0, * = 1, n = 2, <eof> = 3, <error> = 4; rules 0: E+E, 1: E*E, 2: n, 3: ## -> E *)
Definition mk (pp : Z) (pa : assoc) (mp : Z) (ma : assoc) (rp : option Z) : grammar :=
  match analyze (mkRG [69] [mkRT [43] pp pa; mkRT [42] mp ma; mkRT [110] 0%Z NoAssoc] [[69]]
                      [mkRR [69] [RNterm [69]; RTerm [43]; RNterm [69]] rp;
                       mkRR [69] [RNterm [69]; RTerm [42]; RNterm [69]] None;
                       mkRR [69] [RTerm [110]] None])
  with Some g => g | None => dummy_g end.

Definition ga := mk 1 Ltor 2 Ltor None.            (* * above +, both left associative *)
Definition gb := mk 1 Rtol 1 Rtol None.            (* equal precedence, right associative *)
Definition gc := mk 0 NoAssoc 0 NoAssoc None.      (* no declarations *)
Definition gd := mk 1 Ltor 2 Ltor (Some 3%Z).      (* E -> E + E [3]: the RULE binds tighter than * *)

(* (e): nonterminals S = 0, E = 1; terms + 0, * 1, ^ 2, n 3, ( 4, ) 5, - 6, <eof> 7, <error> 8.
   rules(...) order:  0: E -> E + E   1: S -> E   2: E -> E * E   3: E -> n   4: E -> ( S )   5: E -> E ^ E
                      6: E -> - E [4]   7: ## -> S
   rule_infos (sorted by left side): [S->E (r 1); E+E (r 0); E*E (r 2); n (r 3); (S) (r 4); E^E (r 5); -E (r 6); root] *)
Definition ge : grammar :=
  match analyze (mkRG [83] [mkRT [43] 1%Z Ltor; mkRT [42] 2%Z Ltor; mkRT [94] 3%Z Rtol; mkRT [110] 0%Z NoAssoc;
                            mkRT [40] 0%Z NoAssoc; mkRT [41] 0%Z NoAssoc; mkRT [45] 1%Z Ltor] [[83]; [69]]
                      [mkRR [69] [RNterm [69]; RTerm [43]; RNterm [69]] None;
                       mkRR [83] [RNterm [69]] None;
                       mkRR [69] [RNterm [69]; RTerm [42]; RNterm [69]] None;
                       mkRR [69] [RTerm [110]] None;
                       mkRR [69] [RTerm [40]; RNterm [83]; RTerm [41]] None;
                       mkRR [69] [RNterm [69]; RTerm [94]; RNterm [69]] None;
                       mkRR [69] [RTerm [45]; RNterm [69]] (Some 4%Z)])
  with Some g => g | None => dummy_g end.

Example ge_indices_differ : map ri_r (rule_infos ge) = [1; 0; 2; 3; 4; 5; 6; 7].
Proof. vm_compute. reflexivity. Qed.

Definition sts_of (g : grammar) : list items := match gen g with inl (sts, _) => map st_all sts | inr _ => [] end.
Definition tbl_of (g : grammar) : table := match gen g with inl (_, tb) => tb | inr _ => [] end.

(* The tables of each grammar are evaluated once and named; an example that mentions [sts_of g] or [tbl_of g]
   rewrites with the named tables before it evaluates, so that no example evaluates [gen] again. *)
Lemma tables_of g ts :
  match gen g with inl (sts, tb) => (map st_all sts, tb) | inr _ => ([], []) end = ts ->
  sts_of g = fst ts /\ tbl_of g = snd ts.
Proof. unfold sts_of, tbl_of. intros <-. destruct (gen g) as [[sts tb]|]; split; reflexivity. Qed.

Definition ga_tables := Eval vm_compute in (sts_of ga, tbl_of ga).
Definition gb_tables := Eval vm_compute in (sts_of gb, tbl_of gb).
Definition gc_tables := Eval vm_compute in (sts_of gc, tbl_of gc).
Definition gd_tables := Eval vm_compute in (sts_of gd, tbl_of gd).
Definition ge_tables := Eval vm_compute in (sts_of ge, tbl_of ge).

Lemma ga_gen : sts_of ga = fst ga_tables /\ tbl_of ga = snd ga_tables. Proof. apply tables_of. vm_compute. reflexivity. Qed.
Lemma gb_gen : sts_of gb = fst gb_tables /\ tbl_of gb = snd gb_tables. Proof. apply tables_of. vm_compute. reflexivity. Qed.
Lemma gc_gen : sts_of gc = fst gc_tables /\ tbl_of gc = snd gc_tables. Proof. apply tables_of. vm_compute. reflexivity. Qed.
Lemma gd_gen : sts_of gd = fst gd_tables /\ tbl_of gd = snd gd_tables. Proof. apply tables_of. vm_compute. reflexivity. Qed.
Lemma ge_gen : sts_of ge = fst ge_tables /\ tbl_of ge = snd ge_tables. Proof. apply tables_of. vm_compute. reflexivity. Qed.

Definition report (g : grammar) :=
  (length (sts_of g), validate_sound g (sts_of g) (tbl_of g), validate g (sts_of g) (tbl_of g),
   validate_resolved g (sts_of g) (tbl_of g), no_error_symbol g (tbl_of g)).

(* put the named tables of a grammar (H is one of the lemmas above) into the goal, then evaluate *)
Ltac with_tables H := rewrite ?(proj1 H), ?(proj2 H); vm_compute.

(* what is evaluated on each generated table: n states, the resolved validator passes, the error column is empty; the
   full LR(1) validator fails (the proofs name the state, 5 or 14, one of whose items lacks its shift or its reduction
   in the table) *)
Record checked (g : grammar) (n : nat) : Prop := {
  ck_states : length (sts_of g) = n;
  ck_conflicts : validate g (sts_of g) (tbl_of g) = false;
  ck_resolved : validate_resolved g (sts_of g) (tbl_of g) = true;
  ck_noerr : no_error_symbol g (tbl_of g) = true
}.

Lemma ga_checked : checked ga 7.
Proof. constructor; [|apply (validate_false_at _ _ _ 5)|..]; with_tables ga_gen; reflexivity. Qed.
Lemma gb_checked : checked gb 7.
Proof. constructor; [|apply (validate_false_at _ _ _ 5)|..]; with_tables gb_gen; reflexivity. Qed.
Lemma gc_checked : checked gc 7.
Proof. constructor; [|apply (validate_false_at _ _ _ 5)|..]; with_tables gc_gen; reflexivity. Qed.
Lemma gd_checked : checked gd 7.
Proof. constructor; [|apply (validate_false_at _ _ _ 5)|..]; with_tables gd_gen; reflexivity. Qed.
Lemma ge_checked : checked ge 28.
Proof. constructor; [|apply (validate_false_at _ _ _ 14)|..]; with_tables ge_gen; reflexivity. Qed.

Example ga_resolved : validate_resolved ga (sts_of ga) (tbl_of ga) = true. Proof. exact (ck_resolved _ _ ga_checked). Qed.
Example gb_resolved : validate_resolved gb (sts_of gb) (tbl_of gb) = true. Proof. exact (ck_resolved _ _ gb_checked). Qed.
Example gc_resolved : validate_resolved gc (sts_of gc) (tbl_of gc) = true. Proof. exact (ck_resolved _ _ gc_checked). Qed.
Example gd_resolved : validate_resolved gd (sts_of gd) (tbl_of gd) = true. Proof. exact (ck_resolved _ _ gd_checked). Qed.
Example ge_resolved : validate_resolved ge (sts_of ge) (tbl_of ge) = true. Proof. exact (ck_resolved _ _ ge_checked). Qed.
Example ga_noerr : no_error_symbol ga (tbl_of ga) = true. Proof. exact (ck_noerr _ _ ga_checked). Qed.
Example gb_noerr : no_error_symbol gb (tbl_of gb) = true. Proof. exact (ck_noerr _ _ gb_checked). Qed.
Example gc_noerr : no_error_symbol gc (tbl_of gc) = true. Proof. exact (ck_noerr _ _ gc_checked). Qed.
Example gd_noerr : no_error_symbol gd (tbl_of gd) = true. Proof. exact (ck_noerr _ _ gd_checked). Qed.
Example ge_noerr : no_error_symbol ge (tbl_of ge) = true. Proof. exact (ck_noerr _ _ ge_checked). Qed.

(* the component of [report] that [checked] lacks: the sound validator is implied by the resolved one *)
Lemma report_of g n : checked g n -> report g = (n, true, false, true, true).
Proof.
  intros [Hn Hv Hr He]. unfold report. rewrite Hn, Hv, (validate_resolved_sound _ _ _ Hr), Hr, He. reflexivity.
Qed.

(* states, sound, full LR(1) (fails: conflicts), resolved, error column empty *)
Example reports :
  map report [ga; gb; gc; gd] = [(7, true, false, true, true); (7, true, false, true, true);
                                 (7, true, false, true, true); (7, true, false, true, true)] /\
  report ge = (28, true, false, true, true).
Proof.
  cbn [map]. rewrite (report_of _ _ ga_checked), (report_of _ _ gb_checked), (report_of _ _ gc_checked),
    (report_of _ _ gd_checked), (report_of _ _ ge_checked). split; reflexivity.
Qed.

(* the documented choices in these grammars (rule_info index, term) *)
Example choices :
  (* (a) *) (sr_choice ga 0 0, sr_choice ga 0 1, sr_choice ga 1 0, sr_choice ga 1 1) = (KReduce, KShift, KReduce, KReduce) /\
  (* (b) *) (sr_choice gb 0 0, sr_choice gb 0 1, sr_choice gb 1 0, sr_choice gb 1 1) = (KShift, KShift, KShift, KShift) /\
  (* (c) *) (sr_choice gc 0 0, sr_choice gc 0 1, sr_choice gc 1 0, sr_choice gc 1 1) = (KShift, KShift, KShift, KShift) /\
  (* (d) *) (sr_choice gd 0 0, sr_choice gd 0 1, sr_choice gd 1 0, sr_choice gd 1 1) = (KReduce, KReduce, KReduce, KReduce).
Proof. vm_compute. repeat split. Qed.

Theorem ga_groups : forall w tr, tokens_ok ga w -> accepts ga (tbl_of ga) w tr -> derives_tree ga tr w /\ well_grouped ga tr.
Proof. intros w tr. apply (grouping_derivation ga (sts_of ga)); [exact ga_resolved|exact ga_noerr]. Qed.
Theorem gb_groups : forall w tr, tokens_ok gb w -> accepts gb (tbl_of gb) w tr -> derives_tree gb tr w /\ well_grouped gb tr.
Proof. intros w tr. apply (grouping_derivation gb (sts_of gb)); [exact gb_resolved|exact gb_noerr]. Qed.
Theorem gc_groups : forall w tr, tokens_ok gc w -> accepts gc (tbl_of gc) w tr -> derives_tree gc tr w /\ well_grouped gc tr.
Proof. intros w tr. apply (grouping_derivation gc (sts_of gc)); [exact gc_resolved|exact gc_noerr]. Qed.
Theorem gd_groups : forall w tr, tokens_ok gd w -> accepts gd (tbl_of gd) w tr -> derives_tree gd tr w /\ well_grouped gd tr.
Proof. intros w tr. apply (grouping_derivation gd (sts_of gd)); [exact gd_resolved|exact gd_noerr]. Qed.
Theorem ge_groups : forall w tr, tokens_ok ge w -> accepts ge (tbl_of ge) w tr -> derives_tree ge tr w /\ well_grouped ge tr.
Proof. intros w tr. apply (grouping_derivation ge (sts_of ge)); [exact ge_resolved|exact ge_noerr]. Qed.

(* (a): state 5 = after E + E; on * (column 2 + 1: the two nonterminal columns, E and the added root, come first)
   the generator shifts (to state 4). Flip it to "reduce E -> E + E". The flipped table still passes the SOUND
   validator (the completed item is there), so everything it accepts is a derivation tree; but it groups a + b * c as
   (a + b) * c. The resolved validator rejects it. *)
Definition n_ := Node 2 [Leaf 2].
Definition plus (a b : tree) := Node 0 [a; Leaf 0; b].
Definition times (a b : tree) := Node 1 [a; Leaf 1; b].

Definition tbl_a_flip : table := set_cell (tbl_of ga) 5 3 (mkE KReduce (Some 0) true).

Example flip_cell_before : cell_at (tbl_of ga) 5 3 = mkE KShift (Some 4) true.
Proof. with_tables ga_gen. reflexivity. Qed.

Example flip_rejected :
  validate_sound ga (sts_of ga) tbl_a_flip = true /\
  validate_resolved ga (sts_of ga) tbl_a_flip = false /\
  tree_run ga tbl_a_flip [2; 0; 2; 1; 2] 100 = Accept (times (plus n_ n_) n_) /\
  well_groupedb ga (times (plus n_ n_) n_) = false.
Proof. unfold tbl_a_flip. with_tables ga_gen. repeat split. Qed.

(* the other direction: (a) state 6 = after E * E; on + the generator reduces; flip it to "shift +" *)
Definition tbl_a_flip2 : table := set_cell (tbl_of ga) 6 2 (mkE KShift (Some 3) true).
Example flip2_rejected :
  cell_at (tbl_of ga) 6 2 = mkE KReduce (Some 1) true /\
  validate_sound ga (sts_of ga) tbl_a_flip2 = true /\
  validate_resolved ga (sts_of ga) tbl_a_flip2 = false /\
  tree_run ga tbl_a_flip2 [2; 1; 2; 0; 2] 100 = Accept (times n_ (plus n_ n_)) /\
  well_groupedb ga (times n_ (plus n_ n_)) = false.
Proof. unfold tbl_a_flip2. with_tables ga_gen. repeat split. Qed.

(* a dropped transition target (closedness) is rejected as well: state 3 (after E +) loses its goto on E *)
Example unclosed_rejected :
  validate_resolved ga (sts_of ga) (set_cell (tbl_of ga) 3 0 entry_default) = false.
Proof. with_tables ga_gen. reflexivity. Qed.

Definition w1 := [2; 0; 2; 1; 2].                 (* a + b * c *)
Definition w2 := [2; 1; 2; 0; 2].                 (* a * b + c *)
Definition w3 := [2; 0; 2; 0; 2].                 (* a + b + c *)
Definition w4 := [2; 1; 2; 1; 2; 0; 2; 1; 2].     (* a * b * c + d * e *)

Definition run (g : grammar) (w : list nat) := tree_run g (tbl_of g) w 100.

(* (a) * above +, left associative *)
Example runs_a :
  run ga w1 = Accept (plus n_ (times n_ n_)) /\
  run ga w2 = Accept (plus (times n_ n_) n_) /\
  run ga w3 = Accept (plus (plus n_ n_) n_) /\
  run ga w4 = Accept (plus (times (times n_ n_) n_) (times n_ n_)).
Proof. unfold run. with_tables ga_gen. repeat split. Qed.

(* (b) one level, right associative: everything nests to the right *)
Example runs_b :
  run gb w1 = Accept (plus n_ (times n_ n_)) /\
  run gb w2 = Accept (times n_ (plus n_ n_)) /\
  run gb w3 = Accept (plus n_ (plus n_ n_)) /\
  run gb w4 = Accept (times n_ (times n_ (plus n_ (times n_ n_)))).
Proof. unfold run. with_tables gb_gen. repeat split. Qed.

(* (c) no declarations: precedence 0 everywhere, no associativity: always shift, everything nests to the right *)
Example runs_c :
  run gc w1 = Accept (plus n_ (times n_ n_)) /\
  run gc w2 = Accept (times n_ (plus n_ n_)) /\
  run gc w3 = Accept (plus n_ (plus n_ n_)) /\
  run gc w4 = Accept (times n_ (times n_ (plus n_ (times n_ n_)))).
Proof. unfold run. with_tables gc_gen. repeat split. Qed.

(* (d) the rule E -> E + E has precedence 3 > * : a completed sum is always reduced *)
Example runs_d :
  run gd w1 = Accept (times (plus n_ n_) n_) /\
  run gd w2 = Accept (plus (times n_ n_) n_) /\
  run gd w3 = Accept (plus (plus n_ n_) n_) /\
  run gd w4 = Accept (times (plus (times (times n_ n_) n_) n_) n_).
Proof. unfold run. with_tables gd_gen. repeat split. Qed.

Definition accepted (r : result tree) : option tree := match r with Accept t => Some t | _ => None end.
Definition wgb (g : grammar) (w : list nat) : bool :=
  match accepted (run g w) with Some t => well_groupedb g t && derivesb g t w | None => false end.

(* all accepted trees are derivation trees and well grouped (as the theorem says; here by the decision procedure) *)
Example runs_well_grouped :
  map (fun g => map (wgb g) [w1; w2; w3; w4]) [ga; gb; gc; gd] =
  [[true; true; true; true]; [true; true; true; true]; [true; true; true; true]; [true; true; true; true]].
Proof.
  cbn [map]. unfold wgb, run. rewrite (proj2 ga_gen), (proj2 gb_gen), (proj2 gc_gen), (proj2 gd_gen). vm_compute. reflexivity.
Qed.

Lemma other_tree g t w : derivesb g t w = true -> well_groupedb g t = false -> derives_tree g t w /\ ~ well_grouped g t.
Proof.
  intros Hd Hg. split; [apply derivesb_sound; assumption|]. rewrite <- well_groupedb_iff, Hg. discriminate.
Qed.

(* the grammars are ambiguous and the theorem discriminates: for each of them an input with a SECOND derivation tree,
   which is not well grouped *)
Theorem other_trees_not_well_grouped :
  (derives_tree ga (times (plus n_ n_) n_) w1 /\ ~ well_grouped ga (times (plus n_ n_) n_)) /\
  (derives_tree ga (plus n_ (plus n_ n_)) w3 /\ ~ well_grouped ga (plus n_ (plus n_ n_))) /\
  (derives_tree gb (plus (plus n_ n_) n_) w3 /\ ~ well_grouped gb (plus (plus n_ n_) n_)) /\
  (derives_tree gc (times (plus n_ n_) n_) w1 /\ ~ well_grouped gc (times (plus n_ n_) n_)) /\
  (derives_tree gd (plus n_ (times n_ n_)) w1 /\ ~ well_grouped gd (plus n_ (times n_ n_))).
Proof. split; [|split; [|split; [|split]]]; apply other_tree; vm_compute; reflexivity. Qed.

(* all five derivation trees of a + b + c + d in (a): exactly one is well grouped, and it is the parser's *)
Definition w5 := [2; 0; 2; 0; 2; 0; 2].
Example five_trees :
  let ts := [plus (plus (plus n_ n_) n_) n_; plus (plus n_ (plus n_ n_)) n_; plus (plus n_ n_) (plus n_ n_);
             plus n_ (plus (plus n_ n_) n_); plus n_ (plus n_ (plus n_ n_))] in
  map (fun t => derivesb ga t w5) ts = [true; true; true; true; true] /\
  map (well_groupedb ga) ts = [true; false; false; false; false] /\
  run ga w5 = Accept (plus (plus (plus n_ n_) n_) n_).
Proof. unfold run. with_tables ga_gen. repeat split. Qed.

Definition en := Node 3 [Leaf 3].
Definition eplus (a b : tree) := Node 0 [a; Leaf 0; b].
Definition etimes (a b : tree) := Node 2 [a; Leaf 1; b].
Definition epow (a b : tree) := Node 5 [a; Leaf 2; b].
Definition eneg (a : tree) := Node 6 [Leaf 6; a].
Definition eparen (a : tree) := Node 4 [Leaf 4; Node 1 [a]; Leaf 5].
Definition eroot (a : tree) := Node 1 [a].

(* n + n * n ^ n ^ n * ( n + n ) + - n * n *)
Definition we := [3; 0; 3; 1; 3; 2; 3; 2; 3; 1; 4; 3; 0; 3; 5; 0; 6; 3; 1; 3].
Example run_e :
  run ge we = Accept (eroot (eplus (eplus en (etimes (etimes en (epow en (epow en en))) (eparen (eplus en en))))
                                   (etimes (eneg en) en))) /\
  wgb ge we = true.
Proof. unfold wgb, run. with_tables ge_gen. split; reflexivity. Qed.

(* another derivation tree of  n + n * n  in (e), not well grouped *)
Theorem ge_other_tree :
  run ge [3; 0; 3; 1; 3] = Accept (eroot (eplus en (etimes en en))) /\
  derives_tree ge (eroot (etimes (eplus en en) en)) [3; 0; 3; 1; 3] /\
  ~ well_grouped ge (eroot (etimes (eplus en en) en)).
Proof.
  split; [unfold run; with_tables ge_gen; reflexivity|]. apply other_tree; vm_compute; reflexivity.
Qed.

(* in (a), (b), (c), (e: + * ^) the operator rules have no explicit precedence: they are "plain", and the consequence in
   the vocabulary of precedence levels applies; in (d) the rule E -> E + E is not plain *)
Example plain_rules :
  (plain_rule ga 0 0 /\ plain_rule ga 1 1) /\ (plain_rule gb 0 0 /\ plain_rule gb 1 1) /\
  (plain_rule gc 0 0 /\ plain_rule gc 1 1) /\ (plain_rule ge 1 0 /\ plain_rule ge 2 1 /\ plain_rule ge 5 2) /\
  ~ plain_rule gd 0 0.
Proof.
  repeat split; try (vm_compute; reflexivity). intros [H _]. vm_compute in H. discriminate.
Qed.

Theorem ga_by_precedence : forall w tr, tokens_ok ga w -> accepts ga (tbl_of ga) w tr -> groups_by_precedence ga tr.
Proof. intros w tr Hw Ha. apply well_grouped_by_precedence. apply (ga_groups w tr Hw Ha). Qed.

Print Assumptions ga_groups.
Print Assumptions ge_groups.
Print Assumptions other_trees_not_well_grouped.
Print Assumptions ga_by_precedence.
