(* Termination facts about the driver.
   An accepting run of the tree instance: fuel monotonicity, and -- with a soundly validated table without error
   symbol -- the exact number of loop iterations: size of the tree + 1 = length of the input + number of inner
   nodes + 1 ([accepted_fuel_exact]).
   After a syntax error: without error rules the run rejects within (stack height) iterations of recovery mode
   ([rec_run_ends], the pop phase of Proofs/RecoveryRefines.v with no state to stop at; [error_run_terminates]);
   with error rules, the per-iteration progress lemmas of consume mode and recovery mode ([consume_progress],
   [recovery_progress]). *)
Require Import Ctpg.Base.Prelude Ctpg.Model.Grammar Ctpg.Model.LRGen Ctpg.Model.Driver
               Ctpg.Spec.Cfg Ctpg.Spec.LRSpec Ctpg.Spec.Recovery Ctpg.Valid.LRValid Ctpg.Valid.LRSafe
               Ctpg.Proofs.LRReflect Ctpg.Proofs.LRMachine Ctpg.Proofs.LRValidFacts Ctpg.Proofs.LRSound
               Ctpg.Proofs.DriverBasics Ctpg.Proofs.DriverIter Ctpg.Proofs.SafeBasics Ctpg.Proofs.SafeDriver Ctpg.Proofs.RecoveryRefines.

Lemma tree_run_mono g tbl w fuel fuel' : tree_run g tbl w fuel <> OutOfFuel -> fuel <= fuel' ->
  tree_run g tbl w fuel' = tree_run g tbl w fuel.
Proof.
  intros Hn Hle. rewrite !tree_run_eq in *. now rewrite (run_from_stable _ _ _ _ _ _ _ _ _ _ _ _ _ _ _ Hn Hle).
Qed.

Theorem terminates_accepted : forall g tbl w t,
  accepts g tbl w t -> exists fuel, forall fuel', fuel <= fuel' -> tree_run g tbl w fuel' = Accept t.
Proof.
  intros g tbl w t [fuel Hf]. exists fuel. intros fuel' Hle.
  rewrite (tree_run_mono g tbl w fuel fuel'); [exact Hf|rewrite Hf; discriminate|exact Hle].
Qed.

Fixpoint tsize (t : tree) : nat :=
  match t with Leaf _ => 1 | Node _ ch => S (list_sum (map tsize ch)) end.
Fixpoint nodes (t : tree) : nat :=
  match t with Leaf _ => 0 | Node _ ch => S (list_sum (map nodes ch)) end.

Notation lsum f l := (list_sum (map f l)).

Lemma lsum_cons {A} (f : A -> nat) x l : lsum f (x :: l) = f x + lsum f l.
Proof. reflexivity. Qed.

Lemma lsum_rev {A} (f : A -> nat) l : lsum f (rev l) = lsum f l.
Proof.
  induction l as [|x l IH]; [reflexivity|]. rewrite lsum_cons, <- IH. cbn [rev].
  rewrite map_app, list_sum_app. cbn. lia.
Qed.

Lemma lsum_split {A} (f : A -> nat) n l : lsum f l = lsum f (firstn n l) + lsum f (skipn n l).
Proof. rewrite <- list_sum_app, <- map_app, firstn_skipn. reflexivity. Qed.

Lemma lsum_le {A} (f h : A -> nat) l : Forall (fun x => f x <= h x) l -> lsum f l <= lsum h l.
Proof. induction 1 as [|x l Hx _ IH]; [reflexivity|]. rewrite !lsum_cons. lia. Qed.

Lemma length_flat_map_yield trs : length (flat_map yield trs) = lsum (fun t => length (yield t)) trs.
Proof. induction trs as [|t trs IH]; [reflexivity|]. cbn [flat_map]. rewrite app_length, IH. reflexivity. Qed.

Lemma tsize_yield t : tsize t = length (yield t) + nodes t.
Proof.
  induction t as [a|r ch IH] using tree_ind'; [reflexivity|].
  cbn [tsize nodes yield]. rewrite length_flat_map_yield.
  induction IH as [|c ch Hc _ IHch]; [reflexivity|]. rewrite !lsum_cons. lia.
Qed.

Section Steps.
  Variable g : grammar.
  Variable sts : list items.
  Variable tbl : table.
  Variable w : list nat.
  Hypothesis SF : sound_facts g sts tbl.

  Notation drun := (run_from tree unit g tbl tree_opts w None id_lexer tf (ef g) rlf).

  Definition msz (c : cfg) : nat := let '(_, trs, _) := c in lsum tsize trs.

  (* every machine step adds exactly one constructor to the forest on the stack *)
  Lemma mstep_size c c' : SInv g sts w c -> mstep g tbl c = Next c' -> msz c' = S (msz c).
  Proof.
    destruct c as [[ss trs] rest], c' as [[ss' trs'] rest']. intros (syms & Hst & _ & _ & Hr) Hs.
    destruct (LRSound.step_cases g sts tbl SF _ _ _ _ _ _ _ Hst Hr Hs) as (syms' & Hto & _).
    destruct Hto; cbn [msz]; rewrite lsum_cons; [reflexivity|].
    cbn [tsize].
    rewrite lsum_rev, (lsum_split tsize (ri_n (get_ri g r)) trs). lia.
  Qed.

  Lemma msteps_SInv k : forall c c', msteps g tbl k c c' -> SInv g sts w c -> SInv g sts w c'.
  Proof.
    induction k as [|k IH]; intros c c' H Hi; cbn [msteps] in H.
    - subst. assumption.
    - destruct H as (c1 & Hs & H). eapply IH; [exact H|]. eapply SInv_next; eassumption.
  Qed.

  Lemma msteps_size k : forall c c', msteps g tbl k c c' -> SInv g sts w c -> msz c' = k + msz c.
  Proof.
    induction k as [|k IH]; intros c c' H Hi; cbn [msteps] in H.
    - subst. reflexivity.
    - destruct H as (c1 & Hs & H). apply IH in H; [|eapply SInv_next; eassumption].
      rewrite (mstep_size _ _ Hi Hs) in H. lia.
  Qed.

  Lemma sim_out_of_fuel k : forall s c', normal w s -> msteps g tbl k (abs w s) c' ->
    forall fuel out, fuel <= k -> fst (fst (drun fuel s out)) = OutOfFuel.
  Proof.
    induction k as [|k IH]; intros s c' Hn Hm fuel out Hle.
    - assert (fuel = 0) by lia. subst. reflexivity.
    - destruct fuel as [|f]; [reflexivity|]. cbn [msteps] in Hm. destruct Hm as (c1 & Hs1 & Hm).
      pose proof (tree_step_sim g tbl w s Hn) as Hs. rewrite Hs1 in Hs.
      destruct Hs as (s' & ev & Hs & _ & Hn' & Ha). subst c1. cbn [run_from]. rewrite Hs.
      eapply IH; [exact Hn'|exact Hm|lia].
  Qed.
End Steps.

(* the loop runs exactly (size of the tree + 1) times: one iteration per leaf (shift), one per inner node (reduce),
   one for the success cell *)
Theorem accepted_fuel_exact : forall g sts tbl w t,
  validate_sound g sts tbl = true -> no_error_symbol g tbl = true -> tokens_ok g w ->
  accepts g tbl w t ->
  tsize t = length w + nodes t /\
  forall fuel, (tsize t < fuel -> tree_run g tbl w fuel = Accept t) /\
               (fuel <= tsize t -> tree_run g tbl w fuel = OutOfFuel).
Proof.
  intros g sts tbl w t Hv Hne Hw Hacc.
  pose proof (sound_facts_of g sts tbl Hv) as SF.
  split.
  { destruct (lr_sound g sts tbl w t Hv Hne Hw Hacc) as (s & _ & _ & Hy). rewrite tsize_yield, Hy. reflexivity. }
  destruct (accepts_machine g sts tbl w t SF Hne Hw Hacc) as (n & Hn).
  destruct (mrun_steps g tbl n _ _ Hn) as (k & c' & Hk & Hs & Ha).
  pose proof (msteps_SInv g sts tbl w SF k _ _ Hs (SInv_init g sts w Hw)) as Hi.
  destruct c' as [[ss trs] rest].
  destruct (SInv_accepting g sts tbl w SF _ _ _ _ Hi Ha) as (_ & -> & _).
  pose proof (msteps_size g sts tbl w SF k _ _ Hs (SInv_init g sts w Hw)) as Hz. cbn in Hz. rewrite !Nat.add_0_r in Hz.
  assert (Hm : mrun g tbl (k + 1) ([0], [], w) = Some t).
  { eapply msteps_mrun; [exact Hs|]. cbn [mrun]. rewrite Ha. reflexivity. }
  intros fuel. split; intros Hf.
  - assert (Hrun : tree_run g tbl w (k + 1) = Accept t).
    { rewrite tree_run_eq. rewrite <- (init_abs w) in Hm.
      exact (sim_complete g tbl w (k + 1) _ _ (init_normal w) Hm []). }
    rewrite (tree_run_mono g tbl w (k + 1) fuel); [exact Hrun|rewrite Hrun; discriminate|lia].
  - rewrite tree_run_eq. rewrite <- (init_abs w) in Hs.
    eapply sim_out_of_fuel; [apply init_normal|exact Hs|lia].
Qed.

Corollary terminates_accepted_bound : forall g sts tbl w t,
  validate_sound g sts tbl = true -> no_error_symbol g tbl = true -> tokens_ok g w ->
  accepts g tbl w t ->
  forall fuel, length w + nodes t + 1 <= fuel -> tree_run g tbl w fuel = Accept t.
Proof.
  intros g sts tbl w t Hv Hne Hw Hacc fuel Hf.
  destruct (accepted_fuel_exact g sts tbl w t Hv Hne Hw Hacc) as [E H]. apply H. lia.
Qed.

Section Recovery.
  Variables V C : Type.
  Variable g : grammar.
  Variable tbl : table.
  Variable opts : options.
  Variable buf : list nat.
  Variable cap : option nat.
  Variable lexer : bool -> spoint -> list nat -> list lex_event * option (nat * nat).
  Variable term_f : nat -> nat -> nat -> spoint -> V.
  Variable err_f : spoint -> V.
  Variable rule_f : nat -> C -> list V -> C * V.

  Notation stepx := (step V C g tbl opts buf cap lexer term_f err_f rule_f).
  Notation run_ghx := (run_gh V C g tbl opts buf cap lexer term_f err_f rule_f).
  Notation run_fromx := (run_from V C g tbl opts buf cap lexer term_f err_f rule_f).
  Notation gspec := (gct_spec V C g opts buf lexer).
  Notation consumex := (consume_term V C buf).

  (* the same column as [err_col] of Spec/Recovery.v, which this hides in the rest of the file *)
  Definition err_col := nterm_count g + err_idx g.

  (* Without error rules no state accepts the error symbol: recovery mode is the pop phase of Spec/Recovery.v with
     nothing to stop at ([drop_steps] of Proofs/RecoveryRefines.v).  Within (stack height) iterations the run is over:
     it rejects, unless the stack is empty or holds a row without a cell in the error column. *)
  Lemma rec_run_ends : err_col_empty g tbl -> forall fuel s out,
    ps_rec s = true -> ps_cons s = false -> 0 < fuel -> length (ps_cursors s) <= fuel ->
    let r := fst (fst (run_fromx fuel s out)) in
    r = Reject \/ r = Crash CrEmptyStack \/ r = Crash CrTableRow \/ r = Crash CrTableCol.
  Proof.
    intros Herr fuel s out Hr Hc Hpos Hle. cbv zeta.
    assert (Hne : ps_cursors s = [] \/ ps_cursors s <> []) by (destruct (ps_cursors s); [left; reflexivity|right; discriminate]).
    destruct Hne as [Ecs|Hne].
    { destruct fuel as [|f]; [lia|]. cbn [run_from]. unfold step. rewrite Ecs. auto. }
    pose proof (drop_steps V C g tbl opts buf cap lexer term_f err_f rule_f s Hr Hc Hne) as D.
    destruct (pop_defined g tbl (ps_cursors s)).
    - unfold pop_steps, spec_drop in D. rewrite (empty_col_drop g tbl _ Herr) in D. cbn [as_outcome] in D.
      replace fuel with (length (ps_cursors s) + (fuel - length (ps_cursors s))) by lia.
      rewrite steps_run_from, D. left. reflexivity.
    - destruct D as (n & s' & c & ev & Hn & Hs & Hcc).
      replace fuel with (S n + (fuel - S n)) by lia. rewrite steps_run_from, Hs. cbn [fst]. destruct Hcc as [->| ->]; auto.
  Qed.

  Lemma visited_modes fuel c : Forall (modes_inv V C) (snd (run_ghx fuel (init c) [] [])).
  Proof.
    pose proof (run_gh_sinv V C g tbl opts buf cap lexer term_f err_f rule_f (modes_inv V C) (fun _ _ => True)
                  (fun _ _ => I) (step_modes V C g tbl opts buf cap lexer term_f err_f rule_f) fuel (init c) [] []
                  (or_introl eq_refl) (Forall_nil _)) as H.
    destruct (run_ghx fuel (init c) [] []) as [[[r s] out] vis]. exact (proj2 H).
  Qed.

  (* every iteration in consume mode ends the run, leaves consume mode, or consumes the pending term (a term other
     than <eof>) and nothing else; the last alternative is a (second) shift of the error token, possible only when
     the pending term's own column says "shift error" -- excluded by [cell_justified] and [lexer_ok_for] *)
  Lemma consume_progress s : ps_cons s = true -> ps_rec s = false ->
    match fst (stepx s) with
    | inr _ => True
    | inl s' =>
        ps_cons s' = false \/
        (exists s1 t ev, gspec s (s1, Some t, ev) /\ ps_term s1 = Some t /\ t <> eof_idx g /\ s' = consumex s1 /\
                         ps_cons s' = true /\ ps_rec s' = false /\
                         ps_cursors s' = ps_cursors s /\ ps_values s' = ps_values s /\
                         ps_it s' = ps_end s1 /\ ps_end s' = ps_end s1) \/
        (exists cur t e, hd_error (ps_cursors s) = Some cur /\ cell tbl cur (nterm_count g + t) = inl e /\
                         e_kind e = KShiftErr /\ ps_cons s' = true /\ ps_rec s' = false)
    end.
  Proof.
    intros Hc Hr. apply step_moves; cbn [fst]; [auto|auto|].
    intros cur cs s1 t ev1 m Hcs _ Hg Ha.
    destruct (gct_stacks Hg) as (Hcs1 & Hvs1 & _ & Hr1 & Hc1).
    destruct (gct_term Hg) as [[E _]|[_ Htm]]; [congruence|].
    case_move Ha; cbn [perform fst]; try exact I; try congruence; simp_mv.
    - right. left. exists s1, t, ev1. simp_ps. repeat split; auto; congruence.
    - left. reflexivity.
    - right. right. exists cur, t, e. rewrite Hcs. repeat split; auto; congruence.
    - left. reflexivity.
  Qed.

  (* with a lexer that never returns an empty lexeme, fetching a term other than <eof> puts its end strictly beyond the cursor *)
  Lemma consume_advances s s1 t ev :
    (forall v p rest t len, snd (lexer v p rest) = Some (t, len) -> 0 < len) ->
    ps_rec s = false -> ps_it s <= ps_end s -> gspec s (s1, Some t, ev) -> t <> eof_idx g ->
    ps_it s < ps_end s1.
  Proof.
    intros Hpos Hr Hle Hg Hne. remember (s1, Some t, ev) as x eqn:E.
    destruct Hg as [Hr'|Hr' Hn|sp1 it1 Hr' He Hit1 Hsp1 Hsk|sp1 it1 c rest lx Hr' He Hit1 Hsp1 Hsk Hl|sp1 it1 c rest lx t0 len Hr' He Hit1 Hsp1 Hsk Hl];
      try congruence; injection E as <- Et _; simp_ps.
    - lia.
    - assert (0 < len) by (eapply (Hpos _ _ _ t0 len); rewrite Hl; reflexivity). lia.
  Qed.

  (* every iteration in recovery mode ends the run, pops one entry, shifts the error token (and goes to consume
     mode), or reduces; the last alternative, a plain shift in the error column, does not occur in generated tables *)
  Lemma recovery_progress s : ps_rec s = true -> ps_cons s = false ->
    match fst (stepx s) with
    | inr _ => True
    | inl s' =>
        (* pop *)
        (ps_rec s' = true /\ ps_cons s' = false /\
         ps_cursors s' = tl (ps_cursors s) /\ ps_values s' = tl (ps_values s) /\ ps_cursors s' <> []) \/
        (* shift of the error token *)
        (ps_rec s' = false /\ ps_cons s' = true /\
         exists nst, ps_cursors s' = nst :: ps_cursors s /\ ps_values s' = err_f (ps_sp s) :: ps_values s) \/
        (* reduce *)
        (ps_rec s' = true /\ ps_cons s' = false /\
         exists r ri nst v, nth_error (rule_infos g) r = Some ri /\
           ri_n ri <= length (ps_cursors s) /\ ri_n ri <= length (ps_values s) /\
           ps_cursors s' = nst :: skipn (ri_n ri) (ps_cursors s) /\
           ps_values s' = v :: skipn (ri_n ri) (ps_values s)) \/
        (* a plain shift in the error column *)
        (exists cur e, hd_error (ps_cursors s) = Some cur /\ cell tbl cur err_col = inl e /\ e_kind e = KShift)
    end.
  Proof.
    intros Hr Hc. apply step_moves; cbn [fst]; [auto|auto|].
    intros cur cs s1 t ev1 m Hcs Eg _ Ha. rewrite (gct_rec Hr) in Eg. injection Eg as <- <- _.
    case_move Ha; cbn [perform fst]; try exact I; try congruence; simp_mv.
    - left. repeat split; auto. rewrite Htl. discriminate.
    - right. right. right. exists cur, e. rewrite Hcs. auto.
    - right. left. repeat split; auto. exists nst. auto.
    - right. right. left. destruct (decided_reduce_ok Hred) as (Hri & Hnc & Hnv).
      repeat split; auto. exists rl, ri, nst, (snd (rule_f (ri_r ri) (ps_ctx s) (rev (firstn (ri_n ri) (ps_values s))))). auto.
  Qed.
End Recovery.

(* For the whole run: once a state in recovery mode has been reached (the syntax error was reported in the
   iteration before, which left the stacks alone), at most (stack height) further iterations are made and the result
   is Reject -- for a table without error symbol that passes [safe_ok] *)
Theorem error_run_terminates :
  forall (V C : Type) g sts tbl opts buf cap lexer
         (term_f : nat -> nat -> nat -> spoint -> V) (err_f : spoint -> V) (rule_f : nat -> C -> list V -> C * V),
  safe_ok g sts tbl = true -> lexer_ok_on g buf lexer -> no_error_symbol g tbl = true ->
  forall fuel c i s,
    nth_error (snd (run_gh V C g tbl opts buf cap lexer term_f err_f rule_f fuel (init c) [] [])) i = Some s ->
    ps_rec s = true ->
    forall fuel', i + length (ps_cursors s) <= fuel' ->
      fst (fst (run V C g tbl opts buf cap lexer term_f err_f rule_f fuel' c)) = Reject.
Proof.
  intros V C g sts tbl opts buf cap lexer term_f err_f rule_f Hs Hl Hne fuel c i s Hnth Hr fuel' Hf.
  pose proof (no_error_symbol_cell g tbl Hne) as Herr.
  (* the run from the start passes through s *)
  destruct (run_gh_nth fuel (init c) [] i s Hnth) as (out_i & Ho).
  (* the visited state has a non-empty stack and satisfies the mode invariant *)
  pose proof (visited_stacks_ok V C g sts tbl opts buf cap lexer term_f err_f rule_f Hs Hl fuel c) as Hsafe.
  pose proof (visited_modes V C g tbl opts buf cap lexer term_f err_f rule_f fuel c) as Hmodes.
  destruct (run_gh V C g tbl opts buf cap lexer term_f err_f rule_f fuel (init c) [] []) as [[[r0 s0] out0] vis].
  cbn [snd] in *. pose proof (nth_error_In _ _ Hnth) as Hin.
  rewrite Forall_forall in Hsafe, Hmodes. destruct (Hsafe s Hin) as [Hnil _]. destruct (Hmodes s Hin) as [E|Hc]; [congruence|].
  assert (Hpos : 0 < length (ps_cursors s)) by (destruct (ps_cursors s); [congruence|cbn; lia]).
  unfold run. replace fuel' with (i + (fuel' - i)) by lia. rewrite Ho.
  pose proof (rec_run_ends V C g tbl opts buf cap lexer term_f err_f rule_f Herr (fuel' - i) s out_i Hr Hc ltac:(lia) ltac:(lia)) as Hout.
  (* the run does not crash *)
  pose proof (no_crash_safe_ok V C g sts tbl opts buf cap lexer term_f err_f rule_f Hs Hl (i + (fuel' - i)) c) as Hnc.
  unfold run in Hnc. rewrite Ho in Hnc.
  destruct Hout as [E|[E|[E|E]]]; [exact E|exfalso; eapply Hnc; exact E ..].
Qed.

(* the same at the level of one state, for ANY table whose error column is empty: from a state in recovery mode
   the run is over within (stack height) iterations and can only reject (or hit an invalid row / an empty stack) *)
Theorem recovery_ends_any_table :
  forall (V C : Type) g tbl opts buf cap lexer
         (term_f : nat -> nat -> nat -> spoint -> V) (err_f : spoint -> V) (rule_f : nat -> C -> list V -> C * V),
  no_error_symbol g tbl = true ->
  forall fuel s out, ps_rec s = true -> ps_cons s = false -> 0 < fuel -> length (ps_cursors s) <= fuel ->
    let r := fst (fst (run_from V C g tbl opts buf cap lexer term_f err_f rule_f fuel s out)) in
    r = Reject \/ r = Crash CrEmptyStack \/ r = Crash CrTableRow \/ r = Crash CrTableCol.
Proof.
  intros V C g tbl opts buf cap lexer term_f err_f rule_f Hne fuel s out Hr Hc Hpos Hle.
  exact (rec_run_ends V C g tbl opts buf cap lexer term_f err_f rule_f (no_error_symbol_cell g tbl Hne) fuel s out Hr Hc Hpos Hle).
Qed.

Print Assumptions terminates_accepted.
Print Assumptions accepted_fuel_exact.
Print Assumptions terminates_accepted_bound.
Print Assumptions error_run_terminates.
Print Assumptions recovery_ends_any_table.
Print Assumptions consume_progress.
Print Assumptions consume_advances.
Print Assumptions recovery_progress.
