(* Part of the tie between the hand-written model and the facts tools/source_facts.py read out of ctpg.hpp on this run. *)
(* character classes, the specials table and the pattern grammar (C03 C17) *)
Require Import Ctpg.Base.Prelude Ctpg.Model.RegexFront Ctpg.Model.SourceFacts.

Lemma tie_printable : forall c, c < 256 -> is_printable c = (Nat.leb (fst sf_printable) c && Nat.leb c (snd sf_printable)).
Proof. reflexivity. Qed.
Lemma tie_dec : forall c, is_dec_digit c = (Nat.leb (fst sf_dec) c && Nat.leb c (snd sf_dec)).
Proof. reflexivity. Qed.
Lemma tie_hex : forall c, is_hex_digit c =
  ((Nat.leb (nth 0 sf_hex 0) c && Nat.leb c (nth 1 sf_hex 0)) || (Nat.leb (nth 2 sf_hex 0) c && Nat.leb c (nth 3 sf_hex 0))
   || (Nat.leb (nth 4 sf_hex 0) c && Nat.leb c (nth 5 sf_hex 0))).
Proof. reflexivity. Qed.

Lemma tie_specials : forallb (fun c => match special c, find (fun p => Nat.eqb (fst p) c) sf_specials with
                                        | Some t, Some (_, t') => Nat.eqb t t'
                                        | None, None => true
                                        | _, _ => false
                                        end) (seq 0 256) = true.
Proof. vm_compute. reflexivity. Qed.

Lemma tie_regex_grammar : sf_regex_raw_grammar = regex_raw_grammar. Proof. reflexivity. Qed.

