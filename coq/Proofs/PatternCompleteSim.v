(* Forward simulation: the driver on BYTES with a scanner, building parse trees with lexeme extents ([ptree], Spec/Eval.v),
   follows the abstract LR machine (Proofs/LRMachine.v) on the TERM sequence the scanner defines, step for step: one
   iteration is the machine's move by [StreamSim.step_sim], the scanner's tokens being the token stream of
   Proofs/DriverStream.v ([ptoks_stream]).  (Proofs/PatternParse.v has the other direction, for the soundness theorem.)
   Result ([fwd_accept]): if the machine accepts the tree t after n steps, the driver accepts after n + 1 iterations a
   parse tree whose shape is t and whose leaves carry exactly the scanner's tokens (term, start, length).
   Shape and leaves determine a parse tree up to the source points kept in its leaves ([shape_leaves_unsp]). *)
Require Import Ctpg.Base.Prelude Ctpg.Proofs.ListFacts Ctpg.Model.Grammar Ctpg.Model.LRGen Ctpg.Model.Driver
               Ctpg.Model.RegexFront Ctpg.Spec.Cfg Ctpg.Spec.Eval Ctpg.Proofs.LRMachine Ctpg.Proofs.DriverEval
               Ctpg.Proofs.PatternParse Ctpg.Proofs.DriverBasics Ctpg.Proofs.DriverStream Ctpg.Proofs.StreamSim.

Lemma map_flat_map {A B C} (f : B -> C) (h : A -> list B) l : map f (flat_map h l) = flat_map (fun x => map f (h x)) l.
Proof. induction l as [|x l IH]; cbn; [reflexivity|]. now rewrite map_app, IH. Qed.

Lemma flat_map_map {A B C} (f : A -> B) (h : B -> list C) l : flat_map h (map f l) = flat_map (fun x => h (f x)) l.
Proof. induction l as [|x l IH]; cbn; [reflexivity|]. now rewrite IH. Qed.

Section Fwd.
  Variable g : grammar.
  Variable tbl : table.
  Variable buf : list nat.
  Variable lexer : bool -> spoint -> list nat -> list lex_event * option (nat * nat).
  (* what Proofs/PatternParse.v proves of the pattern scanner: regex_lexer_sp, regex_lexer_rng *)
  Hypothesis lexer_sp : forall v p q rest, snd (lexer v p rest) = snd (lexer v q rest).
  Hypothesis lexer_rng : forall v p rest t len, snd (lexer v p rest) = Some (t, len) ->
                                               0 < len /\ len <= length rest /\ t < eof_idx g.
  (* <eof> is never shifted *)
  Hypothesis Hnoeof : forall st e, cell tbl st (nterm_count g + eof_idx g) = inl e -> e_kind e <> KShift.

  Notation TC := (list (nat * list ptree)).
  Notation pst := (pstate ptree TC).
  Notation pstep := (step ptree TC g tbl regex_opts buf None lexer tree_term_f tree_err_f tree_rule_f).
  Notation prun := (run_from ptree TC g tbl regex_opts buf None lexer tree_term_f tree_err_f tree_rule_f).

  (* the tokens (term, start, length) the scanner defines from offset pos to the end of the buffer *)
  Inductive ptoks_from : nat -> list (nat * nat * nat) -> Prop :=
  | PtEof pos : skipn pos buf = [] -> ptoks_from pos []
  | PtTok pos c rest t len ws : skipn pos buf = c :: rest -> lexv lexer (c :: rest) = Some (t, len) ->
                                ptoks_from (pos + len) ws -> ptoks_from pos ((t, pos, len) :: ws).

  Lemma ptoks_toks pos toks : ptoks_from pos toks -> toks_from buf lexer pos (map tok_term toks).
  Proof. induction 1; cbn [map]; [apply TfEof; assumption|]. eapply TfTok; eassumption. Qed.

  Lemma toks_ptoks pos ws : toks_from buf lexer pos ws -> exists toks, ptoks_from pos toks /\ map tok_term toks = ws.
  Proof.
    induction 1 as [pos Hsk|pos c rest t len ws Hsk Hl _ (toks & Ht & Hm)].
    - exists []. split; [apply PtEof; assumption|reflexivity].
    - exists ((t, pos, len) :: toks). split; [eapply PtTok; eassumption|]. cbn. now rewrite Hm.
  Qed.

  Lemma ptoks_tokens_ok pos toks : ptoks_from pos toks -> Forall (fun a => a < eof_idx g) (map tok_term toks).
  Proof.
    induction 1 as [|pos c rest t len ws Hsk Hl _ IH]; cbn [map]; constructor; [|assumption].
    unfold lexv in Hl. apply lexer_rng in Hl. cbn. tauto.
  Qed.

  (* the tokens at the leaves of a parse tree *)
  Fixpoint pleaves (t : ptree) : list (nat * nat * nat) :=
    match t with
    | PLeaf a s l _ => [(a, s, l)]
    | PErr _ => [(err_idx g, 0, 0)]
    | PNode _ ch => flat_map pleaves ch
    end.

  Lemma pleaves_yield pt : map tok_term (pleaves pt) = yield (strip g pt).
  Proof.
    induction pt as [| |r ch IH] using ptree_ind2; try reflexivity.
    cbn [pleaves strip yield]. rewrite map_flat_map, flat_map_map. apply flat_map_ext_in, Forall_forall, IH.
  Qed.

  (* forget the source points; the error leaf becomes the term leaf with the same shape and the same token
     ([PErr sp0] itself would not do: it has the shape and the leaves of [PLeaf (err_idx g) 0 0 sp0]) *)
  Fixpoint unsp (t : ptree) : ptree :=
    match t with
    | PLeaf a s l _ => PLeaf a s l sp0
    | PErr _ => PLeaf (err_idx g) 0 0 sp0
    | PNode r ch => PNode r (map unsp ch)
    end.

  (* shape and leaves determine a parse tree up to the source points in its leaves *)
  Lemma shape_leaves_unsp pt1 : forall pt2 R1 R2, strip g pt1 = strip g pt2 ->
    pleaves pt1 ++ R1 = pleaves pt2 ++ R2 -> R1 = R2 /\ unsp pt1 = unsp pt2.
  Proof.
    induction pt1 as [a s l sp|sp|r ch IH] using ptree_ind2; intros [a' s' l' sp'|sp'|r' ch'] R1 R2 Hs HL;
      cbn [strip pleaves app unsp] in *; try (split; congruence).
    inversion Hs as [[Hr Hm]]; clear Hs. subst r'.
    enough (R1 = R2 /\ map unsp ch = map unsp ch') as [-> ->] by auto.
    revert ch' R1 R2 Hm HL. induction IH as [|x ch Hx _ IHl]; intros [|y ch'] R1 R2 Hm HL; try discriminate Hm; [auto|].
    cbn [map flat_map] in *. inversion Hm as [[Hxy Hm']]. rewrite <- !app_assoc in HL.
    destruct (Hx _ _ _ Hxy HL) as [HL' ->]. destruct (IHl _ _ _ Hm' HL') as [-> ->]. auto.
  Qed.

  Lemma ptoks_stream pos toks : ptoks_from pos toks -> forall sp, pos <= length buf -> stream regex_opts buf lexer sp pos toks true.
  Proof.
    induction 1 as [pos Hsk|pos c rest t len ws Hsk Hl _ IH]; intros sp Hle.
    - apply StEof; [assumption|]. cbn. now rewrite Nat.add_0_r.
    - pose proof (lexer_rng _ _ _ _ _ Hl) as (H1 & H2 & _). pose proof (skipn_length pos buf) as L. rewrite Hsk in L.
      cbn [length] in H2, L.
      pose proof (StTok regex_opts buf lexer sp pos c rest t len ws true) as K.
      cbn [wsk regex_opts o_skip_ws o_verbose] in K. rewrite !Nat.add_0_r in K.
      apply K; [assumption|rewrite (lexer_sp false _ sp0); exact Hl|assumption|lia|apply IH; lia].
  Qed.

  (* the invariant: normal mode, before the tokens still to come *)
  Definition fwd_inv (s : pst) (toks : list (nat * nat * nat)) : Prop :=
    nmode s /\ stands ptree TC g regex_opts buf lexer s toks true.

  (* one machine step, one iteration of the driver; the leaves already built and the tokens still to come make up the
     scanner's tokens throughout *)
  Lemma fwd_step s toks : fwd_inv s toks ->
    match mstep g tbl (ps_cursors s, map (strip g) (ps_values s), map tok_term toks) with
    | Next (cs', trs', ws') =>
        exists s' ev toks', pstep s = (inl s', ev) /\ fwd_inv s' toks' /\
          ps_cursors s' = cs' /\ map (strip g) (ps_values s') = trs' /\ map tok_term toks' = ws' /\
          flat_map pleaves (rev (ps_values s')) ++ toks' = flat_map pleaves (rev (ps_values s)) ++ toks
    | Acc t => exists s' ev pt rest, pstep s = (inr (Accept pt, s'), ev) /\ strip g pt = t /\ rev (ps_values s) = pt :: rest
    | _ => True
    end.
  Proof.
    intros [Hm Hs].
    destruct (step_sim ptree TC g tbl regex_opts buf lexer tree_term_f tree_err_f tree_rule_f (strip g) (fun _ _ _ _ => eq_refl)
                (fun _ _ _ => eq_refl) s toks true Hm Hs) as [(_ & [=] & _)|[_ H]].
    unfold mcfg in H. change (terms toks) with (map tok_term toks) in H.
    destruct (mstep g tbl (ps_cursors s, map (strip g) (ps_values s), map tok_term toks)) as [[[cs' trs'] ws']|t| |]; try exact I.
    2:{ destruct H as (v & rest & s' & ev & H); eauto 6. }
    destruct H as (s' & ev & toks' & Hst & Hm' & Hs' & Hc & Hk). injection Hc as -> -> ->. exists s', ev, toks'.
    do 5 (split; [auto; split; assumption|]).
    destruct Hk as [(-> & (e & Hcell & Hk) & Hv)|(-> & ri & c1 & v & Hf & ->)].
    - destruct toks as [|[[t a] l] rest]; [destruct (Hnoeof _ _ Hcell Hk)|].
      destruct (Hv _ _ _ _ eq_refl) as (p & ->). cbn [tl rev]. now rewrite flat_map_app, <- app_assoc.
    - unfold tree_rule_f in Hf. injection Hf as _ <-. cbn [rev]. rewrite flat_map_app. cbn [flat_map pleaves].
      now rewrite app_nil_r, <- flat_map_app, <- rev_app_distr, firstn_skipn.
  Qed.

  Lemma fwd_msteps n : forall s toks c', fwd_inv s toks ->
    msteps g tbl n (ps_cursors s, map (strip g) (ps_values s), map tok_term toks) c' ->
    exists s' toks', (forall k out, exists out', prun (n + k) s out = prun k s' out') /\ fwd_inv s' toks' /\
      c' = (ps_cursors s', map (strip g) (ps_values s'), map tok_term toks') /\
      flat_map pleaves (rev (ps_values s')) ++ toks' = flat_map pleaves (rev (ps_values s)) ++ toks.
  Proof.
    induction n as [|n IH]; intros s toks c' HJ Hm; cbn [msteps] in Hm.
    - subst c'. exists s, toks. split; [|auto]. intros k out. exists out. reflexivity.
    - destruct Hm as ([[cs1 trs1] ws1] & Hs & Hm). pose proof (fwd_step s toks HJ) as Hst. rewrite Hs in Hst.
      destruct Hst as (s1 & ev & toks1 & Hst & HJ1 & E1 & E2 & E3 & E4).
      subst cs1 trs1 ws1. destruct (IH s1 toks1 c' HJ1 Hm) as (s' & toks' & Hrun & HJ' & Hc' & Hlv).
      exists s', toks'. split; [|split; [assumption|split; [assumption|congruence]]].
      intros k out. cbn [Nat.add run_from]. rewrite Hst. apply Hrun.
  Qed.

  Theorem fwd_accept n toks s' t : ptoks_from 0 toks ->
    msteps g tbl n ([0], [], map tok_term toks) ([s'; 0], [t], []) ->
    mstep g tbl ([s'; 0], [t], []) = Acc t ->
    exists pt, strip g pt = t /\ pleaves pt = toks /\
      forall k, fst (fst (run ptree TC g tbl regex_opts buf None lexer tree_term_f tree_err_f tree_rule_f (n + S k) [])) = Accept pt.
  Proof.
    intros Ht Hm Ha.
    assert (HJ0 : fwd_inv (init []) toks).
    { split; [split; reflexivity|]. apply stands_init, ptoks_stream; [assumption|lia]. }
    destruct (fwd_msteps n (init []) toks _ HJ0 Hm) as (sf & toksf & Hrun & HJf & Hc & Hlv).
    inversion Hc as [[Hcs Hvs Hws]]. cbn [init ps_values rev flat_map app] in Hlv.
    destruct toksf; [|discriminate]. rewrite app_nil_r in Hlv.
    rewrite Hcs, Hvs in Ha. change (@nil nat) with (map tok_term []) in Ha.
    pose proof (fwd_step sf [] HJf) as Hst. rewrite Ha in Hst. destruct Hst as (s2 & ev & pt & rest & Hst & Hstrip & Hrev).
    destruct (ps_values sf) as [|p0 [|p1 vs]] eqn:Evs; try discriminate.
    cbn in Hrev. inversion Hrev; subst p0 rest.
    exists pt. split; [assumption|]. split; [cbn in Hlv; rewrite app_nil_r in Hlv; exact Hlv|].
    intros k. unfold run. destruct (Hrun (S k) []) as (out' & ->). cbn [run_from]. rewrite Hst. reflexivity.
  Qed.
End Fwd.
