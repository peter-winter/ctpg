(* Basic facts about item equality, membership in item lists, add_item and first-occurrence de-duplication;
   the two values of [sr_choice]. *)
Require Import Ctpg.Base.Prelude Ctpg.Proofs.ListFacts Ctpg.Model.LRGen Ctpg.Spec.Conflict Ctpg.Proofs.LRReflect.

Lemma item_eqb_refl : forall a, item_eqb a a = true.
Proof. intros a; apply item_eqb_eq; reflexivity. Qed.

Lemma item_eqb_neq : forall a b, item_eqb a b = false <-> a <> b.
Proof.
  intros a b. split.
  - intros H E. apply item_eqb_eq in E. congruence.
  - intros H. destruct (item_eqb a b) eqn:E; auto. apply item_eqb_eq in E. contradiction.
Qed.

Lemma item_eqb_sym : forall a b, item_eqb a b = item_eqb b a.
Proof.
  intros a b. destruct (item_eqb a b) eqn:E.
  - apply item_eqb_eq in E. subst. symmetry. apply item_eqb_refl.
  - symmetry. apply item_eqb_neq. apply item_eqb_neq in E. congruence.
Qed.

Lemma mem_item_app : forall x a b, mem_item x (a ++ b) = mem_item x a || mem_item x b.
Proof.
  intros x a b. induction a as [|y a IH]; simpl; auto.
  destruct (item_eqb x y); auto.
Qed.

Lemma same_items_iff : forall a b, same_items a b = true <-> (forall x, In x a <-> In x b).
Proof.
  intros a b. unfold same_items, subset_items. rewrite andb_true_iff, !forallb_forall. split.
  - intros [H1 H2] x. split; intros Hx; apply mem_item_In; auto.
  - intros H. split; intros x Hx; apply mem_item_In; apply H; exact Hx.
Qed.

Lemma dedup_first_filter : forall (p : item -> bool) l,
  dedup_first (filter p l) = filter p (dedup_first l).
Proof.
  intros p l. induction l as [|x l IH]; simpl; auto.
  destruct (p x) eqn:P; simpl.
  - f_equal. rewrite IH. apply filter_comm.
  - rewrite IH. rewrite filter_comm. symmetry.
    rewrite filter_filter. apply filter_ext_in. intros y _.
    destruct (p y) eqn:Py; simpl; auto.
    destruct (item_eqb x y) eqn:E; auto. apply item_eqb_eq in E. congruence.
Qed.

Lemma dedup_first_In : forall x l, In x (dedup_first l) <-> In x l.
Proof.
  intros x l. induction l as [|y l IH]; simpl; [tauto|].
  rewrite filter_In, IH. split.
  - intros [H | [H _]]; auto.
  - intros [H | H]; auto.
    destruct (item_eqb y x) eqn:E; [left; apply item_eqb_eq; exact E|].
    right. split; [assumption | reflexivity].
Qed.

Lemma dedup_first_NoDup : forall l, NoDup (dedup_first l).
Proof.
  induction l as [|y l IH]; simpl; constructor.
  - rewrite filter_In. intros [_ H]. rewrite item_eqb_refl in H. discriminate.
  - apply NoDup_filter. assumption.
Qed.

Lemma dedup_first_NoDup_id : forall l, NoDup l -> dedup_first l = l.
Proof.
  induction l as [|y l IH]; simpl; intros H; auto.
  inversion H; subst. rewrite IH by assumption. f_equal.
  apply filter_true_id. intros x Hx. apply negb_true_iff. apply item_eqb_neq.
  intros ->. contradiction.
Qed.

(* the C++ push-if-absent loop adds nothing but the new elements, and keeps what was there, in order *)
Lemma fold_add_item : forall l acc,
  fold_left add_item l acc = acc ++ dedup_first (filter (fun y => negb (mem_item y acc)) l).
Proof.
  induction l as [|x l IH]; intros acc; simpl.
  - rewrite app_nil_r. reflexivity.
  - unfold add_item at 2. destruct (mem_item x acc) eqn:M; simpl.
    + apply IH.
    + rewrite IH. rewrite <- app_assoc. simpl. f_equal. f_equal.
      rewrite <- dedup_first_filter. f_equal.
      rewrite filter_filter. apply filter_ext_in. intros y _.
      rewrite mem_item_app. simpl. rewrite (item_eqb_sym y x).
      destruct (item_eqb x y), (mem_item y acc); reflexivity.
Qed.

Lemma fold_add_item_nil : forall l, fold_left add_item l [] = dedup_first l.
Proof.
  intros l. rewrite fold_add_item. simpl. f_equal.
  induction l; simpl; [|f_equal]; auto.
Qed.

Lemma fold_add_item_In : forall l acc x, In x (fold_left add_item l acc) <-> In x acc \/ In x l.
Proof.
  intros l acc x. rewrite fold_add_item, in_app_iff, dedup_first_In, filter_In. split.
  - intros [H | [H _]]; auto.
  - intros [H | H]; auto.
    destruct (mem_item x acc) eqn:M.
    + left. apply mem_item_In. assumption.
    + right. split; auto.
Qed.

Lemma sr_choice_cases g r t : sr_choice g r t = KReduce \/ sr_choice g r t = KShift.
Proof. unfold sr_choice. destruct (Z.compare _ _); auto. destruct (rule_assoc_of g r); auto. Qed.
