(* The pattern parser: the LR driver run with the hand-written scanner and the table generated for the pattern grammar.
   The scanner is an admissible lexer oracle; the pattern parse never crashes and never throws; whatever it gives a
   meaning to is a well-formed token string of the pattern grammar. *)
Require Import Ctpg.Base.Prelude Ctpg.Proofs.ListFacts Ctpg.Model.Grammar Ctpg.Model.LRGen Ctpg.Model.Driver
               Ctpg.Model.RegexFront Ctpg.Spec.Cfg Ctpg.Spec.Eval Ctpg.Valid.LRValid Ctpg.Valid.LRSafe
               Ctpg.Proofs.LRMachine Ctpg.Proofs.LRValidFacts Ctpg.Proofs.LRSound Ctpg.Proofs.DriverBasics
               Ctpg.Proofs.DriverEval Ctpg.Proofs.DriverStream Ctpg.Proofs.StreamSim Ctpg.Proofs.SafeDriver Ctpg.Proofs.CapFormula
               Ctpg.Proofs.PatternLex.

Definition regex_gen_all : option (grammar * list items * table) :=
  match analyze regex_raw_grammar with
  | Some g => match gen g with
              | inl (sts, tb) => Some (g, map st_all sts, tb)
              | inr _ => None
              end
  | None => None
  end.

Definition regex_g : grammar :=
  ltac:(let v := eval vm_compute in regex_gen_all in match v with Some (?g, _, _) => exact g end).
Definition regex_sts : list items :=
  ltac:(let v := eval vm_compute in regex_gen_all in match v with Some (_, ?s, _) => exact s end).
Definition regex_tb : table :=
  ltac:(let v := eval vm_compute in regex_gen_all in match v with Some (_, _, ?t) => exact t end).

(* The cast keeps the proof term as small as the statement; a proof by  vm_compute  holds the normal form of both
   sides, which is type-checked once more. *)
Lemma regex_gen_all_eq : regex_gen_all = Some (regex_g, regex_sts, regex_tb).
Proof. exact (eq_refl (Some (regex_g, regex_sts, regex_tb)) <: regex_gen_all = Some (regex_g, regex_sts, regex_tb)). Qed.

(* the three literals are an output of the generator: what Proofs/GenResolved.v and Proofs/GenTermChecks.v prove of
   every output holds of them (PatternCompleteTrees.v) *)
Lemma gen_all_inv g sts tb : regex_gen_all = Some (g, sts, tb) ->
  exists sts0, analyze regex_raw_grammar = Some g /\ gen g = inl (sts0, tb) /\ map st_all sts0 = sts.
Proof.
  unfold regex_gen_all. destruct (analyze regex_raw_grammar) as [g0|]; [|discriminate].
  destruct (gen g0) as [[s t]|] eqn:Eg; [|discriminate]. intros [= <- <- <-]. eauto.
Qed.

Lemma regex_generated :
  exists sts, analyze regex_raw_grammar = Some regex_g /\ gen regex_g = inl (sts, regex_tb) /\ map st_all sts = regex_sts.
Proof. exact (gen_all_inv _ _ _ regex_gen_all_eq). Qed.

(* regex_grammar_table is regex_gen_all without the item sets; the proof evaluates neither.
   The goal is unfolded, never a hypothesis: asked to convert a constant with its unfolded body, the kernel unfolds
   the expected side first and finds the two alike; the other way round it evaluates  analyze regex_raw_grammar. *)
Lemma regex_grammar_table_gen_all :
  regex_grammar_table = option_map (fun x => (fst (fst x), snd x)) regex_gen_all.
Proof.
  unfold regex_grammar_table, regex_gen_all.
  destruct (analyze regex_raw_grammar) as [g|]; [|reflexivity].
  destruct (gen g) as [[sts tb]|]; reflexivity.
Qed.

Lemma regex_grammar_table_eq : regex_grammar_table = Some (regex_g, regex_tb).
Proof. rewrite regex_grammar_table_gen_all, regex_gen_all_eq. reflexivity. Qed.

Lemma parse_pattern_eq pat : parse_pattern pat = parse_pattern_with regex_g regex_tb pat.
Proof. unfold parse_pattern. rewrite regex_grammar_table_eq. reflexivity. Qed.

Lemma regex_eof_idx : eof_idx regex_g = 10.
Proof. vm_compute. reflexivity. Qed.

Lemma regex_safe_ok : safe_ok regex_g regex_sts regex_tb = true.
Proof. vm_compute. reflexivity. Qed.

Lemma safe_ok_validate_sound g sts tbl : safe_ok g sts tbl = true -> validate_sound g sts tbl = true.
Proof.
  unfold safe_ok, validate_sound. intros H.
  apply andb_true_iff in H as [H _]. apply andb_true_iff in H as [H _]. exact H.
Qed.

Lemma regex_validate_sound : validate_sound regex_g regex_sts regex_tb = true.
Proof. exact (safe_ok_validate_sound _ _ _ regex_safe_ok). Qed.

Lemma regex_no_error_symbol : no_error_symbol regex_g regex_tb = true.
Proof. vm_compute. reflexivity. Qed.

(* the full validator does not hold: the table has the resolved shift/reduce conflict of alt -> alt '|' alt
   (state 23, found by evaluating the check state by state, shifts '|' where the item  alt -> alt '|' alt .  asks for
   the reduction) *)
Lemma regex_validate_full : validate regex_g regex_sts regex_tb = false.
Proof. apply (validate_false_at _ _ _ 23); vm_compute; reflexivity. Qed.

(* 10: the scanner delivers the terms 0 .. 9 (digit, primary, the eight special characters) *)
Theorem regex_lexer_ok_for g : 10 <= eof_idx g -> lexer_ok_for g regex_lexer.
Proof. intros Hg v sp rest t len H. apply regex_lexer_bounds in H. lia. Qed.

Theorem regex_lexer_ok_on g buf : 10 <= eof_idx g -> lexer_ok_on g buf regex_lexer.
Proof. intros Hg. apply lexer_ok_for_on. apply regex_lexer_ok_for. exact Hg. Qed.

(* the run underlying parse_pattern_with, for any fuel *)
Definition pattern_run (g : grammar) (tb : table) (pat : list nat) (fuel : nat) : result rval :=
  fst (fst (run rval unit g tb regex_opts pat None regex_lexer (regex_term_f pat) (fun _ => VTok) regex_rule_f fuel tt)).

Lemma parse_pattern_with_run g tb pat :
  parse_pattern_with g tb pat =
  match pattern_run g tb pat (10 * length pat + 20) with Accept (VRe r) => Some r | _ => None end.
Proof. reflexivity. Qed.

Theorem pattern_parse_no_crash g tb pat fuel cr :
  regex_grammar_table = Some (g, tb) -> pattern_run g tb pat fuel <> Crash cr.
Proof.
  rewrite regex_grammar_table_eq. intros H. apply some_eq, pair_equal_spec in H as [<- <-]. unfold pattern_run.
  apply (no_crash_safe_ok rval unit regex_g regex_sts regex_tb); [exact regex_safe_ok|].
  apply regex_lexer_ok_on. rewrite regex_eof_idx. lia.
Qed.

Theorem pattern_parse_no_throw g tb pat fuel : pattern_run g tb pat fuel <> Throw.
Proof. unfold pattern_run. apply run_unbounded_no_throw. Qed.

Corollary pattern_parse_outcomes g tb pat fuel :
  regex_grammar_table = Some (g, tb) ->
  (exists v, pattern_run g tb pat fuel = Accept v) \/ pattern_run g tb pat fuel = Reject \/
  pattern_run g tb pat fuel = OutOfFuel.
Proof.
  intros H. pose proof (pattern_parse_no_crash g tb pat fuel) as Hc. pose proof (pattern_parse_no_throw g tb pat fuel) as Ht.
  destruct (pattern_run g tb pat fuel) as [v| |c| |]; eauto.
  - exfalso. exact (Hc c H eq_refl).
  - exfalso. exact (Ht eq_refl).
Qed.

(* a check of every cell of a table, with the state and the column it stands in; it walks the rows and cells
   themselves: over [seq] and [cell_at] the kernel takes several times as long to evaluate a check of the pattern table *)
Fixpoint forallbi {A} (f : nat -> A -> bool) (i : nat) (l : list A) : bool :=
  match l with
  | [] => true
  | x :: l' => f i x && forallbi f (S i) l'
  end.

Lemma forallbi_nth {A} (f : nat -> A -> bool) l : forall i k x,
  forallbi f i l = true -> nth_error l k = Some x -> f (i + k) x = true.
Proof.
  induction l as [|y l IH]; intros i k x H Hk; [destruct k; discriminate|].
  cbn [forallbi] in H. apply andb_true_iff in H. destruct H as [Hy Hl]. destruct k as [|k]; cbn [nth_error] in Hk.
  - inversion Hk; subst y. rewrite Nat.add_0_r. exact Hy.
  - rewrite Nat.add_succ_r. exact (IH (S i) k x Hl Hk).
Qed.

Definition cells_forallb (f : nat -> nat -> entry -> bool) (tbl : table) : bool :=
  forallbi (fun st row => forallbi (f st) 0 row) 0 tbl.

Lemma cells_forallb_cell f tbl : cells_forallb f tbl = true -> forall st c e, cell tbl st c = inl e -> f st c e = true.
Proof.
  intros H st c e (row & E1 & E2)%cell_inl. exact (forallbi_nth _ _ 0 c e (forallbi_nth _ _ 0 st row H E1) E2).
Qed.

(* no shift-error / reduce-reduce cell anywhere, success only in the <eof> column *)
Definition plain_cellb (g : grammar) (c : nat) (e : entry) : bool :=
  match e_kind e with
  | KShiftErr | KRR => false
  | KSuccess => Nat.eqb c (nterm_count g + eof_idx g)
  | _ => true
  end.

Definition tok_term (tk : nat * nat * nat) : nat := fst (fst tk).

(* a parse tree read as a derivation tree *)
Fixpoint strip (g : grammar) (t : ptree) : tree :=
  match t with
  | PLeaf a _ _ _ => Leaf a
  | PErr _ => Leaf (err_idx g)
  | PNode r ch => Node r (map (strip g) ch)
  end.

Section PatSim.
  Variable g : grammar.
  Variable tbl : table.
  Variable buf : list nat.
  Variable lexer : bool -> spoint -> list nat -> list lex_event * option (nat * nat).
  (* the verdict does not depend on the source point *)
  Hypothesis lexer_sp : forall v p q rest, snd (lexer v p rest) = snd (lexer v q rest).
  Hypothesis Hplain : forall st c e, cell tbl st c = inl e -> plain_cellb g c e = true.
  Hypothesis Herr : err_col_empty g tbl.

  Notation TC := (list (nat * list ptree)).
  Notation prun := (run_from ptree TC g tbl regex_opts buf None lexer tree_term_f tree_err_f tree_rule_f).

  Definition lexv (rest : list nat) : option (nat * nat) := snd (lexer false sp0 rest).

  (* the term sequence the scanner defines from offset pos to the end of the buffer *)
  Inductive toks_from : nat -> list nat -> Prop :=
  | TfEof pos : skipn pos buf = [] -> toks_from pos []
  | TfTok pos c rest t len ws : skipn pos buf = c :: rest -> lexv (c :: rest) = Some (t, len) ->
                                toks_from (pos + len) ws -> toks_from pos (t :: ws).

  (* it is the token stream of Proofs/DriverStream.v, when that ends with the input *)
  Lemma stream_toks_from sp pos toks fl : stream regex_opts buf lexer sp pos toks fl -> fl = true ->
    toks_from pos (terms toks).
  Proof.
    induction 1 as [sp pos _ Hsk|sp pos c rest Hsk Hl|sp pos c rest t len toks fl Hsk Hl _ _ _ IH]; intros Hfl; [|discriminate|];
      cbn [wsk regex_opts o_skip_ws o_verbose] in *; rewrite !Nat.add_0_r in *.
    - now apply TfEof.
    - eapply TfTok; eauto. unfold lexv. now rewrite (lexer_sp false sp0 (after_ws regex_opts buf sp pos)).
  Qed.

  Lemma plain_not_bad c : mstep g tbl c <> Bad.
  Proof.
    destruct c as [[ss trs] rest]. unfold mstep. destruct ss as [|cur ss]; [discriminate|].
    destruct (cell tbl cur (nterm_count g + look g rest)) as [e|] eqn:Ec; [|discriminate].
    apply Hplain in Ec. unfold plain_cellb in Ec. destruct (e_kind e); try discriminate.
    - destruct (rev trs); discriminate.
    - destruct (e_arg e); discriminate.
    - destruct (e_arg e) as [r|]; [|discriminate]. pose proof (mreduce_outcome g tbl (cur :: ss) trs rest r) as H.
      intros E. now rewrite E in H.
  Qed.

  (* what the driver accepts, the machine accepts on the terms of the scanner's stream, which ends with the input *)
  Lemma psim_sound fuel toks fl out pt :
    stream regex_opts buf lexer sp0 0 toks fl -> Forall (fun a => a < eof_idx g) (terms toks) ->
    fst (fst (prun fuel (init []) out)) = Accept pt ->
    fl = true /\ exists n, mrun g tbl n ([0], [], terms toks) = Some (strip g pt).
  Proof.
    intros Hst Hok Hrun.
    destruct (sim_sound ptree TC g tbl regex_opts buf lexer tree_term_f tree_err_f tree_rule_f (strip g) (fun _ _ _ _ => eq_refl)
                (fun _ _ _ => eq_refl) fl (fun _ => True) (fun c _ => plain_not_bad c) (fun _ _ _ _ => I) Herr fuel (init []) out pt toks
                (conj eq_refl eq_refl) (stands_init _ _ _ _ _ _ [] _ _ Hst) I Hrun)
      as (n & cs & trs & toks' & Hms & Hacc & Hin & Hfl).
    assert (E : toks' = []).
    { (* acceptance: the lookahead is <eof>, which the scanner never delivers *)
      destruct (mstep_acc _ _ _ _ _ _ Hacc) as (cur & ss0 & e & _ & Hcell & Hk & _).
      apply Hplain in Hcell. unfold plain_cellb in Hcell. rewrite Hk in Hcell. apply Nat.eqb_eq, Nat.add_cancel_l in Hcell.
      destruct toks' as [|tk toks']; [reflexivity|exfalso]. cbn in Hcell.
      unfold terms in Hok. rewrite Forall_map, Forall_forall in Hok. specialize (Hok tk (Hin _ (or_introl eq_refl))). lia. }
    split; [exact (Hfl E)|]. exists (n + 1). eapply msteps_mrun; [exact Hms|]. cbn [mrun]. now rewrite Hacc.
  Qed.
End PatSim.

(* the control path does not depend on the algebra: every instance ends as the parse-tree instance does *)
Lemma run_res_shape (V C : Type) g tbl opts buf cap lexer
      (term_f : nat -> nat -> nat -> spoint -> V) (err_f : spoint -> V) (rule_f : nat -> C -> list V -> C * V) c0 fuel :
  res_shape (fst (fst (run ptree _ g tbl opts buf cap lexer tree_term_f tree_err_f tree_rule_f fuel []))) =
  res_shape (fst (fst (run V C g tbl opts buf cap lexer term_f err_f rule_f fuel c0))).
Proof.
  pose proof (run_same_path V C g tbl opts buf cap lexer term_f err_f rule_f c0 fuel) as Hp.
  destruct (run ptree _ g tbl opts buf cap lexer tree_term_f tree_err_f tree_rule_f fuel []) as [[rT sT] outT].
  destruct (run V C g tbl opts buf cap lexer term_f err_f rule_f fuel c0) as [[rA sA] outA]. exact (proj1 Hp).
Qed.

Lemma regex_plain_table st c e : cell regex_tb st c = inl e -> plain_cellb regex_g c e = true.
Proof. apply (cells_forallb_cell (fun _ => plain_cellb regex_g)). vm_compute. reflexivity. Qed.

Lemma regex_err_col : err_col_empty regex_g regex_tb.
Proof. exact (no_error_symbol_cell _ _ regex_no_error_symbol). Qed.

Lemma regex_lexer_sp v p q rest : snd (regex_lexer v p rest) = snd (regex_lexer v q rest).
Proof. rewrite !regex_lexer_snd. reflexivity. Qed.

Lemma regex_lexer_rng v p rest t len : snd (regex_lexer v p rest) = Some (t, len) ->
  0 < len /\ len <= length rest /\ t < eof_idx regex_g.
Proof. intros H. apply regex_lexer_bounds in H. rewrite regex_eof_idx. exact H. Qed.

Lemma regex_stream buf : exists toks fl,
  stream regex_opts buf regex_lexer sp0 0 toks fl /\ Forall (fun a => a < eof_idx regex_g) (terms toks) /\
  length toks <= length buf.
Proof.
  destruct (stream_exists regex_opts buf regex_lexer (fun a => a < eof_idx regex_g)) with (m := length buf) (sp := sp0) (pos := 0)
    as (toks & fl & Hst & Hok); [|lia|lia|].
  - intros v p k t len H. apply regex_lexer_rng in H. tauto.
  - exists toks, fl. split; [exact Hst|]. split; [exact Hok|]. exact (stream_length _ _ _ _ _ _ _ Hst).
Qed.

(* for any fuel and any accepted value: the whole pattern was scanned (the token stream ends with <eof> at the end
   of the pattern: no unscannable byte anywhere) and its term sequence is derivable in the pattern grammar *)
Theorem pattern_accept_wellformed pat fuel v :
  pattern_run regex_g regex_tb pat fuel = Accept v ->
  exists toks,
    (forall F, length pat < F -> tokenize F regex_opts regex_lexer pat 0 = (toks, TokEof (length pat))) /\
    derives regex_g (map tok_term toks) /\
    toks_from pat regex_lexer 0 (map tok_term toks).
Proof.
  intros Hacc. unfold pattern_run in Hacc.
  pose proof (run_res_shape _ _ regex_g regex_tb regex_opts pat None regex_lexer (regex_term_f pat) (fun _ => VTok) regex_rule_f tt fuel) as Hs.
  rewrite Hacc in Hs.
  destruct (fst (fst (run ptree _ regex_g regex_tb regex_opts pat None regex_lexer tree_term_f tree_err_f tree_rule_f fuel [])))
    as [pt| | | |] eqn:Hpt; try discriminate Hs. clear Hs.
  destruct (regex_stream pat) as (toks & fl & Hst & Hok & Hlen).
  destruct (psim_sound regex_g regex_tb pat regex_lexer regex_plain_table regex_err_col
              fuel toks fl [] pt Hst Hok Hpt) as (-> & n & Hm).
  exists toks. change (map tok_term toks) with (terms toks). split; [|split].
  - intros F HF.
    destruct (stream_tokenize _ _ _ _ _ _ _ Hst (or_introl regex_lexer_sp) F ltac:(lia)) as (e & ->).
    reflexivity.
  - exists (strip regex_g pt). apply (lr_sound regex_g regex_sts regex_tb _ _ regex_validate_sound regex_no_error_symbol Hok).
    eapply mrun_accepts. exact Hm.
  - exact (stream_toks_from pat regex_lexer regex_lexer_sp _ _ _ _ Hst eq_refl).
Qed.

(* the same for parse_pattern, with the scanner's token sequence: what the rejection corollaries argue about *)
Lemma parse_pattern_toks pat r :
  parse_pattern pat = Some r ->
  exists toks,
    (forall F, length pat < F -> tokenize F regex_opts regex_lexer pat 0 = (toks, TokEof (length pat))) /\
    derives regex_g (map tok_term toks) /\
    toks_from pat regex_lexer 0 (map tok_term toks).
Proof.
  rewrite parse_pattern_eq, parse_pattern_with_run. intros H.
  destruct (pattern_run regex_g regex_tb pat (10 * length pat + 20)) as [v| | | |] eqn:E; try discriminate.
  exact (pattern_accept_wellformed pat _ v E).
Qed.

Theorem parse_pattern_wellformed pat r :
  parse_pattern pat = Some r ->
  exists toks,
    (forall F, length pat < F -> tokenize F regex_opts regex_lexer pat 0 = (toks, TokEof (length pat))) /\
    derives regex_g (map tok_term toks).
Proof. intros H. destruct (parse_pattern_toks pat r H) as (toks & H1 & H2 & _). eauto. Qed.

Lemma unscannable_rejected pat : (forall ws, ~ toks_from pat regex_lexer 0 ws) -> parse_pattern pat = None.
Proof.
  intros Hno. destruct (parse_pattern pat) as [r|] eqn:E; [|reflexivity].
  destruct (parse_pattern_toks pat r E) as (toks & _ & _ & Htf). destruct (Hno _ Htf).
Qed.

(* in the form with the grammar/table as delivered by regex_grammar_table *)
Corollary parse_pattern_wellformed' g tb pat r :
  regex_grammar_table = Some (g, tb) -> parse_pattern_with g tb pat = Some r ->
  exists toks,
    (forall F, length pat < F -> tokenize F regex_opts regex_lexer pat 0 = (toks, TokEof (length pat))) /\
    derives g (map tok_term toks).
Proof.
  rewrite regex_grammar_table_eq. intros H. apply some_eq, pair_equal_spec in H as [<- <-]. rewrite <- parse_pattern_eq.
  apply parse_pattern_wellformed.
Qed.


Lemma lexv_lex_at c rest t len :
  lexv regex_lexer (c :: rest) = Some (t, len) -> lex_at (c :: rest) 0 = Tok t len.
Proof. unfold lexv. apply regex_lexer_inv. Qed.

Lemma toks_from_printable pat pos ws : toks_from pat regex_lexer pos ws ->
  forall k, pos <= k < length pat -> is_printable (nth k pat 0) = true.
Proof.
  induction 1 as [pos Hsk|pos c rest t len ws Hsk Hl Hr IH]; intros k Hk.
  - apply skipn_nil_ge in Hsk. lia.
  - apply lexv_lex_at in Hl.
    destruct (Nat.lt_ge_cases k (pos + len)) as [Hlt|Hge]; [|apply IH; lia].
    pose proof (lexeme_printable (c :: rest) 0 t len Hl (k - pos) ltac:(lia)) as Hp.
    unfold pr in Hp. rewrite <- Hsk, nth_skipn in Hp. replace (pos + (k - pos)) with k in Hp by lia. exact Hp.
Qed.

(* a raw non-printable byte anywhere (also >= 128, inside a set, after a backslash) makes the pattern unacceptable *)
Theorem nonprintable_rejected pat c : In c pat -> is_printable c = false -> parse_pattern pat = None.
Proof.
  intros Hin Hnp. apply unscannable_rejected. intros ws Htf.
  destruct (In_nth _ _ 0 Hin) as (k & Hk & Hnth).
  pose proof (toks_from_printable pat 0 _ Htf k ltac:(lia)) as Hp. rewrite Hnth in Hp. congruence.
Qed.

Theorem empty_pattern_rejected : parse_pattern [] = None.
Proof. rewrite parse_pattern_eq. reflexivity. Qed.

(* an opening bracket at a token boundary (nothing but one-byte tokens before it) with no closing bracket after it *)
Lemma toks_from_unterminated pre rest pos ws :
  (forall c, In c pre -> c <> 92 /\ c <> 91) -> ~ In 93 rest ->
  toks_from (pre ++ 91 :: rest) regex_lexer pos ws -> pos <= length pre -> False.
Proof.
  intros Hpre Hrest. set (pat := pre ++ 91 :: rest).
  assert (Hlen : length pat = length pre + S (length rest)) by (unfold pat; rewrite app_length; reflexivity).
  induction 1 as [pos Hsk|pos c rest' t len ws Hsk Hl Hr IH]; intros Hpos.
  - apply skipn_nil_ge in Hsk. fold pat in Hsk. lia.
  - apply lexv_lex_at in Hl. fold pat in Hsk.
    pose proof (lex_at_in_range _ _ _ _ Hl) as (Hl1 & Hl2 & _). cbn [Nat.add] in Hl2.
    assert (Hlr : length (c :: rest') = length pat - pos) by (rewrite <- Hsk; apply skipn_length).
    assert (Hc : pr (c :: rest') 0 = nth pos pat 0).
    { unfold pr. rewrite <- Hsk, nth_skipn. f_equal. lia. }
    destruct (Nat.eq_dec pos (length pre)) as [Heq|Hne].
    + assert (H91 : pr (c :: rest') 0 = 91).
      { rewrite Hc. unfold pat. rewrite app_nth2 by lia. rewrite Heq, Nat.sub_diag. reflexivity. }
      destruct (lexeme_set_closed _ _ _ _ Hl H91) as (H2 & H93). cbn [Nat.add] in H93.
      unfold pr in H93. rewrite <- Hsk, nth_skipn in H93. unfold pat in H93.
      rewrite app_nth2 in H93 by lia.
      replace (pos + (len - 1) - length pre) with (S (len - 2)) in H93 by lia. cbn [nth] in H93.
      apply Hrest. rewrite <- H93. apply nth_In. lia.
    + assert (Hin : In (nth pos pat 0) pre).
      { unfold pat. rewrite app_nth1 by lia. apply nth_In. lia. }
      destruct (Hpre _ Hin) as [H92 H91]. rewrite <- Hc in H92, H91.
      pose proof (lexeme_single _ _ _ _ Hl H92 H91) as H1. subst len. apply IH. lia.
Qed.

Theorem unterminated_set_rejected pre rest :
  (forall c, In c pre -> c <> 92 /\ c <> 91) -> ~ In 93 rest -> parse_pattern (pre ++ 91 :: rest) = None.
Proof.
  intros Hpre Hrest. apply unscannable_rejected. intros ws Htf.
  exact (toks_from_unterminated pre rest 0 _ Hpre Hrest Htf (Nat.le_0_l _)).
Qed.

Corollary unterminated_set_rejected0 rest : ~ In 93 rest -> parse_pattern (91 :: rest) = None.
Proof. intros H. apply (unterminated_set_rejected [] rest); [intros c []|exact H]. Qed.

(* non-vacuity: the rejected samples fall under the corollaries, the neighbouring well-formed ones are accepted *)
Definition accepted (pat : list nat) : bool := match parse_pattern pat with Some _ => true | None => false end.

(* rewriting with this before a sample is evaluated leaves the driver on the literal table to run, without the
   generator inside regex_grammar_table *)
Lemma accepted_eq pat :
  accepted pat = match parse_pattern_with regex_g regex_tb pat with Some _ => true | None => false end.
Proof. unfold accepted. rewrite parse_pattern_eq. reflexivity. Qed.

Example nonprintable_samples :
  map accepted [[97; 200]; [200]; [97; 0]; [97; 127]; [91; 97; 200; 93]; [91; 97; 45; 200; 93]; [92; 200]; [92; 120; 200];
                [91; 92; 200; 93]; [91; 92; 120; 52; 200; 93]]
  = [false; false; false; false; false; false; false; false; false; false] /\
  map accepted [[97]; [91; 97; 98; 93]; [91; 97; 45; 122; 93]; [92; 46]; [92; 120; 52; 49]; [91; 92; 93; 93]; [91; 92; 120; 52; 49; 93]]
  = [true; true; true; true; true; true; true].
Proof. split; rewrite (map_ext _ _ accepted_eq); vm_compute; reflexivity. Qed.

Example unterminated_samples :
  map accepted [[91]; [91; 97]; [91; 94]; [91; 94; 97; 45; 98]; [97; 91; 98]; [97; 42; 91; 98; 45]; [91; 97; 92; 93]]
  = [false; false; false; false; false; false; false] /\
  map accepted [[91; 93]; [91; 97; 93]; [91; 94; 93]; [91; 94; 97; 45; 98; 93]; [97; 91; 98; 93]; [97; 42; 91; 98; 45; 99; 93]]
  = [true; true; true; true; true; true].
Proof. split; rewrite (map_ext _ _ accepted_eq); vm_compute; reflexivity. Qed.

(* the token stream of an accepted pattern, computed: a ( b | [c-e] ) * *)
Example wellformed_sample :
  tokenize 20 regex_opts regex_lexer [97; 40; 98; 124; 91; 99; 45; 101; 93; 41; 42] 0 =
  ([(1, 0, 1); (6, 1, 1); (1, 2, 1); (5, 3, 1); (1, 4, 5); (7, 9, 1); (2, 10, 1)], TokEof 11) /\
  accepted [97; 40; 98; 124; 91; 99; 45; 101; 93; 41; 42] = true.
Proof. rewrite accepted_eq. vm_compute. split; reflexivity. Qed.

Print Assumptions regex_lexer_ok_on.
Print Assumptions pattern_parse_no_crash.
Print Assumptions pattern_parse_no_throw.
Print Assumptions pattern_accept_wellformed.
Print Assumptions parse_pattern_wellformed.
Print Assumptions nonprintable_rejected.
Print Assumptions empty_pattern_rejected.
Print Assumptions unterminated_set_rejected.
