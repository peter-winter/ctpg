(* The pattern front end of the model (Model/RegexFront.v) classifies bytes and decodes hex escapes with unsigned comparisons on
   0..255; the real utils functions work on signed chars (Model/Utils.v mirrors that, tied to the real code exhaustively). They agree on
   every byte: the front end's classes are literally the byte ranges that Proofs/UtilsCorrect.v shows the signed-char classes to be,
   and on a hex digit both decoders take the digit's value. *)
From Ctpg Require Import Base.Prelude Model.RegexFront Proofs.UtilsCorrect.
From Coq Require Import List Bool Lia.

Theorem front_end_classes_are_the_signed_char_classes : forall b, b < 256 ->
  RegexFront.is_printable b = Utils.is_printable b /\ RegexFront.is_dec_digit b = Utils.is_dec_digit b /\ RegexFront.is_hex_digit b = Utils.is_hex_digit b.
Proof.
  intros b Hb. rewrite (is_printable_spec b Hb), (is_dec_digit_spec b Hb), (is_hex_digit_spec b Hb). repeat split.
Qed.

Lemma front_hex_digit : forall d, d < 256 -> RegexFront.is_hex_digit d = true -> exists v, hex_value d = Some v.
Proof.
  intros d Hd X.
  rewrite (proj2 (proj2 (front_end_classes_are_the_signed_char_classes d Hd))), (hex_value_is_hex_digit d Hd) in X.
  destruct (hex_value d) as [v|]; [exists v; reflexivity | discriminate].
Qed.

(* the front end's digit value: its tests are those of the real hex_dd on a byte below 128 (hex_dd_spec) *)
Lemma front_hex_val : forall d v, hex_value d = Some v -> RegexFront.hex_val d = v.
Proof.
  intros d v H. destruct (hex_dd_value d v H) as [_ E]. pose proof (hex_value_cases d v H) as C.
  rewrite hex_dd_spec in E by lia. unfold RegexFront.hex_val.
  destruct (_ && _); [lia|]. destruct (_ && _); lia.
Qed.

(* \xHH (and \xH, decoded as the pair ('0', H)) *)
Theorem front_end_hex_decoding_is_the_real_one : forall d1 d2, d1 < 256 -> d2 < 256 ->
  RegexFront.is_hex_digit d1 = true -> RegexFront.is_hex_digit d2 = true ->
  RegexFront.hex_digits_to_char d1 d2 = Utils.hex_digits_to_char d1 d2.
Proof.
  intros d1 d2 H1 H2 X1 X2.
  destruct (front_hex_digit d1 H1 X1) as [v1 V1]. destruct (front_hex_digit d2 H2 X2) as [v2 V2].
  rewrite (hex_digits_to_char_spec d1 d2 v1 v2 V1 V2). unfold RegexFront.hex_digits_to_char.
  rewrite (front_hex_val d1 v1 V1), (front_hex_val d2 v2 V2).
  pose proof (hex_value_cases d1 v1 V1). pose proof (hex_value_cases d2 v2 V2). rewrite Nat.mod_small; lia.
Qed.

Print Assumptions front_end_classes_are_the_signed_char_classes.
Print Assumptions front_end_hex_decoding_is_the_real_one.
