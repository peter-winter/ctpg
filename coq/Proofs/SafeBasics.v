(* The two classes of cell kinds the table checks of Proofs/SafeDriver.v speak of, and [modes_inv]: recovery mode and
   consume mode exclude each other, for every table (Proofs/RecoveryRefines.v and Proofs/SafeTerm.v need it). *)
Require Import Ctpg.Base.Prelude Ctpg.Model.Grammar Ctpg.Model.LRGen Ctpg.Model.Driver Ctpg.Proofs.DriverBasics Ctpg.Proofs.DriverIter.

Section SafeBasics.
  Variables V C : Type.
  Variable g : grammar.
  Variable tbl : table.
  Variable opts : options.
  Variable buf : list nat.
  Variable cap : option nat.
  Variable lexer : bool -> spoint -> list nat -> list lex_event * option (nat * nat).
  Variable term_f : nat -> nat -> nat -> spoint -> V.
  Variable err_f : spoint -> V.
  Variable rule_f : nat -> C -> list V -> C * V.

  Notation pst := (pstate V C).
  Notation stepx := (step V C g tbl opts buf cap lexer term_f err_f rule_f).

  Definition is_shift_kind (k : kind) : Prop := k = KShift \/ k = KShiftErr.
  Definition is_reduce_kind (k : kind) : Prop := k = KReduce \/ k = KRR.

  Definition modes_inv (s : pst) : Prop := ps_rec s = false \/ ps_cons s = false.

  Lemma step_modes s : modes_inv s -> match fst (stepx s) with inl s' => modes_inv s' | inr (r, s') => True end.
  Proof.
    intros Hm. apply step_moves; cbn [fst]; auto.
    intros cursor cs s1 t ev1 m _ _ Hg _.
    destruct (gct_stacks Hg) as (_ & _ & _ & Hr1 & Hc1). unfold modes_inv in *. rewrite <- Hr1, <- Hc1 in Hm.
    pose proof (perform_modes V C buf term_f err_f rule_f m s1) as H.
    destruct (fst (perform buf term_f err_f rule_f m s1)) as [s'|[r s']]; [|exact I].
    destruct m; injection H as -> ->; auto.
  Qed.
End SafeBasics.
