(* Sanity for Proofs/GenTermChecks.v: on concrete grammars the hypotheses hold by computation, and the facts that
   Proofs/TermViable.v checks by running the validator follow from the general theorems. *)
Require Import Ctpg.Base.Prelude Ctpg.Model.Grammar Ctpg.Model.LRGen Ctpg.Model.Driver Ctpg.Spec.Cfg Ctpg.Spec.LRSpec
               Ctpg.Valid.LRValid Ctpg.Valid.LRProductive Ctpg.Proofs.LRSound Ctpg.Proofs.GenWf
               Ctpg.Proofs.GenCorrect Ctpg.Proofs.ReportViable Ctpg.Proofs.TermViable Ctpg.Proofs.GroupingExamples
               Ctpg.Proofs.GenResolvedExamples Ctpg.Proofs.GenTermChecks.
Require Ctpg.Proofs.LRValidCex Ctpg.Proofs.ReportCex.

(* all hypotheses of gen_decides_language, for the default limits *)
Definition decides_hyps (g : grammar) : bool :=
  grammar_wf g && grammar_wf_extra g && productiveb g &&
  match gen g with
  | inl (sts, tbl) => conflict_free g (length sts) tbl && accept_clean g sts && no_error_symbol g tbl
  | inr _ => false
  end.

Lemma examples_run : forallb decides_hyps [LRValidCex.g1; LRValidCex.g2; ReportCex.g1; ReportCex.g2; g_expr] = true.
Proof. vm_compute. reflexivity. Qed.

Example examples_hyps :
  map decides_hyps [LRValidCex.g1; LRValidCex.g2; ReportCex.g1; ReportCex.g2; g_expr] =
  [true; true; true; true; true].
Proof. apply (map_ext_in _ (fun _ => true)). exact (proj1 (forallb_forall _ _) examples_run). Qed.

Lemma decides_hyps_ok g : decides_hyps g = true ->
  forall w, tokens_ok g w ->
  exists fuel, forall fuel', fuel <= fuel' ->
    (derives g w -> exists t, tree_run g (tbl_of g) w fuel' = Accept t /\ derives_tree g t w) /\
    (~ derives g w -> tree_run g (tbl_of g) w fuel' = Reject).
Proof.
  unfold decides_hyps, tbl_of. intros H.
  destruct (gen g) as [[sts tbl]|] eqn:E; [|rewrite andb_false_r in H; discriminate].
  apply andb_true_iff in H. destruct H as [H H4]. apply andb_true_iff in H. destruct H as [H H3].
  apply andb_true_iff in H. destruct H as [H1 H2].
  apply andb_true_iff in H4. destruct H4 as [H4 H6]. apply andb_true_iff in H4. destruct H4 as [H4 H5].
  intros w Hw. apply (gen_decides_language g (default_limits g) sts tbl); assumption.
Qed.

(* the classical expression grammar: the generated parser decides its language *)
Theorem g_expr_decides : forall w, tokens_ok g_expr w ->
  exists fuel, forall fuel', fuel <= fuel' ->
    (derives g_expr w -> exists t, tree_run g_expr (tbl_of g_expr) w fuel' = Accept t /\ derives_tree g_expr t w) /\
    (~ derives g_expr w -> tree_run g_expr (tbl_of g_expr) w fuel' = Reject).
Proof. apply decides_hyps_ok. apply (proj1 (forallb_forall _ _) examples_run). now do 4 right; left. Qed.

(* the three item-set checks need no hypothesis about conflicts: by the theorem they hold for the operator grammars
   of Proofs/GroupingExamples.v as well, whose tables carry shift/reduce marks (the generator is evaluated on them
   once, in Proofs/GroupingExamples.v) *)
Lemma resolved_hyps_checks g : resolved_hyps g = true ->
  lookahead_generatedb g (sts_of g) = true /\ reduce_lookaheadb g (sts_of g) (tbl_of g) = true /\
  states_nonempty_b (sts_of g) = true.
Proof.
  unfold resolved_hyps, sts_of, tbl_of. intros H. destruct (gen g) as [[sts tbl]|] eqn:E; [|rewrite andb_false_r in H; discriminate].
  apply andb_true_iff in H. destruct H as [H _]. apply andb_true_iff in H. destruct H as [H1 H2].
  apply (gen_term_checks_all g (default_limits g) sts tbl); assumption.
Qed.

Theorem ge_checks_by_theorem :
  lookahead_generatedb ge (sts_of ge) = true /\ reduce_lookaheadb ge (sts_of ge) (tbl_of ge) = true /\
  states_nonempty_b (sts_of ge) = true.
Proof. apply resolved_hyps_checks, resolved_hyps_computed. now do 4 right; left. Qed.

Example conflicting_checks_computed :
  map (fun g => (lookahead_generatedb g (sts_of g), reduce_lookaheadb g (sts_of g) (tbl_of g), states_nonempty_b (sts_of g)))
      [ga; gb; gc; gd; ge] = [(true, true, true); (true, true, true); (true, true, true); (true, true, true); (true, true, true)].
Proof.
  apply (map_ext_in _ (fun _ => (true, true, true))). intros g Hg.
  destruct (resolved_hyps_checks g (resolved_hyps_computed g Hg)) as (-> & -> & ->). reflexivity.
Qed.

(* productivity cannot be dropped: for g_unprod (S -> A, A -> A a) everything else holds *)
Example productive_needed :
  grammar_wf g_unprod = true /\ grammar_wf_extra g_unprod = true /\ productiveb g_unprod = false /\
  match gen g_unprod with
  | inl (sts, tbl) => conflict_free g_unprod (length sts) tbl = true /\ accept_clean g_unprod sts = true /\
                      term_checks g_unprod (map st_all sts) tbl = false
  | inr _ => False
  end.
Proof. vm_compute. repeat split; reflexivity. Qed.

Print Assumptions g_expr_decides.
