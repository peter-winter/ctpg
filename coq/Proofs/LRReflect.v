(* Boolean reflection, bit-set facts, list facts, what first_of_syms does to its accumulator whatever the sets are
   (same length, nothing lost), and the induction principle for derivation trees with a hypothesis for the children. *)
Require Import Ctpg.Base.Prelude Ctpg.Proofs.ListFacts Ctpg.Model.Grammar Ctpg.Model.LRGen Ctpg.Spec.Cfg.

Lemma item_eqb_eq a b : item_eqb a b = true <-> a = b.
Proof.
  unfold item_eqb. destruct a as [r d t], b as [r' d' t']; cbn.
  rewrite !andb_true_iff, !Nat.eqb_eq. split.
  - intros [[H1 H2] H3]; subst; reflexivity.
  - intros H; inversion H; auto.
Qed.

Lemma mem_item_In x l : mem_item x l = true <-> In x l.
Proof.
  induction l as [|y l IH]; cbn.
  - split; [discriminate|tauto].
  - destruct (item_eqb x y) eqn:E.
    + apply item_eqb_eq in E. subst. tauto.
    + rewrite IH. split; [tauto|]. intros [H|H]; [|assumption].
      subst. assert (item_eqb x x = true) by (apply item_eqb_eq; reflexivity). congruence.
Qed.

Lemma kind_eqb_eq a b : kind_eqb a b = true <-> a = b.
Proof. destruct a, b; cbn; split; intros; congruence. Qed.

Lemma symbol_eqb_eq a b : symbol_eqb a b = true <-> a = b.
Proof.
  destruct a, b; cbn; rewrite ?Nat.eqb_eq; split; intros H; try congruence; inversion H; reflexivity.
Qed.

Lemma symbol_eqb_refl a : symbol_eqb a a = true.
Proof. apply symbol_eqb_eq; reflexivity. Qed.

Lemma Forall2_app_inv_both {A B} (R : A -> B -> Prop) l1 l2 m1 m2 :
  length l1 = length m1 -> Forall2 R (l1 ++ l2) (m1 ++ m2) -> Forall2 R l1 m1 /\ Forall2 R l2 m2.
Proof.
  revert m1; induction l1 as [|x l1 IH]; intros [|y m1] Hl H; cbn in *; try discriminate.
  - split; [constructor|assumption].
  - inversion H; subst. destruct (IH m1) as [H1 H2]; [lia|assumption|]. split; [constructor|]; assumption.
Qed.

Lemma flat_map_app' {A B} (f : A -> list B) l1 l2 : flat_map f (l1 ++ l2) = flat_map f l1 ++ flat_map f l2.
Proof. apply flat_map_app. Qed.

(* what a bit of a set reads after each operation; the pointwise facts below are these three equations *)
Lemma bset_test_empty n j : bset_test (bset_empty n) j = false.
Proof. unfold bset_test, bset_empty. revert j; induction n as [|n IH]; intros [|j]; cbn; auto. Qed.

Lemma bset_test_set_eq s i j :
  bset_test (bset_set s i) j = (Nat.eqb j i && Nat.ltb i (length s)) || bset_test s j.
Proof. unfold bset_test, bset_set. rewrite nth_update. destruct (_ && _); reflexivity. Qed.

Lemma bset_test_or a b j :
  bset_test (bset_or a b) j = bset_test a j || (Nat.ltb j (length a) && bset_test b j).
Proof.
  unfold bset_test. revert b j; induction a as [|x a IH]; intros b j.
  - destruct j; reflexivity.
  - destruct b as [|y b], j as [|j]; cbn [bset_or nth]; rewrite ?andb_false_r, ?orb_false_r; try reflexivity.
    exact (IH b j).
Qed.

Lemma bset_set_length s i : length (bset_set s i) = length s.
Proof. apply update_length. Qed.

Lemma bset_set_same s i : i < length s -> bset_test (bset_set s i) i = true.
Proof. intros H%Nat.ltb_lt. rewrite bset_test_set_eq, Nat.eqb_refl, H. reflexivity. Qed.

Lemma bset_set_mono s i j : bset_test s j = true -> bset_test (bset_set s i) j = true.
Proof. intros H. rewrite bset_test_set_eq, H. apply orb_true_r. Qed.

Lemma bset_test_set s i j : bset_test (bset_set s i) j = true -> j = i \/ bset_test s j = true.
Proof. rewrite bset_test_set_eq. intros [(E%Nat.eqb_eq & _)%andb_prop|H]%orb_prop; auto. Qed.

Lemma bset_or_length a b : length (bset_or a b) = length a.
Proof. revert b; induction a as [|x a IH]; intros [|y b]; cbn; auto. Qed.

Lemma bset_or_mono_r a b j : j < length a -> bset_test b j = true -> bset_test (bset_or a b) j = true.
Proof. intros Hl%Nat.ltb_lt H. rewrite bset_test_or, Hl, H. apply orb_true_r. Qed.

Lemma bset_empty_length n : length (bset_empty n) = n.
Proof. apply repeat_length. Qed.

Lemma bset_test_lt s j : bset_test s j = true -> j < length s.
Proof.
  intros H. destruct (Nat.lt_ge_cases j (length s)) as [Hlt|Hge]; [assumption|].
  unfold bset_test in H. rewrite nth_overflow in H by assumption. discriminate.
Qed.

Lemma first_of_syms_length g ne nf acc r : length (first_of_syms g ne nf acc r) = length acc.
Proof.
  revert acc; induction r as [|[i|n] r IH]; intros acc; cbn.
  - reflexivity.
  - apply bset_set_length.
  - destruct (bset_test ne n); [rewrite IH|]; apply bset_or_length.
Qed.

Lemma first_of_syms_mono g ne nf acc r j :
  bset_test acc j = true -> bset_test (first_of_syms g ne nf acc r) j = true.
Proof.
  revert acc; induction r as [|[i|n] r IH]; intros acc H; cbn [first_of_syms].
  - assumption.
  - apply bset_set_mono; assumption.
  - destruct (bset_test ne n); [apply IH|]; rewrite bset_test_or, H; reflexivity.
Qed.

Fixpoint tree_ind' (P : tree -> Prop) (HL : forall a, P (Leaf a))
         (HN : forall r ch, Forall P ch -> P (Node r ch)) (t : tree) : P t :=
  match t with
  | Leaf a => HL a
  | Node r ch =>
      HN r ch ((fix go (l : list tree) : Forall P l :=
                  match l with
                  | [] => Forall_nil P
                  | x :: l' => Forall_cons x (tree_ind' P HL HN x) (go l')
                  end) ch)
  end.

Lemma flat_map_nil_inv {A B} (f : A -> list B) l : flat_map f l = [] -> Forall (fun x => f x = []) l.
Proof.
  induction l as [|x l IH]; cbn; intros H; constructor.
  - apply app_eq_nil in H. tauto.
  - apply IH. apply app_eq_nil in H. tauto.
Qed.
