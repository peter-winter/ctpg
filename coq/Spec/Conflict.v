(* What an LR(1) conflict in one parse-table cell is, and the documented rule that resolves a
   shift/reduce conflict by precedence and associativity. Definitions only; written without reference to
   solve_conflict / scan_cell, so that the theorems of Proofs/CellResolve.v relate two independent texts.

   A "cell" is given by the items of one state that fall into one table column, in the order in which the
   generator visits them. For the column of term t these are the items with [T t] after the dot (shift items)
   and the completed items with lookahead t (reduce items). *)
Require Import Ctpg.Base.Prelude Ctpg.Model.Grammar Ctpg.Model.LRGen.

(* ---------- the items of a term column ---------- *)

Definition in_term_bucket (g : grammar) (t : nat) (its : list item) : Prop :=
  forall i, In i its ->
    (is_complete g i = true /\ it_t i = t) \/
    (is_complete g i = false /\ next_sym g i = Some (T t)).

Definition reduce_items (g : grammar) (its : list item) : list item := filter (is_complete g) its.
Definition shift_items (g : grammar) (its : list item) : list item :=
  filter (fun i => negb (is_complete g i)) its.

(* the item's rule is the root rule ## -> root *)
Definition is_root_item (g : grammar) (i : item) : bool :=
  Nat.eqb (ri_r (get_ri g (it_r i))) (root_rule_idx g).
(* [## -> root . , t] : reducing it means accepting *)
Definition root_complete (g : grammar) (i : item) : bool := is_complete g i && is_root_item g i.
Definition no_root_complete (g : grammar) (its : list item) : Prop :=
  forall i, In i its -> root_complete g i = false.

(* items of a real state never have the dot beyond the end of the rule; needed only where the statement
   speaks about rules (it_r) instead of items *)
Definition dots_in_range (g : grammar) (its : list item) : Prop :=
  forall i, In i its -> it_d i <= ri_n (get_ri g (it_r i)).

(* ---------- conflicts ---------- *)

Definition has_sr_conflict (g : grammar) (its : list item) : Prop :=
  exists i j, In i (reduce_items g its) /\ is_root_item g i = false /\ In j (shift_items g its).

(* accept counts as a reduction (of the root rule): accept/reduce is an R/R conflict.
   KNOWN DEVIATION (finding D12): the generator breaks out of its loop at a completed root item, so an
   accept/reduce conflict (and anything after the root item) leaves no mark; the theorems that relate this
   definition to the generator therefore assume that the cell holds no completed root item, and
   Proofs/CellResolve.v exhibits the deviation (success_hides_later_items, D12_accept_reduce_hidden). *)
Definition has_rr_conflict (g : grammar) (its : list item) : Prop :=
  exists i j, In i (reduce_items g its) /\ In j (reduce_items g its) /\ it_r i <> it_r j.

(* ---------- the documented resolution of a shift/reduce conflict ---------- *)

(* the precedence of a rule is its explicit precedence or else that of its last term; its associativity is that
   of its last term (both are tabulated per r_idx by the rule analysis, Model/Grammar.v) *)
Definition rule_prec_of (g : grammar) (rule_info_idx : nat) : Z :=
  nth (ri_r (get_ri g rule_info_idx)) (rule_prec g) 0%Z.
Definition rule_assoc_of (g : grammar) (rule_info_idx : nat) : assoc :=
  nth (ri_r (get_ri g rule_info_idx)) (rule_assoc g) NoAssoc.
Definition term_prec_of (g : grammar) (term : nat) : Z := nth term (term_prec g) 0%Z.

(* reduce if the rule binds tighter than the term, or equally tight and left associative; shift otherwise *)
Definition sr_choice (g : grammar) (rule_info_idx term : nat) : kind :=
  match Z.compare (rule_prec_of g rule_info_idx) (term_prec_of g term) with
  | Gt => KReduce
  | Eq => match rule_assoc_of g rule_info_idx with
          | Ltor => KReduce
          | Rtol => KShift
          | NoAssoc => KShift
          end
  | Lt => KShift
  end.

(* ---------- what a cell should record, as a function of the items visited ---------- *)

Definition advance (i : item) : item := mkItem (it_r i) (S (it_d i)) (it_t i).

(* remove repetitions, keeping first occurrences in order *)
Fixpoint dedup_first (l : list item) : list item :=
  match l with
  | [] => []
  | x :: t => x :: filter (fun y => negb (item_eqb x y)) (dedup_first t)
  end.

Definition first_red (g : grammar) (its : list item) : option nat :=
  option_map it_r (hd_error (reduce_items g its)).
Definition any_shift (g : grammar) (its : list item) : bool :=
  existsb (fun i => negb (is_complete g i)) its.
Definition target_kernel (g : grammar) (its : list item) : list item :=
  dedup_first (map advance (shift_items g its)).

Definition is_some {A} (o : option A) : bool := match o with Some _ => true | None => false end.

(* kind of a cell with at most one reduction (rule_info index [red]) and possibly shifts *)
Definition cell_kind (g : grammar) (t : nat) (red : option nat) (hs : bool) : kind :=
  match red, hs with
  | None, false => KError
  | None, true => KShift
  | Some _, false => KReduce
  | Some r, true => sr_choice g r t
  end.

Definition cell_state (g : grammar) (t : nat) (red : option nat) (hs : bool) (ker : list item) : scan :=
  mkScan (cell_kind g t red hs) (is_some red && hs) (is_some red) hs red ker.

(* the record expected after visiting all of [its] when nothing stops the visit *)
Definition cell_summary (g : grammar) (t : nat) (its : list item) : scan :=
  cell_state g t (first_red g its) (any_shift g its) (target_kernel g its).

Definition with_kind (k : kind) (s : scan) : scan :=
  mkScan k (sc_sr s) (sc_has_red s) (sc_has_shift s) (sc_red s) (sc_kernel s).

(* Where the visit stops. [pre] is visited completely, [i] is the item at which the loop breaks.
   - accept: a completed root item, met while at most one reduction has been seen;
   - R/R: a second reduction, met before any completed root item. *)
Definition stops_success (g : grammar) (its pre : list item) (i : item) (post : list item) : Prop :=
  its = pre ++ i :: post /\ root_complete g i = true /\
  no_root_complete g pre /\ length (reduce_items g pre) <= 1.
Definition stops_rr (g : grammar) (its pre : list item) (i : item) (post : list item) : Prop :=
  its = pre ++ i :: post /\ is_complete g i = true /\ is_root_item g i = false /\
  no_root_complete g pre /\ length (reduce_items g pre) = 1.
Definition never_stops (g : grammar) (its : list item) : Prop :=
  no_root_complete g its /\ length (reduce_items g its) <= 1.

(* the items visited before the loop stops (the item at which it breaks is not included);
   [seen] tells whether a reduction has been seen already *)
Fixpoint scanned (g : grammar) (its : list item) (seen : bool) : list item :=
  match its with
  | [] => []
  | i :: rest =>
      if is_complete g i then
        if is_root_item g i then []
        else if seen then [] else i :: scanned g rest true
      else i :: scanned g rest seen
  end.

(* ---------- the entry written into the table (transitions()) and its line in the diagnostic ---------- *)

(* the flag stored with the entry: for a reduce entry the C++ stores has_shift, otherwise the sr flag *)
Definition entry_flag (s : scan) : bool :=
  match sc_kind s with KReduce => sc_has_shift s | _ => sc_sr s end.

Definition entry_kind (g : grammar) (col : nat) (k : kind) : kind :=
  match k with
  | KShift => if Nat.eqb col (nterm_count g + err_idx g) then KShiftErr else KShift
  | _ => k
  end.

(* a cell that the diagnostic should mark as a conflict *)
Definition cell_conflict (e : entry) : bool :=
  match e_kind e with
  | KReduce | KShift | KShiftErr => e_sr e
  | KRR => true
  | _ => false
  end.
